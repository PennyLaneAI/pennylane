(* C25 Noise insertion and error mitigation follow their definitions.
   Statements only; every proof applies one or two lemmas of Disc/FoldProofs.v. *)
From Coq Require Import List ZArith Bool QArith.
From PLV Require Import Disc.FoldModel Disc.FoldProofs.
Import ListNotations.
Open Scope Z_scope.

(* ---------------------------------------------------------------- fold_global *)
(* In ANY group (carrier G, product, inverse, unit satisfying the group laws), with Adjoint read as the
   formal inverse and an arbitrary interpretation `den` of the base gates, the product of the folded
   circuit equals the product of the original circuit: all circuits, all scale factors p/q. *)
Theorem fold_sem :
  forall (G : Type) (op : G -> G -> G) (inv : G -> G) (e : G),
    (forall a b c, op a (op b c) = op (op a b) c) ->
    (forall a, op e a = a) -> (forall a, op a e = a) ->
    (forall a, op (inv a) a = e) -> (forall a, op a (inv a) = e) ->
    forall (den : bool -> Z -> list Z -> Z -> G) (ops : list gate) (p q : Z) (out : list gate),
      fold_global ops p q = Some out ->
      gprod op inv e den out = gprod op inv e den ops.
Proof. exact fold_sem_group. Qed.
Print Assumptions fold_sem.

(* folding is refused exactly for circuits containing a Channel *)
Theorem fold_defined_iff_no_channel : forall ops p q,
  existsb is_channel ops = false <-> fold_global ops p q <> None.
Proof. exact fold_total. Qed.
Print Assumptions fold_defined_iff_no_channel.

(* gate count = n(1+2k) + 2m with the source's k = floor((s-1)/2) (negative k counts as 0 because
   list * k is empty) and m = round_half_even(frac * n / 2), and 0 <= m <= n *)
Theorem fold_count : forall ops p q out, 0 < q -> fold_global ops p q = Some out ->
  let n := Z.of_nat (length ops) in
  Z.of_nat (length out) = n * (1 + 2 * Z.max 0 (fold_k p q)) + 2 * fold_m p q n
  /\ 0 <= fold_m p q n <= n.
Proof.
  intros ops p q out Hq H; split;
    [exact (fold_count_len ops p q out Hq H) | exact (fold_m_bounds p q _ Hq (Nat2Z.is_nonneg _))].
Qed.
Print Assumptions fold_count.

(* "gate count matching the scale factor": for s = p/q >= 1, | len - s * n | <= 1 *)
Theorem fold_count_matches_scale : forall ops p q out, 0 < q -> q <= p -> fold_global ops p q = Some out ->
  Z.abs (q * Z.of_nat (length out) - p * Z.of_nat (length ops)) <= q.
Proof. exact fold_count_near. Qed.
Print Assumptions fold_count_matches_scale.

(* ---------------------------------------------------------------- add_noise *)
(* the transcribed loop (curr_ops accumulation, .index search) equals the tidy description: every
   operator g is replaced by  [parts queued ahead of a re-queued g, last pair outermost] ++ [g] ++
   [everything else the selected noise functions queue, in model order] *)
Theorem add_noise_exact : forall (model : noise_model) ops,
  add_noise model ops = flat_map (noise_block model) ops.
Proof. exact add_noise_spec. Qed.
Print Assumptions add_noise_exact.

(* documented side: when no noise function re-queues the operator itself, the channels noise(op) of
   exactly the pairs with cond(op) = true follow op, in model order, and nothing else changes *)
Theorem add_noise_after_op : forall (model : noise_model) ops,
  (forall cn g, In cn model -> In g ops -> fst cn g = true -> ~ In g (snd cn g)) ->
  add_noise model ops = flat_map (fun g => g :: flat_map (sel g) model) ops.
Proof. exact add_noise_after. Qed.
Print Assumptions add_noise_after_op.

(* erasing what was inserted gives back the input; what was inserted is exactly the selected noise.
   P is any marker separating inserted operators from circuit operators (e.g. is_channel). *)
Theorem insert_positions_exact : forall (P : gate -> bool) (model : noise_model) ops,
  (forall g, In g ops -> P g = false) ->
  (forall cn g x, In cn model -> In g ops ->
     In x (pre_of g (sel g cn)) \/ In x (post_of g (sel g cn)) -> P x = true) ->
  filter (fun g => negb (P g)) (add_noise model ops) = ops /\
  filter P (add_noise model ops) = flat_map (fun g => noise_before model g ++ noise_after model g) ops.
Proof. exact add_noise_split. Qed.
Print Assumptions insert_positions_exact.

Theorem add_noise_nothing_selected : forall (model : noise_model) ops,
  (forall cn g, In cn model -> In g ops -> fst cn g = false) -> add_noise model ops = ops.
Proof. exact add_noise_none_selected. Qed.
Print Assumptions add_noise_nothing_selected.

(* ---------------------------------------------------------------- insert *)
(* the transcribed loop equals: leading state preparations, [op on every tape wire if "start"],
   each remaining operator with op on each of its wires placed after it (before it when before=True)
   for "all" / once per matching class of a class list, [op on every tape wire if "end"] *)
Theorem insert_exact : forall mk pos before ops mw,
  insert_ops mk pos before ops mw = insert_spec mk pos before ops mw.
Proof. exact insert_ops_spec. Qed.
Print Assumptions insert_exact.

Theorem insert_positions_exact_insert : forall (P : gate -> bool) mk ops pos before mw,
  (forall g, In g ops -> P g = false) ->
  (forall w x, In x (mk w) -> P x = true) ->
  filter (fun g => negb (P g)) (insert_ops mk pos before ops mw) = ops /\
  filter P (insert_ops mk pos before ops mw) =
    (if is_pos pos PStart then flat_map mk (tape_wires ops mw) else [])
    ++ flat_map (ins_of mk pos) (skipn (num_preps ops) ops)
    ++ (if is_pos pos PEnd then flat_map mk (tape_wires ops mw) else []).
Proof. intros P mk ops pos before mw H1 H2. exact (insert_split P mk ops H1 H2 pos before mw). Qed.
Print Assumptions insert_positions_exact_insert.

Theorem insert_nothing_selected : forall mk cl before ops mw,
  (forall g c, In g ops -> In c cl -> isa g c = false) ->
  insert_ops mk (POps cl) before ops mw = ops.
Proof. exact insert_none_selected. Qed.
Print Assumptions insert_nothing_selected.

(* ---------------------------------------------------------------- extrapolation *)
(* for every n, n pairwise distinct nodes and data taken from ANY polynomial of degree <= n-1
   (coefficient list c, constant term first) the interpolant at 0 is p(0).  In particular the value is
   that of every solution of the Vandermonde system, i.e. the exact-arithmetic result of
   richardson_extrapolate / poly_extrapolate(order = n-1). *)
Theorem poly_extrapolate_exact : forall (d : list (Q * Q)) (c : list Q),
  (length c <= length d)%nat -> distinctQ (map fst d) ->
  Forall (fun xy => (snd xy == peval c (fst xy))%Q) d ->
  (richardson d == peval c 0)%Q.
Proof. exact extrap_exact. Qed.
Print Assumptions poly_extrapolate_exact.

(* ---------------------------------------------------------------- non-vacuity *)
(* the integers under addition are a group; scale factor 1/2 (k = -1, m = 2) and 15/4 *)
Example fold_example :
  let ops := [Base 12 [0] 32; Base 21 [0] 0; Adj (Base 14 [0] 8)] in
  fold_global ops 1 2 = Some (ops ++ [Adj (Adj (Base 14 [0] 8)); Adj (Base 21 [0] 0); Base 21 [0] 0; Adj (Base 14 [0] 8)])
  /\ fold_k 15 4 = 1 /\ fold_m 15 4 3 = 1
  /\ gprod Z.add Z.opp 0 (fun _ n _ p => n + p) ops = 12 + 32 + 21 - (14 + 8).
Proof. repeat split. Qed.

Example noise_example :
  let model := eval_model [(COpIn [12; 23], NCustom [NEach true 44 8; NSelf; NEach true 43 16]);
                           (CWiresIn [0; 1], NPartial 40 32)] in
  let ops := [Base 12 [0] 32; Base 21 [3] 0] in
  add_noise model ops = [Chan 44 [0] 8; Base 12 [0] 32; Chan 43 [0] 16; Chan 40 [0] 32; Base 21 [3] 0]
  /\ (forall g, In g ops -> is_channel g = false).
Proof. split; [reflexivity|]. intros g [<-|[<-|[]]]; reflexivity. Qed.

Example extrap_example :
  let d := [(1 # 1, 3 # 1); (2 # 1, 7 # 1); (3 # 1, 13 # 1)]%Q in
  distinctQ (map fst d) /\ Forall (fun xy => (snd xy == peval [1; 1; 1] (fst xy))%Q) d /\ (richardson d == 1)%Q.
Proof.
  cbn [map fst distinctQ]. repeat split; repeat constructor; try reflexivity; try (intros H; discriminate H).
Qed.
