(* C74 MBQC conversion and Pauli tracking preserve the circuit -- part A: the Pauli tracker.
   Statements only; the proofs are in Disc/PauliTrackProofs.v.
   Semantics: a state is an amplitude function on bit assignments (wires = nat, any register size);
   op1 w m / op2 c t m apply a literal 2x2 / 4x4 matrix to wire(s); Hm, Sm, CXm, Xm, Ym, Zm are the textbook
   matrices over the Gaussian integers (Hm = sqrt2 * Hadamard: every statement below is homogeneous in the gate,
   so the scaling is immaterial).  A frame F : list (x, z) denotes the operator prod_w X_w^x Z_w^z.
   unit4 u  means  u in {1, i, -1, -i}. *)
From Coq Require Import List ZArith Bool.
From PLV Require Import Disc.PauliTrackModel Disc.PauliTrackProofs.
Import ListNotations.

(* C P = u P' C for one gate of {H, S, CNOT} on any wires of an n-wire register and EVERY n-wire Pauli frame,
   where P' is the frame the tracker records (commute_clifford_op applied to the gate's wires) *)
Theorem commute_through_gate : forall n g F psi, length F = n -> gate_ok n g ->
  sem_gate g (sem_frame F psi) = scal (phase_gate g F) (sem_frame (track_gate g F) (sem_gate g psi))
  /\ unit4 (phase_gate g F).
Proof. intros n g F psi HF Hg; split; [exact (commute_gate n g F psi HF Hg) | exact (phase_gate_unit g F)]. Qed.
Print Assumptions commute_through_gate.

(* ... lifted to every Clifford circuit over {H, S, CNOT} on n wires, any n, every frame, every state *)
Theorem commute_through_circuit : forall n cs F psi, length F = n -> Forall (gate_ok n) cs ->
  exists u, unit4 u /\ sem_circ cs (sem_frame F psi) = scal u (sem_frame (track_circ cs F) (sem_circ cs psi)).
Proof. exact commute_circ. Qed.
Print Assumptions commute_through_circuit.

(* the public table function agrees with the per-gate maps used above, on all frames of the gate's wires *)
Theorem commute_clifford_op_is_table : forall pc pt : xz,
  commute_clifford_op CH [[zb (fst pc); zb (snd pc)]] = Some [commute_h pc] /\
  commute_clifford_op CS [[zb (fst pc); zb (snd pc)]] = Some [commute_s pc] /\
  commute_clifford_op CCNOT [[zb (fst pc); zb (snd pc)]; [zb (fst pt); zb (snd pt)]] =
    Some [fst (commute_cnot pc pt); snd (commute_cnot pc pt)].
Proof. exact commute_clifford_op_spec. Qed.
Print Assumptions commute_clifford_op_is_table.

(* the same on literal 2x2 / 4x4 matrices with Hermitian Pauli labels I, X, Y, Z: C P = +-P' C
   (finite domains: 4 Paulis for H and S, 16 Pauli pairs for CNOT; pm_eq a b := a = b \/ a = -b) *)
Theorem pauli_tracker_ok_H : forall p : pauli, pm_eq (mmul Hmat (pmat p)) (mmul (pmat (relabel commute_h p)) Hmat).
Proof. exact tracker_matrix_H. Qed.
Print Assumptions pauli_tracker_ok_H.
Theorem pauli_tracker_ok_S : forall p : pauli, pm_eq (mmul Smat (pmat p)) (mmul (pmat (relabel commute_s p)) Smat).
Proof. exact tracker_matrix_S. Qed.
Print Assumptions pauli_tracker_ok_S.
Theorem pauli_tracker_ok_CNOT : forall p q : pauli,
  pm_eq (mmul CXmat (kron (pmat p) (pmat q)))
        (mmul (kron (pmat (xz_to_pauli_b (fst (commute_cnot (pauli_to_xz p) (pauli_to_xz q)))))
                    (pmat (xz_to_pauli_b (snd (commute_cnot (pauli_to_xz p) (pauli_to_xz q)))))) CXmat).
Proof. exact tracker_matrix_CX. Qed.
Print Assumptions pauli_tracker_ok_CNOT.

(* the amplitude-function semantics is the matrix semantics (1 and 2 wires, wire 0 = most significant bit) *)
Theorem semantics_is_matrix_semantics :
  matrix_of 1 (op1 0 Hm) = Hmat /\ matrix_of 1 (op1 0 Sm) = Smat /\ matrix_of 2 (op2 0 1 CXm) = CXmat /\
  (forall p, matrix_of 1 (sem_pauli 0 p) = pmat p) /\
  (forall p q, matrix_of 2 (fun psi => sem_pauli 0 p (sem_pauli 1 q psi)) = kron (pmat p) (pmat q)).
Proof. exact matrix_of_gates. Qed.
Print Assumptions semantics_is_matrix_semantics.

(* pauli_prod: the product ops[0] ops[1] ... of Pauli operators on one wire is, up to a phase in {1,i,-1,-i},
   the Pauli the function returns; it fails exactly on the empty list or a non-Pauli entry *)
Theorem pauli_prod_is_product_up_to_phase : forall l w r psi, pauli_prod (map Some l) = Some r ->
  exists u, unit4 u /\ fold_right (sem_pauli w) psi l = scal u (opP w r psi).
Proof. exact pauli_prod_sem. Qed.
Print Assumptions pauli_prod_is_product_up_to_phase.
Theorem pauli_prod_fails_iff : forall l, pauli_prod l = None <-> l = [] \/ In None l.
Proof. exact pauli_prod_none. Qed.
Print Assumptions pauli_prod_fails_iff.

(* _correct_samples: the amplitude of (frame . psi) at bit string b is, up to a sign, the amplitude of psi at
   b xor x-record; hence xor-ing a computational-basis sample with the recorded x undoes the frame
   (the z record and every phase are invisible to such a sample) -- every frame, any number of wires *)
Theorem corrected_sample_undoes_frame : forall F psi b, exists s, pm1 s /\
  sem_frame F psi b = gmul s (psi (fun i => xorb (b i) (fst (nth i F pI)))).
Proof. exact frame_amplitude. Qed.
Print Assumptions corrected_sample_undoes_frame.

(* non-vacuity: a 3-wire circuit and frame meeting the hypotheses, with the tracked frame computed *)
Example hyps_satisfiable :
  Forall (gate_ok 3) [GH 0; GCX 0 2; GS 2; GCX 2 1] /\
  track_circ [GH 0; GCX 0 2; GS 2; GCX 2 1] [(true, false); (false, true); (true, true)]
    = [(false, false); (true, true); (true, true)] /\
  pauli_prod [Some PI; Some PX; Some PY; Some PZ] = Some (false, false).
Proof. repeat split; repeat constructor; auto. Qed.
