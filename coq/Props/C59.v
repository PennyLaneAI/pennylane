(* C59 Fourier analysis tools are sound.
   Statements only; every proof is one line from Num/FourierProofs.v.
   InQ x l  = x is (==) a member of the list l of rationals;  nonneg l = all members >= 0;
   ssorted l = strictly increasing (sorted, no duplicates);  mirror / join_nn / get_spectrum are the
   transcriptions of circuit_spectrum / utils.join_spectra / utils.get_spectrum. *)
From Coq Require Import List ZArith QArith Qabs Bool.
From PLV Require Import Num.FourierModel Num.FourierProofs.
Import ListNotations.
Open Scope Q_scope.

(* ---- (a) spectra ---- *)
(* the sumset: x is a member iff it is a sum u+v; the result is sorted with duplicates removed *)
Theorem join_spectra_is_sumset : forall a b x,
  (InQ x (sumset a b) <-> exists u v, In u a /\ In v b /\ x == u + v) /\ ssorted (sumset a b).
Proof. intros a b x; split; [exact (sumset_spec_In x a b) | exact (setQ_ssorted (sums a b))]. Qed.
Print Assumptions join_spectra_is_sumset.

(* what the code really does (non-negative half spectra, {0} short cuts, sums and |differences|, then
   "[-f for f in spec[:0:-1]] + spec") is the sumset of the two full symmetric spectra *)
Theorem implementation_join_is_sumset : forall a b x, nonneg a -> nonneg b -> InQ 0 a -> InQ 0 b ->
  (InQ x (mirror (join_nn a b)) <-> InQ x (sumset (mirror a) (mirror b))).
Proof. intros a b x; exact (mirror_join_sumset x a b). Qed.
Print Assumptions implementation_join_is_sumset.

(* to iterate the previous theorem over a whole circuit its hypotheses must hold of join_nn a b again:
   non-negativity is kept (this theorem); that 0 stays a member is shown inside mirror_join_sumset and has no
   statement of its own here *)
Theorem join_keeps_invariants : forall a b, nonneg a -> nonneg b -> nonneg (join_nn a b).
Proof. exact join_nn_nonneg. Qed.
Print Assumptions join_keeps_invariants.

(* commutative and associative: as canonical lists (entry by entry ==), hence as sets *)
Theorem join_assoc_comm : forall a b c,
  Forall2 Qeq (sumset a b) (sumset b a) /\ Forall2 Qeq (sumset (sumset a b) c) (sumset a (sumset b c)).
Proof. intros a b c; split; [exact (sumset_comm a b) | exact (sumset_assoc a b c)]. Qed.
Print Assumptions join_assoc_comm.

(* a gate's reported spectrum = all differences of two generator eigenvalues (evals ascending, as eigvalsh returns) *)
Theorem gate_spectrum_is_eigenvalue_differences : forall ev x, ev <> [] -> wsorted ev ->
  (InQ x (mirror (get_spectrum ev)) <-> exists e e', In e ev /\ In e' ev /\ x == e' - e).
Proof. intros ev x; exact (get_spectrum_spec ev x). Qed.
Print Assumptions gate_spectrum_is_eigenvalue_differences.

(* product of two finite Fourier sums: every frequency is a sum of one frequency of each factor, and the
   formal product is the product of the functions for every multiplicative character chi (e^{i w x}) *)
Theorem spectrum_of_product_circuit : forall p q f, In f (freqs (fmul p q)) ->
  (exists u v, In u (freqs p) /\ In v (freqs q) /\ f = u + v) /\ InQ f (sumset (freqs p) (freqs q)).
Proof. intros p q f H; split; [exact (freqs_fmul f p q H) | exact (freqs_fmul_sumset f p q H)]. Qed.
Print Assumptions spectrum_of_product_circuit.

Theorem product_of_fourier_sums_is_product : forall chi, (forall a b, chi (a + b) == chi a * chi b) ->
  forall p q, feval chi (fmul p q) == feval chi p * feval chi q.
Proof. exact feval_fmul. Qed.
Print Assumptions product_of_fourier_sums_is_product.

(* classical preprocessing x -> a x scales every frequency by a: for finite Fourier sums ... *)
Theorem scaling_scales_frequencies : forall a p chi,
  freqs (fscale_arg a p) = map (Qmult a) (freqs p) /\ feval chi (fscale_arg a p) = feval (fun w => chi (a * w)) p.
Proof. intros a p chi; split; [exact (freqs_fscale a p) | exact (feval_fscale chi a p)]. Qed.
Print Assumptions scaling_scales_frequencies.

(* ... and for the transcription of qnode_spectrum (half spectrum times |jac|, then mirrored) *)
Theorem implementation_scaling_scales_spectrum : forall j s x, nonneg s -> InQ 0 s ->
  (InQ x (mirror (map (Qmult (Qabs j)) s)) <-> exists u, InQ u (mirror s) /\ x == j * u).
Proof. intros j s x; exact (mirror_scale x j s). Qed.
Print Assumptions implementation_scaling_scales_spectrum.

Theorem scaling_distributes_over_join : forall c a b x,
  InQ x (scaleset c (sumset a b)) <-> InQ x (sumset (scaleset c a) (scaleset c b)).
Proof. intros c a b x; exact (scaleset_sumset c a b x). Qed.
Print Assumptions scaling_distributes_over_join.

(* ---- (b) coefficients: the DFT is exact for band-limited functions ---- *)
(* any commutative ring (R, 0, 1, +, *, -, opp), any N, any w with w^N = 1 and w^m - 1 regular (not a zero
   divisor) for 0 < m < N:  sum_j w^(j r) w^(-j q) = N [r = q] *)
Theorem dft_orthogonality : forall (R : Type) (rO rI : R) (radd rmul rsub : R -> R -> R) (ropp : R -> R),
  ring_theory rO rI radd rmul rsub ropp (@eq R) -> forall (N : nat) (w : R),
  rpow R rI rmul w N = rI ->
  (forall m, (0 < m < N)%nat -> regular R rO rmul (rsub (rpow R rI rmul w m) rI)) ->
  forall r q, (r < N)%nat -> (q < N)%nat ->
  rsum R rO radd N (fun j => rmul (rpow R rI rmul w (j * r)) (rpow R rI rmul w (j * (N - q))))
  = if Nat.eqb r q then rnat R rO rI radd N else rO.
Proof. exact orthogonality. Qed.
Print Assumptions dft_orthogonality.

(* the samples f(x_j) = sum_r c_r w^(j r) at N equidistant points (for N = 2d+1 the residues r are the
   frequencies -d..d in np.fft layout) are transformed back to N c_q: coefficients() = DFT / N is exact *)
Theorem dft_exact_bandlimited : forall (R : Type) (rO rI : R) (radd rmul rsub : R -> R -> R) (ropp : R -> R),
  ring_theory rO rI radd rmul rsub ropp (@eq R) -> forall (N : nat) (w : R) (cs : nat -> R),
  rpow R rI rmul w N = rI ->
  (forall m, (0 < m < N)%nat -> regular R rO rmul (rsub (rpow R rI rmul w m) rI)) ->
  forall q, (q < N)%nat ->
  dft R rO rI radd rmul N w (idft R rO rI radd rmul N w cs) q = rmul (rnat R rO rI radd N) (cs q).
Proof. exact dft_idft. Qed.
Print Assumptions dft_exact_bandlimited.

(* the executable model (cyclotomic coordinates, Phi_N table) satisfies the same orthogonality, exactly,
   for every odd N <= 17 (all sizes the harness generates: degree / threshold <= 8).  The bound on m is not
   used: geom_const depends on m mod N only (cyclo_orthogonality holds for every m) *)
Theorem dft_inverts_idft_partial : forall N m, In N [1; 3; 5; 7; 9; 11; 13; 15; 17]%Z -> (- 2 * N <= m <= 2 * N)%Z ->
  geom_const N ((N - 1) / 2) m = Some (if Z.eqb (m mod N) 0 then N else 0)%Z.
Proof. intros N m HN _; exact (cyclo_orthogonality N m HN). Qed.
Print Assumptions dft_inverts_idft_partial.

Theorem model_dft_kernel_is_delta : forall N, In N [1; 3; 5; 7; 9; 11; 13; 15; 17]%Z ->
  gtab N ((N - 1) / 2) = Some N :: repeat (Some 0%Z) (Z.to_nat (N - 1)).
Proof. exact gtab_delta. Qed.
Print Assumptions model_dft_kernel_is_delta.

(* low-pass filter bookkeeping (fftshift, take, ifftshift): position i of the result holds the coefficient
   of the same frequency as the position it is copied from *)
Theorem lowpass_keeps_frequencies : forall t d i, (0 <= d <= t)%Z -> (0 <= i < 2 * d + 1)%Z ->
  freq_of_pos t (filter_src t d i) = freq_of_pos d i.
Proof. exact filter_src_freq. Qed.
Print Assumptions lowpass_keeps_frequencies.

(* ---- non-vacuity ---- *)
Example spectra_hyps_satisfiable :
  nonneg (get_spectrum [-(1#2); 1#2]) /\ InQ 0 (get_spectrum [-(1#2); 1#2]) /\ wsorted [-(1#2); 1#2] /\
  listQ_eqb (mirror (join_nn (get_spectrum [-(1#2); 1#2]) (map (Qmult (1#2)) (get_spectrum [0; 1]))))
            [-(3#2); -1; -(1#2); 0; 1#2; 1; 3#2] = true.
Proof.
  split; [apply get_spectrum_nonneg; cbn; intuition (subst; try discriminate; try (intros H; discriminate H)) |].
  split; [apply get_spectrum_zero|]. split; [cbn; intuition (subst; try discriminate; try (intros H; discriminate H)) | vm_compute; reflexivity].
Qed.
Example dft_hyps_satisfiable : rpow Z 1%Z Z.mul (-1)%Z 2 = 1%Z /\
  (forall m, (0 < m < 2)%nat -> regular Z 0%Z Z.mul (Z.sub (rpow Z 1%Z Z.mul (-1)%Z m) 1%Z)).
Proof. exact dft_instance_Z. Qed.
