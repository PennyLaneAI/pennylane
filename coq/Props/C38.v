(* C38 Metric tensors equal the Fubini-Study metric.  Statements only (see Props/C34.v for the vocabulary).
   c_metric s dI dJ = Re( <dI|dJ> - <dI|s><s|dJ> ) with Re z = (z + conj z)/2 ; c_quad is a polynomial of degree <= 2 in a
   list of values (the transform's post-processing: covariances are products of probabilities). *)
From Coq Require Import List ZArith QArith Reals Bool.
From Coquelicot Require Import Coquelicot.
From PLV Require Import Alg.Poly Alg.PolyEval Alg.Angles Alg.DerivDef Alg.Deriv Lin.Vec Lin.PVec Lin.PVecSound Lin.Grad Lin.GradSound Lin.Metric Lin.MetricSound.
Import ListNotations.

(* a discharged `metric_is` obligation: at every real parameter vector the components of the circuit's output state have
   partial derivatives dI, dJ with respect to theta_i, theta_j and the polynomial G evaluates to the Fubini-Study entry *)
Theorem certified_fubini_study_entry : forall hz D n circ i j Gp, (0 < hz)%Z -> metric_is hz D n circ i j Gp = true ->
  forall th : list R,
    let rho := aenv hz D th in
    let s := c_state n (map (evg rho) circ) in
    exists dI dJ : cvec,
      (forall m, Cderive (fun y => nth m (c_state n (map (evg (aenv hz D (upd th i y))) circ)) (RtoC 0)) (nth i th 0%R) (nth m dI (RtoC 0))) /\
      (forall m, Cderive (fun y => nth m (c_state n (map (evg (aenv hz D (upd th j y))) circ)) (RtoC 0)) (nth j th 0%R) (nth m dJ (RtoC 0))) /\
      peval rho Gp = c_metric s dI dJ.
Proof. exact metric_is_forall. Qed.
Print Assumptions certified_fubini_study_entry.

(* a discharged `postproc_is` obligation: the metric-tensor transform's post-processing applied to the exact results of its
   tapes evaluates to G (the certified Fubini-Study entry, or 0 outside the block / diagonal) at every parameter vector *)
Theorem metric_tensor_tapes_give_the_entry : forall hz D n quad lin c0 ts Gp, (0 < hz)%Z -> postproc_is hz n quad lin c0 ts Gp = true ->
  forall th : list R,
    let rho := aenv hz D th in
    c_quad (map (fun q => (peval rho (fst q), snd q)) quad) (map (fun l => (peval rho (fst l), snd l)) lin) (peval rho c0)
           (map (fun t => c_expval n (evtape rho t)) ts) = peval rho Gp.
Proof. exact postproc_is_forall. Qed.
Print Assumptions metric_tensor_tapes_give_the_entry.

(* the metric polynomial is symmetric under every good valuation *)
Theorem fubini_study_symmetric : forall hz D n circ i j rho, good_env hz rho ->
  peval rho (p_metric hz D n circ i j) = peval rho (p_metric hz D n circ j i).
Proof.
  intros hz D n circ i j rho G. rewrite !(ev_metric hz rho G). apply c_metric_sym.
Qed.
Print Assumptions fubini_study_symmetric.

(* non-vacuity: RX(theta_0) on |0>: metric entry 1/4 *)
Definition rx0 : pgate :=
  ([0%nat], [[ [(1#2, [0%Z; 2%Z]); (1#2, [0%Z; (-2)%Z])];   [(-1#2, [4%Z; 2%Z]); (1#2, [4%Z; (-2)%Z])] ];
             [ [(-1#2, [4%Z; 2%Z]); (1#2, [4%Z; (-2)%Z])]; [(1#2, [0%Z; 2%Z]); (1#2, [0%Z; (-2)%Z])] ]]).
Example metric_rx_quarter : metric_is 8 4 1 [rx0] 0 0 (pconst (1#4)) = true.
Proof. vm_compute. reflexivity. Qed.
