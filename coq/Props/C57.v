(* C57 State-preparation templates prepare the requested state.
   Statements; each proof is `exact <lemma>` or a conjunction of lemmas from Disc/StatePrepProofs.v.
   Proved here (for all sizes / inputs): the discrete and exact-arithmetic parts --
   (a) BasisState / BasisEmbedding: the X gates emitted by the decomposition, run from |0..0>, give exactly
       the requested basis state, which is also the one state_vector(wire_order) selects; index formula;
       int_to_binary; input canonicalisation;
   (b) StatePrep / AmplitudeEmbedding pre-processing over Gaussian rationals with rational norm: padding at
       the end to length 2^n, unit norm after normalisation, the accept/reject decision as the code takes it.
   NOT proved (validated per instance by the harness on the real implementation): the numerical angle
   synthesis of Mottonen / Multiplexer / QROM / MPS / Superposition / SumOfSlaters / PartialUnary /
   CosineWindow. *)
From Coq Require Import List ZArith Bool QArith Qabs.
From PLV Require Import Disc.StatePrepModel Disc.StatePrepProofs.
Import ListNotations.

Open Scope Z_scope.

(* for every number of wires, every bitstring and every labelling: the decomposition's X gates applied to
   the all-zero register of the operator's own wires leave exactly the requested bits ... *)
Theorem basis_decomposition_prepares_bits : forall bits wires,
  NoDup wires -> length bits = length wires ->
  reg_bits (run_x (decomp bits wires) (zero_reg wires)) = bits.
Proof. exact decomp_own_wires. Qed.
Print Assumptions basis_decomposition_prepares_bits.

(* ... i.e. the computational basis state with index sum_i b_i 2^(n-1-i) *)
Theorem basis_decomposition_index : forall bits wires,
  NoDup wires -> length bits = length wires ->
  index_of (reg_bits (run_x (decomp bits wires) (zero_reg wires))) = index_sum bits.
Proof. exact decomp_index_own. Qed.
Print Assumptions basis_decomposition_index.

Theorem index_formula : forall bits,
  index_of bits = index_sum bits /\ 0 <= index_sum bits < 2 ^ Z.of_nat (length bits).
Proof. intros; split; [apply index_of_sum | apply index_sum_range]. Qed.
Print Assumptions index_formula.

(* device primitive = decomposition, on any device register containing the wires (other wires stay 0) *)
Theorem basis_state_vector_equals_decomposition : forall wires bits order,
  NoDup wires -> NoDup order -> incl wires order -> length bits = length wires ->
  state_vector_bits wires bits order = Some (reg_bits (run_x (decomp bits wires) (zero_reg order)))
  /\ reg_bits (run_x (decomp bits wires) (zero_reg order)) = map (fun w => lookup w wires bits) order.
Proof.
  intros; split; [now apply decomp_matches_state_vector | now apply decomp_register].
Qed.
Print Assumptions basis_state_vector_equals_decomposition.

(* accepted inputs: exactly the 0/1 sequences of the right length; Python ints are refused *)
Theorem basis_input_accepted_iff : forall l n bits,
  canonicalize (BSList l) n = Some bits <->
  (length l = n /\ Forall (fun z => z = 0 \/ z = 1) l /\ bits = map (fun z => z =? 1) l).
Proof. exact canonicalize_list. Qed.
Print Assumptions basis_input_accepted_iff.

Theorem basis_integer_input_refused : forall k n, canonicalize (BSScalar k) n = None.
Proof. exact canonicalize_scalar. Qed.
Print Assumptions basis_integer_input_refused.

(* the documented integer -> bits conversion: width bits, big-endian, of k mod 2^width *)
Theorem int_to_binary_is_big_endian : forall k n,
  length (int_to_binary k n) = n /\ index_of (int_to_binary k n) = k mod 2 ^ Z.of_nat n.
Proof. intros; split; [apply int_to_binary_length | apply int_to_binary_index]. Qed.
Print Assumptions int_to_binary_is_big_endian.

Theorem int_to_binary_prepares_k : forall k n wires,
  0 <= k < 2 ^ Z.of_nat n -> NoDup wires -> length wires = n ->
  index_of (reg_bits (run_x (decomp (int_to_binary k n) wires) (zero_reg wires))) = k.
Proof.
  intros k n wires Hk ND L.
  rewrite decomp_own_wires by (auto; rewrite int_to_binary_length; auto).
  now apply int_to_binary_in_range.
Qed.
Print Assumptions int_to_binary_prepares_k.

Open Scope Q_scope.

Theorem pad_length : forall st dim p, (length st <= dim)%nat ->
  length (pad st dim p) = dim
  /\ (forall i d, (i < length st)%nat -> nth i (pad st dim p) d = nth i st d)
  /\ (forall i d, (length st <= i < dim)%nat -> nth i (pad st dim p) d = p).
Proof.
  intros st dim p H. split; [now apply StatePrepProofs.pad_length|split].
  - intros; now apply pad_keeps.
  - intros; now apply pad_fills.
Qed.
Print Assumptions pad_length.

Theorem output_has_length_2n : forall a out, preprocess a = POk out -> length out = Nat.pow 2 (pa_nwires a).
Proof. exact preprocess_length. Qed.
Print Assumptions output_has_length_2n.

Theorem normalize_gives_unit_norm : forall r st, r * r == norm2 st -> ~ r == 0 ->
  norm2 (map (cdiv r) st) == 1.
Proof. exact normalize_unit. Qed.
Print Assumptions normalize_gives_unit_norm.

Theorem exact_sqrt_sound : forall q r, qsqrt q = Some r -> r * r == q /\ 0 <= r.
Proof. exact qsqrt_sound. Qed.
Print Assumptions exact_sqrt_sound.

(* with pad_with: never a norm error; the padding is appended, then the whole vector is normalised *)
Theorem padding_then_normalisation : forall a p, pa_pad a = Some p ->
  (length (pa_state a) <= Nat.pow 2 (pa_nwires a))%nat ->
  let padded := pad (pa_state a) (Nat.pow 2 (pa_nwires a)) p in
  match preprocess a with
  | PErr => False
  | POk out => (out = padded /\ exists r, r * r == norm2 padded /\ 0 <= r /\ Qabs (r - 1) <= tol)
               \/ (exists r, r * r == norm2 padded /\ ~ r == 0 /\ out = map (cdiv r) padded /\ norm2 out == 1)
  | _ => True
  end.
Proof. exact preprocess_pad_structure. Qed.
Print Assumptions padding_then_normalisation.

Theorem accepted_state_is_unit_up_to_tol : forall a out, preprocess a = POk out ->
  (pa_validate a || pa_normalize a = true \/ pa_pad a <> None) ->
  norm2 out == 1 \/ exists r, r * r == norm2 out /\ 0 <= r /\ Qabs (r - 1) <= tol.
Proof. exact preprocess_ok_norm. Qed.
Print Assumptions accepted_state_is_unit_up_to_tol.

Theorem reject_iff_not_normalised : forall a r, pa_pad a = None -> pa_normalize a = false ->
  pa_validate a = true -> length (pa_state a) = Nat.pow 2 (pa_nwires a) ->
  qsqrt (norm2 (pa_state a)) = Some r ->
  (preprocess a = PErr <-> ~ Qabs (r - 1) <= tol) /\
  (preprocess a = POk (pa_state a) <-> Qabs (r - 1) <= tol).
Proof. exact StatePrepProofs.reject_iff_not_normalised. Qed.
Print Assumptions reject_iff_not_normalised.

Theorem too_long_rejected : forall a, (Nat.pow 2 (pa_nwires a) < length (pa_state a))%nat ->
  preprocess a = PErr /\ preprocess_csr a = PErr.
Proof. exact StatePrepProofs.too_long_rejected. Qed.
Print Assumptions too_long_rejected.

Theorem wrong_length_rejected_without_pad : forall a, pa_pad a = None ->
  length (pa_state a) <> Nat.pow 2 (pa_nwires a) -> preprocess a = PErr.
Proof. exact StatePrepProofs.wrong_length_rejected_without_pad. Qed.
Print Assumptions wrong_length_rejected_without_pad.

(* transcribed from the code: with StatePrep's defaults (normalize=False, validate_norm=False; AmplitudeEmbedding
   defaults to validate_norm=True) a vector of the right length is accepted unchanged whatever its norm *)
Theorem unvalidated_input_passes_unchanged : forall a, pa_pad a = None -> pa_normalize a = false ->
  pa_validate a = false -> length (pa_state a) = Nat.pow 2 (pa_nwires a) ->
  preprocess a = POk (pa_state a).
Proof. exact unvalidated_accepted. Qed.
Print Assumptions unvalidated_input_passes_unchanged.

Theorem sparse_normalize_gives_unit_norm : forall a out, pa_normalize a = true -> preprocess_csr a = POk out ->
  length out = Nat.pow 2 (pa_nwires a) /\ norm2 out == 1.
Proof. exact csr_normalize_unit. Qed.
Print Assumptions sparse_normalize_gives_unit_norm.

Theorem sparse_nonzero_padding_refused : forall a p, pa_pad a = Some p -> czero p = false ->
  preprocess_csr a = PErr.
Proof. exact csr_nonzero_pad_rejected. Qed.
Print Assumptions sparse_nonzero_padding_refused.

(* non-vacuity: the hypotheses are satisfiable and the model computes *)
Example ex_basis : reg_bits (run_x (decomp [true; false; true] [7; 3; 5]%Z) (zero_reg [7; 3; 5]%Z)) = [true; false; true]
  /\ state_vector_index [7; 3; 5]%Z [true; false; true] [5; 9; 7; 3]%Z = Some 10%Z.
Proof. vm_compute. split; reflexivity. Qed.

(* (3, 4, 0) padded with 12 on two wires -> (3, 4, 0, 12)/13 *)
Example ex_pad_normalize :
  preprocess (mkPre [(3, 0); (4, 0); (0, 0)] 2 (Some (12, 0)) false true)
  = POk (map (cdiv (13 # 1)) [(3, 0); (4, 0); (0, 0); (12, 0)]).
Proof. vm_compute. reflexivity. Qed.

Example ex_reject : preprocess (mkPre [(3, 0); (4, 0)] 1 None false true) = PErr
  /\ preprocess (mkPre [(3 # 5, 0); (0, 4 # 5)] 1 None false true) = POk [(3 # 5, 0); (0, 4 # 5)].
Proof. vm_compute. split; reflexivity. Qed.
