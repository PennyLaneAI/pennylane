(* C37 Higher-order derivatives are correct.  Statements only (see Props/C34.v for the vocabulary). *)
From Coq Require Import List ZArith QArith Reals Bool.
From Coquelicot Require Import Coquelicot.
From PLV Require Import Alg.Poly Alg.PolyEval Alg.Angles Alg.DerivDef Alg.Deriv Lin.Vec Lin.PVec Lin.PVecSound Lin.Grad Lin.GradSound.
Import ListNotations.

(* iterating the formal derivative gives the iterated partial derivative: d/dtheta_j of the function whose value at
   every parameter vector is d/dtheta_k of p's evaluation *)
Theorem second_formal_derivative_is_second_derivative : forall hz D, (0 < hz)%Z -> Z.even hz = true -> D <> 0%Z ->
  forall th j k p,
    (forall x, Cderive (fun y => peval (aenv hz D (upd th k y)) p) x (peval (aenv hz D (upd th k x)) (pderiv hz D k p))) /\
    (forall x, Cderive (fun y => peval (aenv hz D (upd th j y)) (pderiv hz D k p)) x
                       (peval (aenv hz D (upd th j x)) (pderiv hz D j (pderiv hz D k p)))).
Proof. intros hz D H1 H2 H3 th j k p. split; intros x; apply pderiv_sound; assumption. Qed.
Print Assumptions second_formal_derivative_is_second_derivative.

(* a discharged `hess_rule_ok` obligation: the linear combination of the expectation values of the tapes produced by
   param_shift_hessian is the second partial derivative d/dtheta_j d/dtheta_k of the original tape's expectation value,
   at every parameter vector (stated as: derivative in theta_j of the certified first derivative in theta_k) *)
Theorem hessian_tapes_give_the_second_derivative : forall hz D n j k cs ts t, (0 < hz)%Z -> hess_rule_ok hz D n j k cs ts t = true ->
  forall th,
    (forall x, Cderive (fun y => c_expval n (evtape (aenv hz D (upd th k y)) t)) x
                       (peval (aenv hz D (upd th k x)) (pderiv hz D k (p_expval hz n t)))) /\
    (forall x, Cderive (fun y => peval (aenv hz D (upd th j y)) (pderiv hz D k (p_expval hz n t))) x
            (c_lincomb (map (peval (aenv hz D (upd th j x))) cs)
                       (map (fun t' => c_expval n (evtape (aenv hz D (upd th j x)) t')) ts))).
Proof. exact hess_rule_ok_forall. Qed.
Print Assumptions hessian_tapes_give_the_second_derivative.

(* the formal Hessian is symmetric (mixed partials commute) under every valuation, for every polynomial *)
Theorem formal_hessian_symmetric : forall hz D j k p rho,
  peval rho (pderiv hz D j (pderiv hz D k p)) = peval rho (pderiv hz D k (pderiv hz D j p)).
Proof.
  intros hz D j k p rho. induction p as [|t p IH]; [reflexivity|].
  unfold pderiv in *. cbn [map]. rewrite !peval_cons, IH. f_equal.
  assert (E : forall e i h, nth (S i) (add0 h e) 0%Z = nth (S i) e 0%Z) by (intros [|x e] i h; [destruct i; reflexivity | reflexivity]).
  unfold teval, dterm. cbn [fst snd]. rewrite !E. f_equal.
  rewrite !q2c_red, !q2c_mult, !q2c_red, !q2c_mult. ring.
Qed.
Print Assumptions formal_hessian_symmetric.

(* non-vacuity: RX(theta_0), <Z>: second derivative by the rule (f(t+pi) - 2 f(t) + f(t-pi))/4, with the two tapes at +-pi
   and the unshifted one *)
Definition rx (s : Z) : pgate :=
  ([0%nat], [[ [(1#2, [(2*s)%Z; 2%Z]); (1#2, [(-2*s)%Z; (-2)%Z])];   [(-1#2, [(2*s+4)%Z; 2%Z]); (1#2, [(-2*s+4)%Z; (-2)%Z])] ];
             [ [(-1#2, [(2*s+4)%Z; 2%Z]); (1#2, [(-2*s+4)%Z; (-2)%Z])]; [(1#2, [(2*s)%Z; 2%Z]); (1#2, [(-2*s)%Z; (-2)%Z])] ]]).
Definition obsZ : pobs := [(pone, [([0%nat], [[pone; pzero]; [pzero; pneg pone]])])].
Example second_order_rule_instance :
  hess_rule_ok 8 4 1 0 0 [pconst (1#4); pconst (-1#2); pconst (1#4)] [([rx 2], obsZ); ([rx 0], obsZ); ([rx (-2)], obsZ)] ([rx 0], obsZ) = true.
Proof. vm_compute. reflexivity. Qed.
