(* C31 Seeded and parallel execution is reproducible and order-preserving.
   Statements only; every proof points at lemmas of Disc/SeedExecProofs.v.
   The model (Disc/SeedExecModel.v) is DefaultQubit.execute: the numpy generator, the integer-seeded
   simulation [task], the generator-consuming simulation [sim] are arbitrary functions; the executor
   completes tasks in an arbitrary order [perm]. *)
From Coq Require Import List ZArith Bool Arith Permutation.
From PLV Require Import Disc.SeedExecModel Disc.SeedExecProofs.
Import ListNotations.

Section Statements.
  Variables (St C R : Type).
  Variable ints : St -> nat -> list Z * St.
  Variable int1 : St -> Z * St.
  Variable reseed : Z -> St.
  Variable task : C -> Z -> R.
  Variable sim : C -> St -> R * St.
  Variable dflt : R.

  (* the (circuit, seed) pairs handed to the workers and the generator state left behind are a function
     of the generator state and the batch only: the same for every two completion orders, and equal to
     "i-th circuit with the i-th drawn integer" *)
  Theorem seeds_independent_of_schedule : forall perm1 perm2 st batch,
      (p_dispatched _ _ _ (exec_par St C R ints int1 reseed task dflt perm1 st batch)
       = p_dispatched _ _ _ (exec_par St C R ints int1 reseed task dflt perm2 st batch)
       /\ p_state _ _ _ (exec_par St C R ints int1 reseed task dflt perm1 st batch)
          = p_state _ _ _ (exec_par St C R ints int1 reseed task dflt perm2 st batch))
      /\ (length (fst (ints st (length batch))) = length batch ->
          p_dispatched _ _ _ (exec_par St C R ints int1 reseed task dflt perm1 st batch)
          = pairing St C ints st batch).
  Proof.
    intros perm1 perm2 st batch; split;
      [exact (exec_par_sched_indep St C R ints int1 reseed task dflt perm1 perm2 st batch)
      | exact (exec_par_dispatched St C R ints int1 reseed task dflt perm1 st batch)].
  Qed.

  (* results are assembled in batch order whatever the completion order: for every permutation of the
     task indices the assembled list is map task over the dispatched list *)
  Theorem collect_by_index : forall perm ts,
      Permutation perm (seq 0 (length ts)) ->
      collect R dflt (length ts) (run_pool C R task perm ts)
      = map (fun cs => task (fst cs) (snd cs)) ts.
  Proof.
    intros perm ts HP.
    exact (collect_run_pool C R task dflt perm ts (perm_covers perm (length ts) HP)).
  Qed.

  Theorem parallel_results_in_batch_order : forall perm st batch,
      Permutation perm (seq 0 (length batch)) ->
      length (fst (ints st (length batch))) = length batch ->
      p_results _ _ _ (exec_par St C R ints int1 reseed task dflt perm st batch)
      = Some (map (fun cs => task (fst cs) (snd cs)) (pairing St C ints st batch)).
  Proof.
    intros perm st batch HP.
    exact (exec_par_results St C R ints int1 reseed task dflt perm st batch
             (perm_covers perm (length batch) HP)).
  Qed.

  (* two devices with the same generator state executing the same sequence of batches (serial or
     parallel steps) under ANY two schedules obtain the same dispatched seeds, the same results at
     every step and the same final generator state (induction over the sequence) *)
  Theorem same_seed_same_stream : forall steps st sched1 sched2,
      sched_ok C steps sched1 -> sched_ok C steps sched2 ->
      run_seq St C R ints int1 reseed task sim dflt st steps sched1
      = run_seq St C R ints int1 reseed task sim dflt st steps sched2.
  Proof. exact (run_seq_sched_indep St C R ints int1 reseed task sim dflt). Qed.

  (* ... and the seeds of every step are those of the schedule-free specification *)
  Theorem history_seeds_are_spec : ints_ok St ints -> forall steps st sched,
      map (s_dispatched C R) (fst (run_seq St C R ints int1 reseed task sim dflt st steps sched))
      = spec_seq St C R ints int1 reseed sim st steps.
  Proof. exact (run_seq_dispatched St C R ints int1 reseed task sim dflt). Qed.

  (* analytic results (simulation independent of the seed/generator): the parallel path returns what
     the serial path returns.  For finite shots the two paths are DIFFERENT streams in the code (the
     serial path threads the generator itself, the parallel path draws integer seeds), see the
     example below; the property only claims the analytic case. *)
  Theorem serial_equals_parallel_analytic : forall (f : C -> R),
      (forall c s, task c s = f c) -> (forall c st, fst (sim c st) = f c) ->
      forall perm st st' batch, covers perm (length batch) ->
      length (fst (ints st (length batch))) = length batch ->
      p_results _ _ _ (exec_par St C R ints int1 reseed task dflt perm st batch)
      = Some (fst (exec_ser St C R sim st' batch)).
  Proof. exact (par_equals_ser_analytic St C R ints int1 reseed task sim dflt). Qed.

  (* the serial path threads the generator: executing b1 ++ b2 = executing b1, then b2 from where b1 left it *)
  Theorem serial_threads_generator : forall b1 b2 st,
      exec_ser St C R sim st (b1 ++ b2)
      = (fst (exec_ser St C R sim st b1) ++ fst (exec_ser St C R sim (snd (exec_ser St C R sim st b1)) b2),
         snd (exec_ser St C R sim (snd (exec_ser St C R sim st b1)) b2)).
  Proof. exact (exec_ser_app St C R sim). Qed.
End Statements.
Print Assumptions seeds_independent_of_schedule.
Print Assumptions collect_by_index.
Print Assumptions parallel_results_in_batch_order.
Print Assumptions same_seed_same_stream.
Print Assumptions history_seeds_are_spec.
Print Assumptions serial_equals_parallel_analytic.
Print Assumptions serial_threads_generator.

(* non-vacuity: a concrete three-step history (two parallel steps, one serial) under two different
   schedules; and the finite-shot serial and parallel paths are different streams *)
Example history_two_schedules :
  c_run_seq ex_tables 0%Z [(true, [100; 101; 102]); (true, [103; 104]); (false, [100; 101])]%Z
            [[2; 0; 1]; [1; 0]; []]%nat
  = c_run_seq ex_tables 0%Z [(true, [100; 101; 102]); (true, [103; 104]); (false, [100; 101])]%Z
              [[0; 1; 2]; [0; 1]; []]%nat
  /\ snd (c_run_seq ex_tables 0%Z [(true, [100; 101; 102]); (true, [103; 104]); (false, [100; 101])]%Z
                    [[2; 0; 1]; [1; 0]; []]%nat) = 8%Z.
Proof. exact ex_history_schedules_agree. Qed.

Example serial_and_parallel_shot_streams_differ :
  s_results _ _ (hd {| s_dispatched := []; s_results := None |}
                    (fst (c_run_seq ex_tables 0%Z [(true, [100; 101; 102])]%Z [[0; 1; 2]]%nat)))
  <> s_results _ _ (hd {| s_dispatched := []; s_results := None |}
                       (fst (c_run_seq ex_tables 0%Z [(false, [100; 101; 102])]%Z [[]]))).
Proof. exact ex_serial_differs_from_parallel. Qed.
