(* C60 Classical-shadow estimators are exactly unbiased.
   Statements only; every proof is one line from Num/ShadowsProofs.v.
   Model (Num/ShadowsModel.v): Gaussian-rational scalars C; an n-qubit operator Op n is a quad-tree of 2x2
   blocks (first measured qubit = outermost block, the layout of global_snapshots); snap1 / snap transcribe
   local_snapshots / global_snapshots; est transcribes pauli_expval; prob n rho rb = 3^-n tr(rho Pi_rb) is the
   exact probability of recipes+outcomes rb; all_rb n enumerates all 6^n (recipe, outcome) rows. *)
From Coq Require Import List ZArith QArith Qcanon Bool.
From PLV Require Import Num.ShadowsModel Num.ShadowsProofs.
Import ListNotations.

(* one qubit, FORMAL 2x2 matrix (a b; c d) with arbitrary complex-rational entries (no Hermiticity or trace
   condition is needed: the map rho -> sum p(rho) * snapshot is the identity on all 2x2 matrices):
   sum_{recipe in X,Y,Z} 1/3 sum_{b in 0,1} tr(rho Pi_{recipe,b}) (3 Pi_{recipe,b} - I) = rho *)
Theorem snapshot_unbiased_1q : forall a b c d : C,
  osum 1 (map (fun x => oscale 1 (cmul (cq qthird) (otr 1 (omul 1 (mkQ a b c d) (proj1 x)))) (snap1 x)) six)
  = mkQ a b c d.
Proof. exact avg_1q_explicit. Qed.
Print Assumptions snapshot_unbiased_1q.

(* all n, all 2^n x 2^n matrices: the probability-weighted average of the global snapshot over all 3^n recipes
   and 2^n outcomes is the matrix itself *)
Theorem snapshot_unbiased_n : forall n (rho : Op n),
  osum n (map (fun rb => oscale n (prob n rho rb) (snap n rb)) (all_rb n)) = rho.
Proof. exact avg_id. Qed.
Print Assumptions snapshot_unbiased_n.

(* the enumeration really is every row of n (recipe, outcome) pairs, 6^n of them *)
Theorem enumeration_complete : forall n rb, In rb (all_rb n) <-> length rb = n.
Proof. intros n rb; split; [apply all_rb_length_in | apply all_rb_complete]. Qed.
Print Assumptions enumeration_complete.
Theorem enumeration_count : forall n, length (all_rb n) = (6 ^ n)%nat.
Proof. exact all_rb_count. Qed.
Print Assumptions enumeration_count.

(* the weights sum to tr rho (a probability distribution for a density matrix) *)
Theorem probabilities_sum_to_trace : forall n (rho : Op n), csum (map (prob n rho) (all_rb n)) = otr n rho.
Proof. exact probs_sum. Qed.
Print Assumptions probabilities_sum_to_trace.

(* the snapshot used by local_snapshots, 3 ((1-2b) P + I)/2 - I, is 3 U^dagger |b><b| U - I for the
   diagonalising rotations of the measurement (H, H S^dagger up to phase, I), which are unitary *)
Theorem snapshot_is_rotated_projector : forall x : RB,
  snap1 x = osub 1 (oscale 1 (cq q3) (rotated_basis x)) pI
  /\ omul 1 (oadj 1 (rot_num (fst x))) (rot_num (fst x)) = oscale 1 (cq (rot_norm2 (fst x))) pI.
Proof. intro x; split; [unfold snap1; rewrite rotated_basis_is_proj1; reflexivity | apply rot_unitary]. Qed.
Print Assumptions snapshot_is_rotated_projector.

(* pauli_expval's value on one snapshot is tr(snapshot * P) *)
Theorem estimator_is_trace_of_snapshot : forall n rb w, length rb = n -> length w = n ->
  cq (est rb w) = otr n (omul n (snap n rb) (pword n w)).
Proof. intros n rb w Hr Hw; rewrite otr_omul; exact (est_is_trace n rb w Hr Hw). Qed.
Print Assumptions estimator_is_trace_of_snapshot.

(* Pauli estimator, one qubit (o = None is the identity, Some r a Pauli letter) *)
Theorem pauli_estimator_unbiased_1q : forall (rho : Op 1) (o : option recipe),
  csum (map (fun rb => cmul (prob 1 rho rb) (cq (est rb [o]))) (all_rb 1)) = otr 1 (omul 1 rho (pword 1 [o])).
Proof. intros rho o; exact (pauli_unbiased 1 rho [o] eq_refl). Qed.
Print Assumptions pauli_estimator_unbiased_1q.

(* Pauli estimator, all n and every Pauli word on n qubits: E[estimate] = tr(rho P) *)
Theorem pauli_estimator_unbiased_n : forall n (rho : Op n) (w : word), length w = n ->
  csum (map (fun rb => cmul (prob n rho rb) (cq (est rb w))) (all_rb n)) = otr n (omul n rho (pword n w)).
Proof. exact pauli_unbiased. Qed.
Print Assumptions pauli_estimator_unbiased_n.

(* sums of Pauli words with rational coefficients (expval(H), k = 1) *)
Theorem observable_sum_estimator_unbiased : forall n (rho : Op n) (h : Ham),
  Forall (fun t => length (snd t) = n) h ->
  csum (map (fun rb => cmul (prob n rho rb) (cq (est_ham rb h))) (all_rb n))
  = csum (map (fun t => cmul (cq (fst t)) (otr n (omul n rho (pword n (snd t))))) h).
Proof. exact ham_unbiased. Qed.
Print Assumptions observable_sum_estimator_unbiased.

(* documented form: T rows of n entries, bits in {0,1}, recipes in {0,1,2}.  measure_rows only encodes given
   recipes and outcomes, so this holds by construction; the predicate well_formed is what the harness evaluates
   on the records of the real device *)
Theorem bits_recipes_form : forall n rec samples,
  length rec = length samples ->
  Forall (fun row => length row = n) rec -> Forall (fun row => length row = n) samples ->
  well_formed (Z.of_nat (length samples)) n (fst (measure_rows rec samples)) (snd (measure_rows rec samples)) = true.
Proof. exact measure_rows_well_formed. Qed.
Print Assumptions bits_recipes_form.
Theorem enumerated_tables_have_documented_form : forall n,
  well_formed (Z.of_nat (length (all_rb n))) n
              (map (fun rb => snd (encode_rb rb)) (all_rb n)) (map (fun rb => fst (encode_rb rb)) (all_rb n)) = true.
Proof. exact enumeration_well_formed. Qed.
Print Assumptions enumerated_tables_have_documented_form.

(* the cheaper evaluators used by the correspondence check compute the specified quantities *)
Theorem fast_evaluators_sound : forall n rho,
  (forall rb, prob_fast n rho rb = prob n rho rb) /\ (forall h, exact_ham_fast n rho h = exact_ham n rho h).
Proof. intros n rho; split; [apply prob_fast_eq | apply exact_ham_fast_eq]. Qed.
Print Assumptions fast_evaluators_sound.

(* non-vacuity / sanity: |+><+| measured in X gives outcome 0 with probability 1/3 (= recipe probability),
   its snapshot entry, and a matching / non-matching estimate *)
Example ex_prob_plus :
  prob 1 (mkQ (cq qhalf) (cq qhalf) (cq qhalf) (cq qhalf)) [(RX, false)] = cq qthird
  /\ prob 1 (mkQ (cq qhalf) (cq qhalf) (cq qhalf) (cq qhalf)) [(RX, true)] = cz.
Proof. split; apply ceqb_eq; vm_compute; reflexivity. Qed.
Example ex_est :
  est [(RX, true); (RZ, false)] [Some RX; None] = (- q3)%Qc /\ est [(RX, true); (RZ, false)] [Some RY; None] = 0%Qc
  /\ length [Some RX; None (A:=recipe)] = 2%nat.
Proof. repeat split; apply qeqb_eq; vm_compute; reflexivity. Qed.
