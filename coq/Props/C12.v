(* C12 The decompose transform reaches the target gate set without changing the circuit.
   Statements only; every proof is `exact <lemma>` from Disc/DecompProofs.v.
   [gen]/[decompose] (Disc/DecompModel.v) transcribe _operator_decomposition_gen / decompose of
   pennylane/transforms/decompose.py; the gate-set predicate, the graph solution, op.decomposition() and the custom
   decomposer are arbitrary functions (fields of [env]), so every theorem holds for all of them. *)
From Coq Require Import List ZArith Bool Permutation.
From PLV Require Import Disc.DecompModel Disc.DecompProofs.
Import ListNotations.
Open Scope Z_scope.

(* Clause 1: unless the run is an error, every emitted operator is accepted by the stopping condition (possibly under
   Conditional wrappers), or is an Allocate/Deallocate, or carries an explicit flag: max_expansion reached,
   GlobalPhase kept with a warning (graph enabled), or - non-strict only - kept because no decomposition exists. *)
Theorem decompose_in_target : forall fuel E transform ops b0 out,
  decompose fuel E transform ops b0 = Ok out -> Forall (emit_ok E) out.
Proof. exact decompose_in_target_lemma. Qed.
Print Assumptions decompose_in_target.

(* the same for one call of the generator (devices.preprocess.decompose drives it directly) *)
Theorem generator_in_target : forall fuel E o depth budget out,
  gen fuel E o depth budget = Ok out -> Forall (emit_ok E) out.
Proof. exact gen_in_target. Qed.
Print Assumptions generator_in_target.

(* the property's wording without flags: strict, no max_expansion, GlobalPhase in the gate set whenever the graph
   is enabled  ==>  error, or only accepted operators (and work-wire allocations) *)
Theorem decompose_in_target_strict : forall fuel E transform ops b0 out,
  max_expansion E = None -> strict E = true ->
  (graph_enabled E = true -> forall c, accept E (GPhase c) = true) ->
  decompose fuel E transform ops b0 = Ok out ->
  Forall (fun e => acc_under E (e_op e) = true \/ is_alloc (inner (e_op e)) = true) out.
Proof. exact decompose_in_target_strict_lemma. Qed.
Print Assumptions decompose_in_target_strict.

(* Clause 2: "implements the input circuit".  For ANY monoid of denotations (e.g. unitaries with their phase): if
   every decomposition the oracles can return denotes its operator (C10's statement, as hypothesis) and Conditional
   acts as a monoid homomorphism in the fixed measurement branch, the output denotes the input. *)
Theorem decompose_sem :
  forall (M : Type) (mul : M -> M -> M) (one : M),
  (forall a b c, mul a (mul b c) = mul (mul a b) c) -> (forall a, mul one a = a) -> (forall a, mul a one = a) ->
  forall (sem : op -> M) (csem : Z -> M -> M),
  (forall m a b, csem m (mul a b) = mul (csem m a) (csem m b)) -> (forall m, csem m one = one) ->
  (forall m b, sem (Cond m b) = csem m (sem b)) ->
  forall E : env,
  (forall o b d s, gsolve E o b = Some (d, s) -> lsem M mul one sem d = sem o) ->
  (forall o d, legacy E o = Some d -> lsem M mul one sem d = sem o) ->
  (forall cf o d, custom E = Some cf -> cf o = Some d -> lsem M mul one sem d = sem o) ->
  forall fuel transform ops b0 out,
  decompose fuel E transform ops b0 = Ok out -> lsem M mul one sem (ops_of out) = lsem M mul one sem ops.
Proof. exact decompose_sem_lemma. Qed.
Print Assumptions decompose_sem.

(* Clause 3: resource estimate.  [tchoose t] = declared resources of the rule chosen for gate type t (None for
   target gates); [expand] sums them along the chosen tree (= DecompGraphSolution.resource_estimate).  If every
   decomposition used matches the declared resources of its operator's type ("every rule used is exact") then the
   gate types emitted are a permutation of the estimate - gate for gate. *)
Theorem estimate_matches :
  forall (E : env) (ty : op -> Z) (tchoose : Z -> option (list (Z * N))),
  max_expansion E = None ->
  (forall m b, ty (Cond m b) = ty b) ->
  (forall o, accept E o = true -> tchoose (ty o) = None) ->
  (forall o b d s, accept E o = false -> gsolve E o b = Some (d, s) -> exact_choice ty tchoose d o) ->
  (forall o d, accept E o = false -> legacy E o = Some d -> exact_choice ty tchoose d o) ->
  (forall cf o d, accept E o = false -> custom E = Some cf -> cf o = Some d -> exact_choice ty tchoose d o) ->
  forall fuel o depth budget out,
  gen fuel E o depth budget = Ok out -> all_acc out ->
  exists e, expand fuel tchoose (ty o) = Some e /\ Permutation (types_of ty out) e.
Proof. intros E ty tchoose _. exact (gen_estimate E ty tchoose). Qed.
Print Assumptions estimate_matches.

(* Clause 3b: work-wire accounting.  If the graph solution only names rules whose work-wire requirement fits the
   budget it was asked with, no call of the generator ever runs with a negative num_work_wires. *)
Theorem budget_never_negative : forall fuel E transform ops b0 out,
  (forall o b d s, gsolve E o (Some b) = Some (d, s) -> 0 <= b -> 0 <= s <= b) ->
  obudget_ok b0 ->
  decompose fuel E transform ops b0 = Ok out -> Forall budget_ok out.
Proof. exact decompose_budget. Qed.
Print Assumptions budget_never_negative.

(* ---- non-vacuity: a concrete environment in which operator 0 decomposes (graph rule, one work wire) into 1,1,2 ---- *)
Fixpoint ty0 (o : op) : Z := match o with Plain c => c | Cond _ b => ty0 b | _ => -1 end.
Definition E0 : env :=
  mkEnv (fun _ => true) (fun o => negb (ty0 o =? 0)) true
        (fun o _ => match o with Plain 0 => Some ([Plain 1; Plain 1; Cond 7 (Plain 2)], 1) | _ => None end)
        true None (fun _ => None) true None.
Definition tchoose0 (t : Z) : option (list (Z * N)) := if t =? 0 then Some [(1, 2%N); (2, 1%N)] else None.

Example run_E0 :
  decompose 5 E0 true [Plain 0; Cond 3 (Plain 0)] (Some 2)
  = Ok [(Plain 1, TAcc, Some 1); (Plain 1, TAcc, Some 1); (Cond 7 (Plain 2), TAcc, Some 1);
        (Cond 3 (Plain 1), TAcc, Some (-1)); (Cond 3 (Plain 1), TAcc, Some (-1)); (Cond 3 (Cond 7 (Plain 2)), TAcc, Some (-1))].
Proof. vm_compute. reflexivity. Qed.
(* (the second operator shows the transcribed quirk: the base of a Conditional is decomposed with the default budget 0,
   so a rule needing a work wire drives the recorded budget to -1 unless the solution is feasible for budget 0) *)

Example estimate_hypotheses_satisfiable :
  max_expansion E0 = None /\ (forall m b, ty0 (Cond m b) = ty0 b) /\
  (forall o, accept E0 o = true -> tchoose0 (ty0 o) = None) /\
  (forall o b d s, accept E0 o = false -> gsolve E0 o b = Some (d, s) -> exact_choice ty0 tchoose0 d o) /\
  expand 5 tchoose0 0 = Some [1; 1; 2].
Proof.
  split; [reflexivity|]. split; [reflexivity|]. split.
  - intros o H. unfold tchoose0. simpl in H. destruct (ty0 o =? 0); [discriminate | reflexivity].
  - split; [|reflexivity]. intros o b d s _ H. simpl in H.
    destruct o as [c| | | |]; try discriminate. destruct c as [|p|p]; try discriminate.
    inversion H; subst. exists [(1, 2%N); (2, 1%N)]. split; [reflexivity | apply Permutation_refl].
Qed.

Example sem_hypotheses_satisfiable :
  let sem := fun o => if ty0 o =? 0 then 4 else ty0 o in
  (forall m b, sem (Cond m b) = sem b) /\
  (forall o b d s, gsolve E0 o b = Some (d, s) -> lsem Z Z.add 0 sem d = sem o).
Proof.
  split; [reflexivity|]. intros o b d s H. simpl in H.
  destruct o as [c| | | |]; try discriminate. destruct c as [|p|p]; try discriminate.
  inversion H; subst. reflexivity.
Qed.
