(* C30 Sample post-processing is exact.
   Statements only; every proof points at lemmas of Disc/SamplesProofs.v.
   Conventions of the model (Disc/SamplesModel.v): eigenvalues are integers in units of 1/one; a mean is
   returned as RQ numerator denominator; samples are rows of bits, `selected idxs r rows` is the array
   after shot_range r and wire selection (idxs = positions of the measured wires in wire_order, in the
   order of the measurement's wires: any subset, any order). *)
From Coq Require Import List ZArith Bool.
From PLV Require Import Disc.SamplesModel Disc.SamplesProofs.
Import ListNotations.
Open Scope Z_scope.

(* basis-state index: samples @ 2**arange(w)[::-1] = int(bitstring, 2) (big endian), within range,
   and the bit-string formatter is its inverse (so the index identifies the sample) *)
Theorem index_is_big_endian_value : forall row,
  index_row (length row) row = int2 row /\ 0 <= int2 row < 2 ^ lenZ row /\ bits_of (length row) (int2 row) = row.
Proof. intros row; split; [exact (dot_int2 row) | split; [exact (int2_range row) | exact (bits_of_int2 row)]]. Qed.
Print Assumptions index_is_big_endian_value.

Theorem index_formatter_inverse : forall w i, 0 <= i < 2 ^ Z.of_nat w -> int2 (bits_of w i) = i.
Proof. exact int2_bits_of. Qed.
Print Assumptions index_formatter_inverse.

(* the +-1 fast path  1 - 2*bit  equals the eigenvalue lookup eigvals[index] *)
Theorem fastpath_eq_lookup : forall one b,
  row_value one [one; - one] 1 [b] = nth_error [one; - one] (Z.to_nat (index_row 1 [b])).
Proof. exact fastpath_lookup. Qed.
Print Assumptions fastpath_eq_lookup.

(* on either path a sample's value is eigvals[int(bits,2)] *)
Theorem sample_value_is_lookup : forall one ev row,
  (eq_lz ev [one; - one] = true -> length row = 1%nat) ->
  row_value one ev (length row) row = nth_error ev (Z.to_nat (int2 row)).
Proof. exact row_value_lookup. Qed.
Print Assumptions sample_value_is_lookup.

(* mid-circuit measurement values: the branch table looked up at the sample's index is the arithmetic
   expression evaluated directly on the sampled bits *)
Theorem mcm_value_is_direct : forall one n e row, length row = n ->
  nth_error (mv_eigvals one n e) (Z.to_nat (int2 row)) = Some (one * meval e row).
Proof. exact mcm_direct. Qed.
Print Assumptions mcm_value_is_direct.

(* expval = direct mean: numerator = sum of the per-sample eigenvalues, denominator = number of shots used;
   for every array, shot_range, wire order and wire subset (unbatched, no bin_size) *)
Theorem expval_is_direct_mean : forall one o ev order r rows idxs vals,
  o_eigvals one o = Some ev ->
  mapped_wires order (o_wires o) = Some idxs -> idxs <> [] ->
  (eq_lz ev [one; - one] = true -> length idxs = 1%nat) ->
  direct_vals ev (selected idxs r rows) = Some vals ->
  process_samples one KExp o false order r None [rows] = RQ (TZ (sumZ vals)) (lenZ vals).
Proof. intros one o ev order r rows idxs vals. exact (stat_ps_direct sumZ one o ev order r rows idxs vals). Qed.
Print Assumptions expval_is_direct_mean.

(* var: numerator n^3 var = n (n sum x^2 - (sum x)^2), i.e. var = mean(x^2) - mean(x)^2 on the same values *)
Theorem var_is_direct : forall one o ev order r rows idxs vals,
  o_eigvals one o = Some ev ->
  mapped_wires order (o_wires o) = Some idxs -> idxs <> [] ->
  (eq_lz ev [one; - one] = true -> length idxs = 1%nat) ->
  direct_vals ev (selected idxs r rows) = Some vals ->
  process_samples one KVar o false order r None [rows] = RQ (TZ (var_num vals)) (lenZ vals) /\
  var_num vals = lenZ vals * (lenZ vals * sumZ (map (fun x => x * x) vals) - sumZ vals * sumZ vals).
Proof.
  intros one o ev order r rows idxs vals H1 H2 H3 H4 H5.
  split; [exact (stat_ps_direct var_num one o ev order r rows idxs vals H1 H2 H3 H4 H5) | exact (var_num_direct vals)].
Qed.
Print Assumptions var_is_direct.

(* probs = frequency of each basis index among the selected samples (denominator = shots used) *)
Theorem probs_is_frequency : forall o order r rows idxs,
  mapped_wires order (o_wires o) = Some idxs -> idxs <> [] -> selected idxs r rows <> [] ->
  probs_ps o false order r None [rows]
  = RQ (tvec (map (fun p => count_eq p (map int2 (selected idxs r rows))) (all_indices (length idxs))))
       (lenZ (selected idxs r rows)).
Proof. exact probs_ps_direct. Qed.
Print Assumptions probs_is_frequency.

(* ... it has 2^k entries and they add up to the number of shots (probabilities sum to 1) *)
Theorem probs_length_and_total : forall w rows, Forall (fun r => length r = w) rows ->
  lenZ (all_indices w) = 2 ^ Z.of_nat w /\
  sumZ (map (fun p => count_eq p (map int2 rows)) (all_indices w)) = lenZ rows.
Proof.
  intros w rows H. split; [exact (length_all_indices w) | now apply count_rows_total].
Qed.
Print Assumptions probs_length_and_total.

(* counts (wires / all wires): every bit string maps to its multiplicity among the selected samples; only
   observed strings are present unless all_outcomes, in which case ALL 2^k strings are; total = shots *)
Theorem counts_is_multiset : forall one ao ws order r rows idxs,
  mapped_wires order ws = Some idxs -> idxs <> [] ->
  exists d, counts_ps one ao (OWires ws) false order r None [rows] = RD d /\
    (forall b, length b = length idxs ->
       dget (inl b) d = if ao || (0 <? mult b (selected idxs r rows))
                        then Some (mult b (selected idxs r rows)) else None) /\
    dtotal d = lenZ (selected idxs r rows).
Proof. exact counts_ps_wires. Qed.
Print Assumptions counts_is_multiset.

Theorem all_outcomes_total : forall ws w rows, (ws = [] \/ length ws = w) -> Forall (fun r => length r = w) rows ->
  exists d, s2c_raw true ws None w rows = Some d /\
    (forall b, length b = w -> dget (inl b) d = Some (mult b rows)) /\ dtotal d = lenZ rows.
Proof. intros ws w rows H1 H2. exact (s2c_raw_spec true ws w rows H1 H2). Qed.
Print Assumptions all_outcomes_total.

(* CountsMP(eigvals=.., wires=..).process_samples relabels bit strings by eigenvalue and adds up the counts of
   bit strings with the same eigenvalue (counts.py: merged[eigval] = merged.get(eigval, 0) + count; the model's
   remap_merge is Z.add): the total is kept for any eigenvalues. *)
Theorem counts_eigvals_summing_keeps_total : forall ev d acc r,
  remap_with Z.add ev d acc = Some r -> dtotal r = dtotal acc + dtotal d.
Proof. exact remap_sum_total. Qed.
Print Assumptions counts_eigvals_summing_keeps_total.

(* process_counts(counts s) vs process_samples s.  PARTIAL: proved = the wire mapping of process_counts keeps
   the number of shots, and the round trip  CountsMP(wires).process_counts(CountsMP().process_samples(s))
   has total = shots for every subset/order; missing = per-key equality with counts_is_multiset and the
   probs/expval/var round trips (covered only by the correspondence run). *)
Theorem counts_samples_consistent_partial : forall ao0 order ws rows h d,
  Forall (fun r => length r = length order) rows ->
  full_counts ao0 order rows = Some h ->
  counts_pc_gen false ws None order h = Some d -> dtotal d = lenZ rows.
Proof. exact roundtrip_total. Qed.
Print Assumptions counts_samples_consistent_partial.

Theorem map_counts_keeps_total : forall order ws c d, map_counts order ws c = Some d -> dtotal d = sumZ (map snd c).
Proof. exact map_counts_total. Qed.
Print Assumptions map_counts_keeps_total.

(* non-vacuity: the hypotheses are satisfiable and the statements compute on a concrete array *)
Example hyps_satisfiable :
  let rows := [[false; false; true]; [false; true; true]; [true; true; false]; [true; false; false]] in
  mapped_wires [2; 1; 0] [0; 1] = Some [2; 1]%nat /\
  direct_vals [-4; 4; 0; 8] (selected [2; 1]%nat None rows) = Some [0; 8; 4; -4] /\
  process_samples 4 KExp (OMV [0; 1] (MSub (MAdd (MVar 0) (MMul (MConst 2) (MVar 1))) (MConst 1)))
                  false [2; 1; 0] None None [rows] = RQ (TZ 8) 4 /\
  o_eigvals 4 (OMV [0; 1] (MSub (MAdd (MVar 0) (MMul (MConst 2) (MVar 1))) (MConst 1))) = Some [-4; 4; 0; 8].
Proof. vm_compute. repeat split; reflexivity. Qed.
