(* C58 Block-encoding, oracle and algorithm templates implement their operators.
   (A) static, universally quantified theorems about the index/control logic of the classical templates
       (models in Disc/TemplatesModel.v transcribe permute.py, select.py, qrom.py, flip_sign.py, controlled_sequence.py);
   (B) the reflection principle through which the obligations generated on every run (lemmas ob_k of
       coq/Gen/C58/*.v) are read; an obligation has one of two forms:
         cols_ok hz n circuit_k op_wires M_k cols = true           (template's fully decomposed circuit, executed on
                                                                    FORMAL parameters, against the documented matrix)
         circ_cols_eq hz n circuit_k reference_k cols = true       (against an independently built reference circuit)
   Statements only; every proof refers to a lemma of Disc/TemplatesProofs.v, Lin/PVecSound.v or Alg/Angles.v. *)
From Coq Require Import List ZArith QArith Reals Bool Arith Permutation.
From Coquelicot Require Import Complex.
From PLV Require Import Alg.Poly Alg.PolyEval Alg.Angles Lin.Vec Lin.VecHom Lin.PVec Lin.PVecSound.
From PLV Require Import Disc.TemplatesModel Disc.TemplatesProofs.
Import ListNotations.
Local Open Scope nat_scope.

(* ---------------- (A) Permute: the SWAP network emitted by compute_decomposition realises the permutation.
   `wires` = wire labels, `perm` = the requested new ordering (any rearrangement of the labels).  If the content of
   wire w is (f w) before, then after the emitted position swaps, position i carries f (perm[i]), for EVERY wire list
   without repetition and EVERY permutation of it. *)
Theorem permute_swaps_realise_permutation :
  forall (A : Type) (f : Z -> A) (wires perm : list Z), NoDup wires -> Permutation wires perm ->
  apply_swaps (f 0%Z) (permute_swaps wires perm) (map f wires) = map f perm.
Proof. exact @permute_realises. Qed.
Print Assumptions permute_swaps_realise_permutation.

Theorem permute_working_order_ends_at_target :
  forall wires perm, NoDup wires -> Permutation wires perm -> permute_final wires perm = perm.
Proof. exact permute_final_is_perm. Qed.
Print Assumptions permute_working_order_ends_at_target.

(* ---------------- (A) Select (non-partial multi-control decomposition): for control value k (first control wire = most
   significant bit) exactly ops[k] is applied; for k >= len(ops) nothing is applied. *)
Theorem select_applies_kth_operator :
  forall (A : Type) (c : nat) (ops : list A) (k : nat) (op : A), length ops <= 2 ^ c -> nth_error ops k = Some op ->
  select_fired c ops (be_bits c k) = [op].
Proof. exact @select_fired_spec. Qed.
Print Assumptions select_applies_kth_operator.

Theorem select_idle_beyond_table :
  forall (A : Type) (c : nat) (ops : list A) (k : nat), length ops <= k -> k < 2 ^ c -> select_fired c ops (be_bits c k) = [].
Proof. exact @select_fired_none. Qed.
Print Assumptions select_idle_beyond_table.

Theorem control_encoding_is_big_endian : forall c k, k < 2 ^ c -> be_val (be_bits c k) = k /\ length (be_bits c k) = c.
Proof. intros c k H; split; [exact (be_val_bits c k H) | exact (be_bits_length c k)]. Qed.
Print Assumptions control_encoding_is_big_endian.

(* ---------------- (A) QROM: data table laid out over Select rows x swap slots; for address k (c control bits, the last s
   drive the controlled-swap network, depth 2^s) the bitstring moved into the target slot is data[k]; padding (identity)
   beyond the table. *)
Theorem qrom_loads_kth_bitstring :
  forall (A : Type) (c s : nat) (data : list A) (k : nat) (x : A), nth_error data k = Some x -> qrom_loaded c s data k = Some x.
Proof. exact @qrom_loaded_spec. Qed.
Print Assumptions qrom_loads_kth_bitstring.

Theorem qrom_identity_beyond_table :
  forall (A : Type) (c s : nat) (data : list A) (k : nat), length data <= k -> qrom_loaded c s data k = None.
Proof. exact @qrom_loaded_pad. Qed.
Print Assumptions qrom_identity_beyond_table.

Theorem swap_network_selects_slot :
  forall (A : Type) (d : A) (s q : nat) (slots : list A), 2 ^ s <= length slots ->
  nth 0 (swapnet_run d s (be_bits s q) slots) d = nth (q mod 2 ^ s) slots d.
Proof. exact @swapnet_moves_slot. Qed.
Print Assumptions swap_network_selects_slot.

(* ---------------- (A) FlipSign: the emitted X / multi-controlled-Z pattern gives the sign -1 exactly on |state>. *)
Theorem flipsign_marks_exactly_the_state :
  forall state inp, state <> [] -> length inp = length state -> (flipsign_fires state inp = true <-> inp = state).
Proof. exact flipsign_iff. Qed.
Print Assumptions flipsign_marks_exactly_the_state.

(* ---------------- (A) ControlledSequence: control wire i carries the power 2^(n-1-i). *)
Theorem controlled_sequence_exponents :
  forall n i, i < n -> nth i (ctrlseq_exponents n) 0%Z = (2 ^ Z.of_nat (n - 1 - i))%Z.
Proof. exact ctrlseq_exponent. Qed.
Print Assumptions controlled_sequence_exponents.

(* ---------------- (B) reading of the generated obligations: for EVERY real value of the formal parameters (angles, time)
   the template's decomposed circuit maps each checked basis state exactly like the documented matrix / the
   independently built reference circuit (global phase included). *)
Theorem template_matches_documented_matrix_forall_parameters :
  forall hz D n circ ows M cols, (0 < hz)%Z -> cols_ok hz n circ ows M cols = true ->
  forall (thetas : list R) c, In c cols ->
    c_capply n (map (evg (aenv hz D thetas)) circ) (c_basis n c)
    = c_apply_gate n ows (map (map (peval (aenv hz D thetas))) M) (c_basis n c).
Proof. exact cols_ok_forall. Qed.
Print Assumptions template_matches_documented_matrix_forall_parameters.

Theorem template_matches_reference_circuit_forall_parameters :
  forall hz D n c1 c2 cols, (0 < hz)%Z -> circ_cols_eq hz n c1 c2 cols = true ->
  forall (thetas : list R) c, In c cols ->
    c_capply n (map (evg (aenv hz D thetas)) c1) (c_basis n c) = c_capply n (map (evg (aenv hz D thetas)) c2) (c_basis n c).
Proof. intros hz D n c1 c2 cols H E thetas. exact (circ_cols_eq_sound hz _ (aenv_good hz D thetas H) n c1 c2 cols E). Qed.
Print Assumptions template_matches_reference_circuit_forall_parameters.

(* ---------------- non-vacuity: instances that meet the hypotheses of the (A) theorems, evaluated in the model *)
Example permute_example :
  permute_swap_labels [0; 1; 2; 3; 4]%Z [4; 2; 0; 1; 3]%Z = [(0, 4); (1, 2); (2, 4); (3, 4)]%Z
  /\ permute_final [0; 1; 2; 3; 4]%Z [4; 2; 0; 1; 3]%Z = [4; 2; 0; 1; 3]%Z.
Proof. vm_compute. split; reflexivity. Qed.
Example select_example : select_fired 2 [10; 11; 12]%Z (be_bits 2 2) = [12]%Z /\ select_fired 2 [10; 11; 12]%Z (be_bits 2 3) = [].
Proof. vm_compute. split; reflexivity. Qed.
Example qrom_example : map (qrom_loaded 3 1 [5; 6; 7; 8; 9]%Z) (seq 0 8) = [Some 5; Some 6; Some 7; Some 8; Some 9; None; None; None]%Z.
Proof. vm_compute. reflexivity. Qed.
