(* C32 Result structure depends only on the request.
   Statements only; every proof points at a lemma of Disc/ShapesProofs.v or evaluates a concrete request.
   Vocabulary: result_shape / batch_shape / jac_shape / jac_struct are the transcribed functions
   (Disc/ShapesModel.v); get = subtree at a path of tuple indices; add_batch = effect of broadcasting
   on a structure; shots_iter sp = [s] says "no shot vector: one execution with s shots (s = None:
   analytic)". *)
From Coq Require Import List ZArith Bool.
From PLV Require Import Disc.ShapesModel Disc.ShapesProofs.
Import ListNotations.
Open Scope Z_scope.

(* a single measurement is returned unwrapped: the result IS the measurement's own structure *)
Theorem unwrap_single : forall sp n B m s, shots_iter sp = [s] ->
  result_shape (mkReq sp n B [m]) = struct n B s m.
Proof. exact unwrap_single_l. Qed.
Print Assumptions unwrap_single.

(* zero or several measurements: a tuple with exactly one entry per measurement, entry i being
   measurement i's own structure; if any measurement has no defined shape the request is rejected *)
Theorem tuple_multi : forall sp n B ms s, shots_iter sp = [s] -> length ms <> 1%nat ->
  (forall ts, all_some (map (struct n B s) ms) = Some ts ->
     result_shape (mkReq sp n B ms) = Some (Tup ts) /\ length ts = length ms /\
     Forall2 (fun m t => struct n B s m = Some t) ms ts) /\
  (all_some (map (struct n B s) ms) = None -> result_shape (mkReq sp n B ms) = None).
Proof. exact tuple_multi_l. Qed.
Print Assumptions tuple_multi.

(* a shot vector (more than one copy) adds an outer tuple: one entry per copy, in order, and each
   entry is exactly the result structure of the plain request with that shot count *)
Theorem shot_vector_outer : forall l n B ms, (1 < length l)%nat ->
  result_shape (mkReq (ShotList l) n B ms) =
  match all_some (map (fun s => result_shape (mkReq (ShotList [s]) n B ms)) l) with
  | None => None
  | Some cs => Some (Tup cs)
  end.
Proof. exact shot_vector_outer_l. Qed.
Print Assumptions shot_vector_outer.

Theorem shot_vector_copies : forall l n B ms cs,
  all_some (map (fun s => result_shape (mkReq (ShotList [s]) n B ms)) l) = Some cs ->
  length cs = length l /\ Forall2 (fun s c => result_shape (mkReq (ShotList [s]) n B ms) = Some c) l cs.
Proof. exact shot_vector_len. Qed.
Print Assumptions shot_vector_copies.

(* broadcasting with batch size b adds one leading axis b to every array leaf and leaves the
   nesting unchanged (counts dictionaries become b dictionaries); batch size 0/None adds nothing *)
Theorem broadcast_leading_dim : forall sp n b ms, b <> 0 ->
  result_shape (mkReq sp n (Some b) ms) = option_map (add_batch b) (result_shape (mkReq sp n None ms)).
Proof. exact broadcast_l. Qed.
Print Assumptions broadcast_leading_dim.

Theorem broadcast_zero_is_none : forall sp n ms,
  result_shape (mkReq sp n (Some 0) ms) = result_shape (mkReq sp n None ms).
Proof. exact no_broadcast_zero. Qed.
Print Assumptions broadcast_zero_is_none.

(* a batch of circuits: one entry per circuit, each with its own request's structure *)
Theorem batch_outer : forall rs ts, batch_shape rs = Some (Tup ts) ->
  length ts = length rs /\ Forall2 (fun r t => result_shape r = Some t) rs ts.
Proof. exact batch_outer_l. Qed.
Print Assumptions batch_outer.

(* Jacobians: jac_shape is the result structure with jac_tree applied ... *)
Theorem jac_follows_result : forall r ps, jac_shape r ps = option_map (jac_tree ps) (result_shape r).
Proof. exact jac_shape_is_map. Qed.
Print Assumptions jac_follows_result.

(* ... and jac_tree keeps the nesting (every tuple node stays a tuple of the same length at the same
   path, dictionaries stay), while at each array leaf of shape d:
   exactly one parameter of shape p -> one array of shape d ++ p (not wrapped);
   otherwise -> a tuple over the parameters whose i-th entry has shape d ++ p_i *)
Theorem jac_appends_param_axes : forall ps t path,
  (forall d, get t path = Some (Leaf d) ->
     (forall p, ps = [p] -> get (jac_tree ps t) path = Some (Leaf (d ++ p))) /\
     (length ps <> 1%nat ->
        (exists l', get (jac_tree ps t) path = Some (Tup l') /\ length l' = length ps) /\
        forall i p, nth_error ps i = Some p -> get (jac_tree ps t) (path ++ [i]) = Some (Leaf (d ++ p)))) /\
  (forall l, get t path = Some (Tup l) ->
     exists l', get (jac_tree ps t) path = Some (Tup l') /\ length l' = length l) /\
  (get t path = Some Opaque -> get (jac_tree ps t) path = Some Opaque).
Proof. exact jac_nesting_l. Qed.
Print Assumptions jac_appends_param_axes.

(* the in-repo Jacobian structure function (_jac_shape_dtype_struct, P scalar parameters) agrees with
   that convention for every request without a shot vector and without counts ... *)
Theorem jac_struct_agrees : forall sp n B ms s P, shots_iter sp = [s] -> Forall differentiable ms ->
  result_shape (mkReq sp n B ms) <> None ->
  jac_struct (mkReq sp n B ms) P = jac_shape (mkReq sp n B ms) (nils P).
Proof. exact jac_struct_agrees_l. Qed.
Print Assumptions jac_struct_agrees.

(* ... but not with a shot vector (it puts the parameters outside the shot copies).  This input is not
   reachable: device-provided derivatives are only used for analytic executions. *)
Theorem jac_struct_quirk_refuted : exists r P,
  jac_struct r P <> jac_shape r (nils P) /\ partitioned (r_shots r) = true.
Proof.
  exists (mkReq (ShotList [4; 2; 2]) 2 None [KExpval]), 2%nat. split; [vm_compute; discriminate | reflexivity].
Qed.
Print Assumptions jac_struct_quirk_refuted.

(* The expected structure is a function of the request alone: the configuration (device, interface,
   differentiation method) carried by a test case does not enter it.  This holds by construction of
   the model and says nothing about PennyLane by itself; what it buys is that ONE expected value is
   compared with every configuration's real output in the correspondence run, so any influence of
   device / interface / diff method on the real structure shows up there as a mismatch. *)
Theorem shape_depends_only_on_request : forall c1 c2 r rs ps,
  expected (CRes c1 r) = expected (CRes c2 r) /\
  expected (CBatch c1 rs) = expected (CBatch c2 rs) /\
  expected (CJac c1 r ps) = expected (CJac c2 r ps) /\
  expected (CRes c1 r) = expected (CStruct r).
Proof. exact expected_config_free. Qed.
Print Assumptions shape_depends_only_on_request.

(* non-vacuity: concrete requests meeting the hypotheses, with their computed structures *)
Example hyps_satisfiable :
  shots_iter (ShotList [7]) = [Some 7] /\
  result_shape (mkReq (ShotList [7]) 3 None [KSample 0]) = Some (Leaf [7; 3]) /\
  result_shape (mkReq NoShots 2 (Some 3) [KExpval; KProbs 2]) = Some (Tup [Leaf [3]; Leaf [3; 4]]) /\
  result_shape (mkReq (ShotList [5; 5; 3]) 2 None [KExpval; KSample 1; KCounts]) =
    Some (Tup [Tup [Leaf []; Leaf [5; 1]; Opaque]; Tup [Leaf []; Leaf [5; 1]; Opaque];
               Tup [Leaf []; Leaf [3; 1]; Opaque]]) /\
  result_shape (mkReq NoShots 2 None [KSample 1]) = None.
Proof. repeat split; reflexivity. Qed.

Example jac_example :
  jac_shape (mkReq (ShotList [5; 3]) 2 None [KExpval; KProbs 2]) [[]; [2]] =
    Some (Tup [Tup [Tup [Leaf []; Leaf [2]]; Tup [Leaf [4]; Leaf [4; 2]]];
               Tup [Tup [Leaf []; Leaf [2]]; Tup [Leaf [4]; Leaf [4; 2]]]]) /\
  get (Tup [Leaf []; Leaf [4]]) [1%nat] = Some (Leaf [4]) /\
  Forall differentiable [KExpval; KProbs 2].
Proof. repeat split; try reflexivity. repeat constructor; discriminate. Qed.
