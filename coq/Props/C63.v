(* C63 Pulse evolution matches the Schroedinger equation.   Statements only.

   Objects: matrices with entries in the QSym scalars (Laurent polynomials in zeta, zeta^hz = -1, and z_k = exp(i theta_k / D)
   with rational coefficients).  `evm (aenv hz D th) M` is M evaluated entrywise over Coquelicot's complex numbers at the real
   angles th; `upd th j y` is th with entry j set to y; `Cderive f x l` (Alg/Deriv.v) says that real and imaginary part of
   f : R -> C have derivatives fst l, snd l at x (is_derive); `cnth M r c` is entry (r,c); c_mmul is the plain matrix product.
   The elapsed time of an evolution window is the formal real variable theta_j.

   NOT proved here: uniqueness of the solution of the linear ODE (Picard-Lindeloef; standard).  The theorems say that an
   accepted closed form solves the equation with the right initial value for ALL times; that PennyLane's numerically integrated
   propagator agrees with it is the numeric tie of harness/props/c63.py. *)
From Coq Require Import List ZArith QArith Reals Bool.
From Coquelicot Require Import Coquelicot.
From PLV Require Import Alg.Poly Alg.PolyEval Alg.Angles Alg.DerivDef Alg.Deriv Lin.Vec Lin.PVec Lin.PVecSound Num.PulseModel Num.PulseProofs.
Import ListNotations.

(* soundness of the reflective checker: dU/d theta_j = -i H U entrywise at every real time x (all other variables arbitrary),
   and U(theta_j = 0) = U0 *)
Theorem solves_schrodinger_sound : forall hz D j H U U0,
  solves_schrodinger hz D j H U U0 = true ->
  forall th : list R,
    (forall x r c,
        Cderive (fun y => cnth (evm (aenv hz D (upd th j y)) U) r c) x
                (cnth (c_scale (Copp Ci) (c_mmul (evm (aenv hz D (upd th j x)) H) (evm (aenv hz D (upd th j x)) U))) r c))
    /\ evm (aenv hz D (upd th j 0%R)) U = evm (aenv hz D (upd th j 0%R)) U0.
Proof. exact PulseProofs.solves_schrodinger_sound. Qed.
Print Assumptions solves_schrodinger_sound.

(* piecewise-constant schedules: window k (generator H_k, own duration variable theta_k, single-window closed form U_k) ;
   the accumulated propagator V_k = U_k V_{k-1} (as complex matrices, for all durations) solves window k's equation in
   theta_k and starts from V_{k-1};  with V_{-1} = V0 (the identity in the generated obligations).  sched_sem unfolds to
   exactly these three statements per window. *)
Theorem piecewise_compose : forall hz D ws k V0,
  sched_ok hz D k V0 ws = true -> sched_sem hz D k V0 ws.
Proof. exact PulseProofs.piecewise_compose. Qed.
Print Assumptions piecewise_compose.

Theorem piecewise_compose_two_windows : forall hz D H1 U1 H2 U2 V0,
  sched_ok hz D 0 V0 [(H1, U1); (H2, U2)] = true ->
  let V1 := p_mmul hz U1 V0 in let V2 := p_mmul hz U2 V1 in
  sol_sem hz D 0 H1 V1 V0 /\ sol_sem hz D 1 H2 V2 V1
  /\ (forall th : list R, evm (aenv hz D th) V2
        = c_mmul (evm (aenv hz D th) U2) (c_mmul (evm (aenv hz D th) U1) (evm (aenv hz D th) V0))).
Proof. exact PulseProofs.piecewise_two. Qed.
Print Assumptions piecewise_compose_two_windows.

(* an evolution window [s, s + t] of a time-independent generator: shifting the time argument preserves derivatives
   (the closed forms are written in the elapsed time) *)
Theorem window_shift : forall (f : R -> C) s x l, Cderive f (x - s) l -> Cderive (fun y => f (y - s)%R) x l.
Proof. exact Cderive_shift. Qed.
Print Assumptions window_shift.

(* parameter routing (param_routing_spec), for all lists.
   H_a + H_b: the parameter list is the concatenation; fixed terms are concatenated *)
Theorem param_routing_spec_add : forall a b pa pb fa ra fb rb,
  ph_wf a -> ph_wf b -> ph_call a pa = Some (fa, ra) -> ph_call b pb = Some (fb, rb) ->
  ph_call (ph_add a b) (pa ++ pb) = Some (fa ++ fb, ra ++ rb).
Proof. exact ph_add_call. Qed.
Print Assumptions param_routing_spec_add.

Theorem param_routing_spec_scale : forall c a pa fa ra,
  ph_wf a -> ph_call a pa = Some (fa, ra) ->
  ph_call (ph_scale c a) pa = Some (map (zscale c) fa, map (zscale c) ra).
Proof. exact ph_scale_call. Qed.
Print Assumptions param_routing_spec_scale.

Theorem constructed_hamiltonians_are_wellformed : forall ts, ph_wf (ph_make ts).
Proof. exact ph_make_wf. Qed.
Print Assumptions constructed_hamiltonians_are_wellformed.

(* _reorder_parameters (drive / rydberg_drive): the coefficient list of a sum of drives and plain terms is a concatenation
   of blocks; each block consumes its own parameters: callable amplitude AND phase -> (amplitude, phase) handed to both the
   cos and the sin coefficient; one callable -> its parameter to both; plain callable -> its parameter *)
Theorem param_routing_spec_reorder : forall bs pss i,
  List.Forall block_ok bs -> List.Forall2 (fun b ps => length ps = block_arity b) bs pss ->
  reorder_ap i i (concat (map block_coeffs bs)) (concat pss) = Some (routes bs pss).
Proof. exact reorder_ap_blocks. Qed.
Print Assumptions param_routing_spec_reorder.

(* _reorder_AmpPhaseFreq (transmon_drive): coefficient k receives the slice of as many parameters as it has callables
   among (amplitude, phase, frequency), plain callables one parameter *)
Theorem param_routing_spec_reorder_transmon : forall cs pss,
  List.Forall2 (fun c ps => length ps = apf_arity c) cs pss ->
  reorder_apf cs (concat pss) = Some (apf_routes cs pss).
Proof. exact reorder_apf_blocks. Qed.
Print Assumptions param_routing_spec_reorder_transmon.

Open Scope Q_scope.
(* H = (3/2) X, D = 2 (z = exp(i t/2)):  U = cos(3t/2) - i sin(3t/2) X *)
Definition exH1 : pmat := [[[]; [((3 # 2)%Q, [])]];
   [[((3 # 2)%Q, [])]; []]].
Definition exU1 : pmat := [[[((1 # 2)%Q, [0%Z; (-3)%Z]); ((1 # 2)%Q, [0%Z; 3%Z])]; [((1 # 2)%Q, [0%Z; (-3)%Z]); ((-1 # 2)%Q, [0%Z; 3%Z])]];
   [[((1 # 2)%Q, [0%Z; (-3)%Z]); ((-1 # 2)%Q, [0%Z; 3%Z])]; [((1 # 2)%Q, [0%Z; (-3)%Z]); ((1 # 2)%Q, [0%Z; 3%Z])]]].
Example commuting_instance : solves_schrodinger 2 2 0 exH1 exU1 (p_mident 2) = true.
Proof. vm_compute. reflexivity. Qed.
(* H = 3 X + 4 Z (non-commuting terms, H^2 = 25), D = 1:  U = cos(5t) - i sin(5t) (3 X + 4 Z)/5 ; then H' = 4 X - 3 Z in window 2 *)
Definition exH2 : pmat := [[[((4 # 1)%Q, [])]; [((3 # 1)%Q, [])]];
   [[((3 # 1)%Q, [])]; [((-4 # 1)%Q, [])]]].
Definition exU2 : pmat := [[[((9 # 10)%Q, [0%Z; (-5)%Z]); ((1 # 10)%Q, [0%Z; 5%Z])]; [((3 # 10)%Q, [0%Z; (-5)%Z]); ((-3 # 10)%Q, [0%Z; 5%Z])]];
   [[((3 # 10)%Q, [0%Z; (-5)%Z]); ((-3 # 10)%Q, [0%Z; 5%Z])]; [((1 # 10)%Q, [0%Z; (-5)%Z]); ((9 # 10)%Q, [0%Z; 5%Z])]]].
Definition exH3 : pmat := [[[((-3 # 1)%Q, [])]; [((4 # 1)%Q, [])]];
   [[((4 # 1)%Q, [])]; [((3 # 1)%Q, [])]]].
Definition exU3 : pmat := [[[((1 # 5)%Q, [0%Z; 0%Z; (-5)%Z]); ((4 # 5)%Q, [0%Z; 0%Z; 5%Z])]; [((2 # 5)%Q, [0%Z; 0%Z; (-5)%Z]); ((-2 # 5)%Q, [0%Z; 0%Z; 5%Z])]];
   [[((2 # 5)%Q, [0%Z; 0%Z; (-5)%Z]); ((-2 # 5)%Q, [0%Z; 0%Z; 5%Z])]; [((4 # 5)%Q, [0%Z; 0%Z; (-5)%Z]); ((1 # 5)%Q, [0%Z; 0%Z; 5%Z])]]].
Example pythagorean_instance : solves_schrodinger 2 1 0 exH2 exU2 (p_mident 2) = true.
Proof. vm_compute. reflexivity. Qed.
Example schedule_instance : sched_ok 2 1 0 (p_mident 2) [(exH2, exU2); (exH3, exU3)] = true.
Proof. vm_compute. reflexivity. Qed.
(* the checker is not vacuous: the wrong sign (U for -H) is rejected *)
Example wrong_sign_rejected : solves_schrodinger 2 1 0 exH3 (p_madj exU3) (p_mident 2) = false.
Proof. vm_compute. reflexivity. Qed.
