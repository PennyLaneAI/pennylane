(* C16 Exact ring arithmetic behind gridsynth is lawful.
   Statements only; every proof is `exact <lemma>` from Disc/RingsProofs.v.
   zs = ZSqrtTwo (a + b sqrt2), zo = ZOmega (a w^3 + b w^2 + c w + d), dm = DyadicMatrix, res = Ok | Err (raised). *)
From Coq Require Import List ZArith Bool Znumtheory.
From PLV Require Import Disc.RingsModel Disc.RingsProofs.
Import ListNotations.
Open Scope Z_scope.

(* ---------------- Z[sqrt2]: commutative ring *)
Theorem zsqrt2_add_laws : forall x y z,
  zs_add x y = zs_add y x /\ zs_add (zs_add x y) z = zs_add x (zs_add y z) /\
  zs_add x zs_zero = x /\ zs_add zs_zero x = x /\ zs_add x (zs_neg x) = zs_zero /\ zs_sub x y = zs_add x (zs_neg y).
Proof. intros x y z. exact (conj (zs_add_comm x y) (conj (zs_add_assoc x y z) (conj (zs_add_0_r x) (conj (zs_add_0_l x) (conj (zs_add_neg x) eq_refl))))). Qed.
Print Assumptions zsqrt2_add_laws.

Theorem zsqrt2_mul_laws : forall x y z,
  zs_mul x y = zs_mul y x /\ zs_mul (zs_mul x y) z = zs_mul x (zs_mul y z) /\
  zs_mul x zs_one = x /\ zs_mul zs_one x = x /\
  zs_mul x (zs_add y z) = zs_add (zs_mul x y) (zs_mul x z) /\
  zs_mul (zs_add x y) z = zs_add (zs_mul x z) (zs_mul y z).
Proof. intros x y z. exact (conj (zs_mul_comm x y) (conj (zs_mul_assoc x y z) (conj (zs_mul_1_r x) (conj (zs_mul_1_l x) (conj (zs_distr_l x y z) (zs_distr_r x y z)))))). Qed.
Print Assumptions zsqrt2_mul_laws.

(* the int-operand forms of + * - are the ring operations with the embedded integer *)
Theorem zsqrt2_int_operands : forall x n,
  zs_mulz x n = zs_mul x (ZS n 0) /\ zs_addz x n = zs_add x (ZS n 0) /\ zs_rsubz n x = zs_sub (ZS n 0) x.
Proof. intros x n. exact (conj (zs_mulz_embed x n) (conj (zs_addz_embed x n) (zs_rsubz_embed x n))). Qed.
Print Assumptions zsqrt2_int_operands.

Theorem zsqrt2_pow_laws : forall x,
  zs_pow x 0 = Ok zs_one /\ zs_pow x 1 = Ok x /\ (forall p, p < 0 -> zs_pow x p = Err) /\
  (forall p q r s, 0 < p -> 0 < q -> zs_pow x p = Ok r -> zs_pow x q = Ok s -> zs_pow x (p + q) = Ok (zs_mul r s)).
Proof. intros x. exact (conj (zs_pow_0 x) (conj (zs_pow_1 x) (conj (zs_pow_neg x) (zs_pow_add x)))). Qed.
Print Assumptions zsqrt2_pow_laws.

(* conj is the identity, adj2 (sqrt2 -> -sqrt2) is an involutive ring homomorphism *)
Theorem zsqrt2_conjugations : forall x y,
  zs_conj x = x /\ zs_adj2 (zs_adj2 x) = x /\ zs_adj2 (zs_add x y) = zs_add (zs_adj2 x) (zs_adj2 y) /\
  zs_adj2 (zs_mul x y) = zs_mul (zs_adj2 x) (zs_adj2 y) /\ zs_adj2 (zs_neg x) = zs_neg (zs_adj2 x) /\ zs_adj2 zs_one = zs_one.
Proof. intros x y. exact (conj (zs_conj_id x) (conj (zs_adj2_invol x) (conj (zs_adj2_add x y) (conj (zs_adj2_mul x y) (conj (zs_adj2_neg x) zs_adj2_one))))). Qed.
Print Assumptions zsqrt2_conjugations.

Theorem zsqrt2_norm_multiplicative : forall x y,
  zs_abs (zs_mul x y) = zs_abs x * zs_abs y /\ zs_abs zs_one = 1 /\ zs_abs (zs_adj2 x) = zs_abs x /\
  zs_mul x (zs_adj2 x) = ZS (zs_abs x) 0.
Proof. intros x y. exact (conj (zs_abs_mul x y) (conj zs_abs_one (conj (zs_abs_adj2 x) (zs_mul_adj2 x)))). Qed.
Print Assumptions zsqrt2_norm_multiplicative.

Theorem zsqrt2_truediv_sound : forall x y q, zs_truediv x y = Ok q -> zs_mul q y = x.
Proof. exact zs_truediv_sound. Qed.
Print Assumptions zsqrt2_truediv_sound.

Theorem zsqrt2_sqrt_sound : forall x y, zs_sqrt x = Ok (Some y) -> zs_mul y y = x.
Proof. exact zs_sqrt_sound. Qed.
Print Assumptions zsqrt2_sqrt_sound.

(* __mod__ returns r with x = q*y + r or x = q*y - r (sign quirk); no size claim is made: the
   remainder's norm is not always below the divisor's *)
Theorem zsqrt2_mod_congruent_partial : forall x y r, zs_mod x y = Ok r ->
  exists q, x = zs_add (zs_mul q y) r \/ x = zs_sub (zs_mul q y) r.
Proof. exact zs_mod_congruent. Qed.
Print Assumptions zsqrt2_mod_congruent_partial.

(* ---------------- Z[omega]: commutative ring *)
Theorem zomega_add_laws : forall x y z,
  zo_add x y = zo_add y x /\ zo_add (zo_add x y) z = zo_add x (zo_add y z) /\
  zo_add x zo_zero = x /\ zo_add zo_zero x = x /\ zo_add x (zo_neg x) = zo_zero /\ zo_sub x y = zo_add x (zo_neg y).
Proof. intros x y z. exact (conj (zo_add_comm x y) (conj (zo_add_assoc x y z) (conj (zo_add_0_r x) (conj (zo_add_0_l x) (conj (zo_add_neg x) eq_refl))))). Qed.
Print Assumptions zomega_add_laws.

Theorem zomega_mul_laws : forall x y z,
  zo_mul x y = zo_mul y x /\ zo_mul (zo_mul x y) z = zo_mul x (zo_mul y z) /\
  zo_mul x zo_one = x /\ zo_mul zo_one x = x /\
  zo_mul x (zo_add y z) = zo_add (zo_mul x y) (zo_mul x z) /\
  zo_mul (zo_add x y) z = zo_add (zo_mul x z) (zo_mul y z).
Proof. intros x y z. exact (conj (zo_mul_comm x y) (conj (zo_mul_assoc x y z) (conj (zo_mul_1_r x) (conj (zo_mul_1_l x) (conj (zo_distr_l x y z) (zo_distr_r x y z)))))). Qed.
Print Assumptions zomega_mul_laws.

Theorem zomega_int_operands : forall x n,
  zo_mulz x n = zo_mul x (ZO 0 0 0 n) /\ zo_addz x n = zo_add x (ZO 0 0 0 n) /\ zo_rsubz n x = zo_sub (ZO 0 0 0 n) x.
Proof. intros x n. exact (conj (zo_mulz_embed x n) (conj (zo_addz_embed x n) (zo_rsubz_embed x n))). Qed.
Print Assumptions zomega_int_operands.

Theorem zomega_pow_laws : forall x,
  zo_pow x 0 = Ok zo_one /\ zo_pow x 1 = Ok x /\ (forall p, p < 0 -> zo_pow x p = Err) /\
  (forall p q r s, 0 < p -> 0 < q -> zo_pow x p = Ok r -> zo_pow x q = Ok s -> zo_pow x (p + q) = Ok (zo_mul r s)) /\
  zo_pow (ZO 0 0 1 0) 4 = Ok (zo_neg zo_one).
Proof. intros x. exact (conj (zo_pow_0 x) (conj (zo_pow_1 x) (conj (zo_pow_neg x) (conj (zo_pow_add x) zo_omega4)))). Qed.
Print Assumptions zomega_pow_laws.

(* complex conjugation and sqrt2-conjugation: commuting involutive ring homomorphisms *)
Theorem zomega_conj_hom : forall x y,
  zo_conj (zo_conj x) = x /\ zo_conj (zo_add x y) = zo_add (zo_conj x) (zo_conj y) /\
  zo_conj (zo_mul x y) = zo_mul (zo_conj x) (zo_conj y) /\ zo_conj (zo_neg x) = zo_neg (zo_conj x) /\ zo_conj zo_one = zo_one.
Proof. intros x y. exact (conj (zo_conj_invol x) (conj (zo_conj_add x y) (conj (zo_conj_mul x y) (conj (zo_conj_neg x) zo_conj_one)))). Qed.
Print Assumptions zomega_conj_hom.

Theorem zomega_adj2_hom : forall x y,
  zo_adj2 (zo_adj2 x) = x /\ zo_adj2 (zo_add x y) = zo_add (zo_adj2 x) (zo_adj2 y) /\
  zo_adj2 (zo_mul x y) = zo_mul (zo_adj2 x) (zo_adj2 y) /\ zo_adj2 (zo_neg x) = zo_neg (zo_adj2 x) /\
  zo_adj2 zo_one = zo_one /\ zo_conj (zo_adj2 x) = zo_adj2 (zo_conj x).
Proof. intros x y. exact (conj (zo_adj2_invol x) (conj (zo_adj2_add x y) (conj (zo_adj2_mul x y) (conj (zo_adj2_neg x) (conj zo_adj2_one (zo_conj_adj2 x)))))). Qed.
Print Assumptions zomega_adj2_hom.

Theorem zomega_norm_multiplicative : forall x y,
  zo_abs (zo_mul x y) = zo_abs x * zo_abs y /\ zo_abs zo_one = 1 /\ zo_abs (zo_conj x) = zo_abs x /\
  zo_norm (zo_mul x y) = zo_mul (zo_norm x) (zo_norm y) /\ zo_conj (zo_norm x) = zo_norm x.
Proof. intros x y. exact (conj (zo_abs_mul x y) (conj zo_abs_one (conj (zo_abs_conj x) (conj (zo_norm_mul x y) (zo_norm_real x))))). Qed.
Print Assumptions zomega_norm_multiplicative.

(* x * conj x lies in Z[sqrt2] and abs x is its Z[sqrt2]-norm *)
Theorem zomega_abs_is_norm_of_norm : forall x,
  exists s, zo_to_sqrt_two (zo_norm x) = Ok s /\ zs_abs s = zo_abs x /\ zs_to_omega s = zo_norm x.
Proof. exact zo_abs_via_norm. Qed.
Print Assumptions zomega_abs_is_norm_of_norm.

Theorem zomega_mod_congruent_partial : forall x y r, zo_mod x y = Ok r ->
  exists q, x = zo_add (zo_mul q y) r \/ x = zo_sub (zo_mul q y) r.
Proof. exact zo_mod_congruent. Qed.
Print Assumptions zomega_mod_congruent_partial.

(* ---------------- conversions: mutually inverse, homomorphic embeddings *)
Theorem to_omega_embedding : forall x y,
  zs_to_omega (zs_add x y) = zo_add (zs_to_omega x) (zs_to_omega y) /\
  zs_to_omega (zs_mul x y) = zo_mul (zs_to_omega x) (zs_to_omega y) /\
  zs_to_omega (zs_neg x) = zo_neg (zs_to_omega x) /\ zs_to_omega zs_one = zo_one /\ zs_to_omega zs_zero = zo_zero /\
  zo_conj (zs_to_omega x) = zs_to_omega x /\ zo_adj2 (zs_to_omega x) = zs_to_omega (zs_adj2 x) /\
  (zs_to_omega x = zs_to_omega y -> x = y).
Proof. intros x y. exact (conj (to_omega_add x y) (conj (to_omega_mul x y) (conj (to_omega_neg x) (conj to_omega_one (conj to_omega_zero (conj (to_omega_conj x) (conj (to_omega_adj2 x) (to_omega_inj x y)))))))). Qed.
Print Assumptions to_omega_embedding.

Theorem to_sqrt_two_inverse : forall x z s w t,
  zo_to_sqrt_two (zs_to_omega x) = Ok x /\
  (zo_to_sqrt_two z = Ok s -> zs_to_omega s = z) /\
  (zo_to_sqrt_two z = Ok s -> zo_to_sqrt_two w = Ok t -> zo_to_sqrt_two (zo_mul z w) = Ok (zs_mul s t)) /\
  (zo_to_sqrt_two z = Ok s -> zo_to_sqrt_two w = Ok t -> zo_to_sqrt_two (zo_add z w) = Ok (zs_add s t)).
Proof. intros x z s w t. exact (conj (to_sqrt_two_to_omega x) (conj (to_omega_to_sqrt_two z s) (conj (to_sqrt_two_mul z w s t) (to_sqrt_two_add z w s t)))). Qed.
Print Assumptions to_sqrt_two_inverse.

(* ---------------- normalisation keeps the denoted value (cross-multiplied: A = sqrt2^j * A', k' = k - j) *)
Theorem zomega_normalize_sound : forall x r ix, zo_normalize x = Ok (r, ix) ->
  exists j, ix = Z.of_nat j /\ x = zo_mul (sq2pow j) r /\ zo_sqrt2able r = false.
Proof. exact zo_normalize_sound. Qed.
Print Assumptions zomega_normalize_sound.

Theorem dyadic_normalize_sound : forall m m', dm_normalize m = Ok m' ->
  (dm_is_zero m /\ dm_is_zero m' /\ mk m' = 0) \/ exists j, dm_scaled j m m'.
Proof. exact dm_normalize_sound. Qed.
Print Assumptions dyadic_normalize_sound.

(* ---------------- matrix products (before normalisation) *)
Theorem dyadic_matmul_laws : forall x y z,
  dm_matmul_raw (dm_matmul_raw x y) z = dm_matmul_raw x (dm_matmul_raw y z) /\
  dm_matmul_raw dm_id x = x /\ dm_matmul_raw x dm_id = x /\
  (mk y = mk z -> dm_matmul_raw x (dm_add_same y z) = dm_add_same (dm_matmul_raw x y) (dm_matmul_raw x z)) /\
  dm_map zo_conj (dm_matmul_raw x y) (mk x + mk y) = dm_matmul_raw (dm_map zo_conj x (mk x)) (dm_map zo_conj y (mk y)).
Proof. intros x y z. exact (conj (dm_matmul_raw_assoc x y z) (conj (dm_matmul_raw_id_l x) (conj (dm_matmul_raw_id_r x) (conj (dm_matmul_raw_distr_l x y z) (dm_matmul_raw_conj x y))))). Qed.
Print Assumptions dyadic_matmul_laws.

Theorem so3_matmul_assoc :
  forall u0 u1 u2 u3 u4 u5 u6 u7 u8 v0 v1 v2 v3 v4 v5 v6 v7 v8 w0 w1 w2 w3 w4 w5 w6 w7 w8,
  so3_matmul_raw (so3_matmul_raw [u0;u1;u2;u3;u4;u5;u6;u7;u8] [v0;v1;v2;v3;v4;v5;v6;v7;v8]) [w0;w1;w2;w3;w4;w5;w6;w7;w8]
  = so3_matmul_raw [u0;u1;u2;u3;u4;u5;u6;u7;u8] (so3_matmul_raw [v0;v1;v2;v3;v4;v5;v6;v7;v8] [w0;w1;w2;w3;w4;w5;w6;w7;w8]).
Proof. exact so3_matmul_raw_assoc. Qed.
Print Assumptions so3_matmul_assoc.

(* ---------------- norm-equation solver: every returned solution satisfies t^dagger t = xi,
   whatever the (randomised) factoring produced: any loop outcome, any list of factors, any scale *)
Theorem diophantine_tail_sound : forall scale xi t, dioph_tail scale xi = Ok (Some t) ->
  zo_mul (zo_conj t) t = zs_to_omega xi.
Proof. exact dioph_tail_sound. Qed.
Print Assumptions diophantine_tail_sound.

Theorem solve_diophantine_returns_solutions : forall xi loop_ok ts t, solve_dioph xi loop_ok ts = Ok (Some t) ->
  is_solution xi t = true /\ zo_mul (zo_conj t) t = zs_to_omega xi.
Proof. intros xi ok ts t H. split; [apply is_solution_spec|]; exact (solve_dioph_sound xi ok ts t H). Qed.
Print Assumptions solve_diophantine_returns_solutions.

(* ---------------- primality: the oracle is exactly Znumtheory.prime; the Miller-Rabin transcription
   agrees with it for every n below the stated bound (a prime passes every base by Fermat's little theorem; a
   composite below the bound has a prime factor below 113, which a small-prime division or a base divisible by it
   exposes, or else vm_compute on the few that are left); beyond: correspondence + oracle only *)
Theorem primeb_is_prime : forall n, primeb n = true <-> prime n.
Proof. exact primeb_correct. Qed.
Print Assumptions primeb_is_prime.

Theorem miller_rabin_exact_below_12000_partial : forall n, n < 12000 -> (primality_test n = Ok true <-> prime n).
Proof. exact primality_test_prime_below. Qed.
Print Assumptions miller_rabin_exact_below_12000_partial.

(* non-vacuity *)
Example solver_hyp_satisfiable :
  dioph_tail (ZO 0 0 1 1) (ZS 10 7) = Ok (Some (ZO (-1) 1 2 2)) /\ is_solution (ZS 10 7) (ZO (-1) 1 2 2) = true.
Proof. split; reflexivity. Qed.
Example normalize_hyp_satisfiable :
  exists m', dm_normalize (DM (ZO 0 0 0 2) (ZO 0 0 0 2) (ZO 0 0 0 2) (ZO 0 0 0 2) 4) = Ok m' /\ mk m' = 2 /\ ma m' = zo_one /\
             zs_sqrt (ZS 3 2) = Ok (Some (ZS 1 1)) /\ zs_truediv (ZS 4 3) (ZS 1 1) = Ok (ZS 2 1).
Proof. eexists; repeat split; reflexivity. Qed.
