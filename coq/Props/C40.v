(* C40 Circuit parameter bookkeeping is consistent.
   Statements only; every proof points at a lemma of Disc/TapeParamsProofs.v.
   Model: Disc/TapeParamsModel.v (par_info, trainable_params, get_parameters, bind_new_parameters, copy,
   decompose, gradient expand = decompose + re-derive trainable indices from requires_grad). *)
From Coq Require Import List ZArith Bool QArith.
From PLV Require Import Disc.TapeParamsModel Disc.TapeParamsProofs.
Import ListNotations.
Open Scope Z_scope.

(* ---- par_info entry k points at the operator / offset holding parameter k (all circuits) ---- *)
Theorem par_info_consistent : forall t k oi pi, nth_error (par_info t) k = Some (oi, pi) ->
  exists d v, py_nth (cdata t) oi = Some d /\ py_nth d pi = Some v /\ nth_error (all_params t) k = Some v.
Proof. exact par_info_points. Qed.
Print Assumptions par_info_consistent.

Theorem par_info_one_entry_per_parameter : forall t,
  length (par_info t) = length (all_params t) /\ NoDup (par_info t).
Proof. intros t; split; [exact (par_info_len t) | exact (par_info_nodup t)]. Qed.
Print Assumptions par_info_one_entry_per_parameter.

(* ---- binding the current values (at any index list, Python indexing) reproduces the circuit ---- *)
Theorem bind_current_id : forall t ps idx t', bind t ps idx = Some t' ->
  (forall k i, nth_error (sorted_py idx) k = Some i ->
     exists e, py_nth (par_info t) i = Some e /\ exists v, via_pinfo t e = Some v /\ nth_error ps k = Some v) ->
  ops t' = ops t /\ meas t' = meas t /\ trainable t' = trainable t.
Proof. exact bind_current. Qed.
Print Assumptions bind_current_id.

(* ---- binding new values changes exactly the addressed positions ---- *)
(* general form (unsorted / duplicate / negative indices): value at par_info entry (oi, pi) is params[k] for the
   LAST k with sorted(indices)[k] addressing (oi, pi), else the old value *)
Theorem bind_pointwise_general : forall t ps idx t' asg, bind t ps idx = Some t' -> bind_asg t idx = Some asg ->
  forall j oi pi v, nth_error (par_info t) j = Some (oi, pi) -> nth_error (all_params t) j = Some v ->
  nth_error (all_params t') j =
    Some (match lookup_last asg oi pi None with Some k => nth (Z.to_nat k) ps v | None => v end).
Proof. exact bind_pointwise. Qed.
Print Assumptions bind_pointwise_general.

(* a position that no index addresses keeps its value *)
Theorem bind_others_untouched : forall t ps idx t', bind t ps idx = Some t' ->
  forall j, (forall i, In i idx -> py_nth (par_info t) i <> nth_error (par_info t) j) ->
  nth_error (all_params t') j = nth_error (all_params t) j.
Proof. exact bind_untouched. Qed.
Print Assumptions bind_others_untouched.

Theorem bind_others_untouched_nonneg : forall t ps idx t', bind t ps idx = Some t' ->
  (forall i, In i idx -> 0 <= i) ->
  forall j, ~ In (Z.of_nat j) idx -> nth_error (all_params t') j = nth_error (all_params t) j.
Proof. exact bind_untouched_pos. Qed.
Print Assumptions bind_others_untouched_nonneg.

(* increasing non-negative indices (the documented use): position indices[k] receives params[k], in order *)
Theorem bind_changes_exactly : forall t ps idx t', bind t ps idx = Some t' ->
  incr idx -> (forall i, In i idx -> 0 <= i) ->
  forall k i, nth_error idx k = Some i -> nth_error (all_params t') (Z.to_nat i) = nth_error ps k.
Proof. exact bind_sets. Qed.
Print Assumptions bind_changes_exactly.

(* operator names, wires, measurement classes, trainable indices and par_info are kept by a bind *)
Theorem bind_keeps_structure : forall t ps idx t', bind t ps idx = Some t' ->
  map sname (ops t') = map sname (ops t) /\ map swires (ops t') = map swires (ops t) /\
  map mkind (meas t') = map mkind (meas t) /\ trainable t' = trainable t /\ par_info t' = par_info t.
Proof. exact bind_frame. Qed.
Print Assumptions bind_keeps_structure.

(* ---- copies / derived tapes are independent: in any history over a store of tapes, a tape is changed only by
        a trainable_params assignment addressed to it, and even that never changes its operators/measurements ---- *)
Theorem copy_independent : forall ss st stf cs, run_steps st ss = (stf, cs) ->
  forall j t, nth_error st j = Some t ->
  ((forall s, In s ss -> ~ (exists l, s = SSetTrain j l)) -> nth_error stf j = Some t) /\
  (exists t', nth_error stf j = Some t' /\ ops t' = ops t /\ meas t' = meas t).
Proof. exact run_frame. Qed.
Print Assumptions copy_independent.

(* ---- expansion: after decompose + re-derivation (gradient expand transforms) the new trainable positions are
        exactly those whose value is computed from a trainable old position (deps = position map of the rules) ---- *)
Theorem expand_preserves_trainable : forall t rs t'', grad_expand t rs = XNew t'' ->
  (forall k, In k (trainable t'') <-> (0 <= k /\ flag_at (all_params t'') k = true)) /\
  forall j, In j (trainable t'') <->
    exists n ds, j = Z.of_nat n /\ nth_error (deps t rs) n = Some ds /\
                 exists k, In k ds /\ flag_at (all_params t) k = true.
Proof. exact grad_expand_trainable. Qed.
Print Assumptions expand_preserves_trainable.

Theorem expand_preserves_trainable_indices : forall t rs t'',
  (forall k, In k (trainable t) <-> (0 <= k /\ flag_at (all_params t) k = true)) ->
  grad_expand t rs = XNew t'' ->
  forall j, In j (trainable t'') <->
    exists n ds, j = Z.of_nat n /\ nth_error (deps t rs) n = Some ds /\
                 exists k, In k ds /\ 0 <= k /\ In k (trainable t).
Proof. exact grad_expand_trainable_pos. Qed.
Print Assumptions expand_preserves_trainable_indices.

(* the position map really is the data flow of the rules: requires_grad of every new value = OR over its sources *)
Theorem expand_position_map_sound : forall t rs t', decompose t rs = Some t' ->
  Forall2 (fun p ds => snd p = existsb (flag_at (all_params t)) ds) (all_params t') (deps t rs).
Proof. exact decompose_deps. Qed.
Print Assumptions expand_position_map_sound.

(* plain decompose (tape.copy(operations=new_ops)) forgets an explicitly set trainable subset: all parameters *)
Theorem decompose_resets_trainable_to_all : forall t rs t', decompose t rs = Some t' ->
  trainable t' = enum_from 0 (length (all_params t')).
Proof. exact decompose_trainable_all. Qed.
Print Assumptions decompose_resets_trainable_to_all.

(* read literally on tape.trainable_params, "decomposing preserves which parameters are trainable" is refuted by
   the faithful model for decompose alone: Rot(a*, b, c) with only a trainable -> RZ RY RZ, all three trainable;
   the gradient expand of the same tape keeps [0] *)
Definition ex_rot : tape :=
  mkTape [mkSlot 1 [(1 # 2, true); (3 # 4, false); (5 # 8, false)]%Q [0]] [mkMp 7 None] (Some [0]).
Definition ex_rules : rules :=
  [(1, [true; false; false],
    Some [(2, [(0, [1; 0; 0])]%Q, [0]); (3, [(0, [0; 1; 0])]%Q, [0]); (2, [(0, [0; 0; 1])]%Q, [0])])].
Theorem decompose_alone_resets_trainable_refuted : exists t rs t' t'',
  trainable t = [0] /\ decompose t rs = Some t' /\ grad_expand t rs = XNew t'' /\
  deps t rs = [[0]; [1]; [2]] /\ trainable t' = [0; 1; 2] /\ trainable t'' = [0].
Proof. exists ex_rot, ex_rules. eexists. eexists. repeat split; vm_compute; reflexivity. Qed.
Print Assumptions decompose_alone_resets_trainable_refuted.

(* ---- non-vacuity ---- *)
Example bind_hyps_satisfiable :
  exists t', bind ex_rot [(9 # 1, false); (7 # 2, true)]%Q [0; 2] = Some t' /\ incr [0; 2] /\
             all_params t' = [(9 # 1, false); (3 # 4, false); (7 # 2, true)]%Q /\ trainable t' = [0].
Proof. eexists. repeat split; vm_compute; reflexivity. Qed.

Example bind_identity_satisfiable :
  exists t', bind ex_rot (all_params ex_rot) [0; 1; 2] = Some t' /\ ops t' = ops ex_rot.
Proof. eexists. split; vm_compute; reflexivity. Qed.
