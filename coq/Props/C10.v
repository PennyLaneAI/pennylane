(* C10 Every registered decomposition rule implements its operator exactly.
   Static part: the reflection principle every generated obligation goes through.
   Generated part (coq/Gen/C10/*.v, rebuilt from /repo on every run): one lemma
     ob_k : cols_ok hz n circuit_k op_wires M_k cols_k = true        (Lin/PlanSparse.v's cols_ok_by_fast, then vm_compute)
   per (operator instance, applicable rule), where circuit_k and M_k are the exact symbolic objects
   obtained by executing PennyLane's rule / matrix code on formal parameters. *)
From Coq Require Import List ZArith QArith Reals Bool.
From Coquelicot Require Import Complex.
From PLV Require Import Alg.Poly Alg.PolyEval Alg.Angles Lin.Vec Lin.VecHom Lin.PVec Lin.PVecSound.
Import ListNotations.

(* For EVERY real value of the parameters, the circuit emitted by the rule maps each basis state of the
   checked columns (work wires in |0>, documented input domain) to exactly what the operator's matrix
   does -- global phase included, work wires back in |0> (the target side has no amplitude elsewhere). *)
Theorem rule_ok_forall_parameters :
  forall hz D n circ ows M cols, (0 < hz)%Z -> cols_ok hz n circ ows M cols = true ->
  forall (thetas : list R) c, In c cols ->
    c_capply n (map (evg (aenv hz D thetas)) circ) (c_basis n c)
    = c_apply_gate n ows (map (map (peval (aenv hz D thetas))) M) (c_basis n c).
Proof. exact cols_ok_forall. Qed.
Print Assumptions rule_ok_forall_parameters.

(* the scalar engine: equal normal forms denote equal complex numbers for all parameter values *)
Theorem normal_form_equality_sound :
  forall hz D p q, (0 < hz)%Z -> peqb hz p q = true ->
  forall thetas : list R, peval (aenv hz D thetas) p = peval (aenv hz D thetas) q.
Proof. exact peqb_forall_angles. Qed.
Print Assumptions normal_form_equality_sound.

(* what the formal variables mean: variable j+1 evaluates to exp(i * theta_j / D), variable 0 to exp(i pi / hz) *)
Theorem variables_are_phases : forall hz D thetas j k,
  zpow (aenv hz D thetas (S j)) k = cis (IZR k * (nth j thetas 0%R / IZR D)).
Proof. exact aenv_var. Qed.
Print Assumptions variables_are_phases.

(* non-vacuity: CNOT written as H CZ H on wire 1 *)
Definition ex_h : poly := [(Qmake 1 2, [1%Z]); (Qmake (-1) 2, [3%Z])].
Definition ex_o : poly := pone.
Definition ex_z : poly := pzero.
Definition ex_H : pmat := [[ex_h; ex_h]; [ex_h; pneg ex_h]].
Definition ex_CZ : pmat := [[ex_o; ex_z; ex_z; ex_z]; [ex_z; ex_o; ex_z; ex_z]; [ex_z; ex_z; ex_o; ex_z]; [ex_z; ex_z; ex_z; pneg ex_o]].
Definition ex_CNOT : pmat := [[ex_o; ex_z; ex_z; ex_z]; [ex_z; ex_o; ex_z; ex_z]; [ex_z; ex_z; ex_z; ex_o]; [ex_z; ex_z; ex_o; ex_z]].
Example rule_obligation_satisfiable :
  cols_ok 4 2 [([1%nat], ex_H); ([0%nat; 1%nat], ex_CZ); ([1%nat], ex_H)] [0%nat; 1%nat] ex_CNOT (all_cols 2) = true.
Proof. vm_compute. reflexivity. Qed.
Example wrong_rule_is_rejected :
  cols_ok 4 2 [([1%nat], ex_H); ([0%nat; 1%nat], ex_CZ)] [0%nat; 1%nat] ex_CNOT (all_cols 2) = false.
Proof. vm_compute. reflexivity. Qed.
