(* C44 Shots specifications are interpreted consistently.
   Statements only; every proof points at lemmas of Disc/ShotsProofs.v. *)
From Coq Require Import List ZArith Bool.
From PLV Require Import Disc.ShotsModel Disc.ShotsProofs.
Import ListNotations.
Open Scope Z_scope.

(* total shots = sum of the expanded list (None only for the None specification) *)
Theorem total_is_sum_expand : forall s sh, mk s = Some sh ->
  total sh = match s with SNone => None | _ => Some (sumZ (iter sh)) end.
Proof. exact mk_total. Qed.
Print Assumptions total_is_sum_expand.

(* iteration order = the expanded list of the items as written *)
Theorem iter_is_expand : forall l sh, mk (SSeq l) = Some sh -> iter sh = flat_map item_expand l.
Proof. exact mk_seq_iter. Qed.
Print Assumptions iter_is_expand.

(* the shot vector is the run-length encoding: positive entries, no two adjacent equal *)
Theorem vector_is_rle : forall s sh, mk s = Some sh -> wf sh /\ canonical (vec sh).
Proof. intros s sh H; split; [exact (mk_wf s sh H) | exact (mk_canonical s sh H)]. Qed.
Print Assumptions vector_is_rle.

Theorem bins_are_prefix_sums : forall sh i a b, nth_error (bins sh) i = Some (a, b) ->
  a = 0 + sumZ (firstn i (iter sh)) /\ b = 0 + sumZ (firstn (S i) (iter sh)).
Proof. intros sh; exact (bins_from_spec (iter sh) 0). Qed.
Print Assumptions bins_are_prefix_sums.

Theorem bins_cover_all : forall sh, length (bins sh) = length (iter sh).
Proof. intros sh; exact (bins_from_length (iter sh) 0). Qed.
Print Assumptions bins_cover_all.

Theorem partitioned_iff_len_gt_1 : forall sh, wf sh -> total sh <> None ->
  has_partitioned sh = true <-> (1 < length (iter sh))%nat.
Proof. exact partitioned_iff. Qed.
Print Assumptions partitioned_iff_len_gt_1.

Theorem num_copies_is_length : forall sh, wf sh -> num_copies sh = Z.of_nat (length (iter sh)).
Proof. exact num_copies_length. Qed.
Print Assumptions num_copies_is_length.

Theorem add_is_concat : forall x y, wf x -> wf y -> total x <> None -> total y <> None -> vec x <> [] ->
  exists z, add x y = Some z /\ iter z = iter x ++ iter y /\ total z = Some (sumZ (iter x) + sumZ (iter y)).
Proof. exact add_concat. Qed.
Print Assumptions add_is_concat.

Theorem add_none_neutral : forall x y,
  (total x = None -> add x y = Some y) /\ (total x <> None -> total y = None -> add x y = Some x).
Proof. intros x y; split; [exact (add_none_l x y) | exact (add_none_r x y)]. Qed.
Print Assumptions add_none_neutral.

Theorem mul_is_map : forall x p q, wf x -> total x <> None -> vec x <> [] ->
  Forall (fun s => 0 < scale p q s) (iter x) ->
  exists z, mul x p q = Some z /\ iter z = map (scale p q) (iter x).
Proof. exact mul_map. Qed.
Print Assumptions mul_is_map.

Theorem mul_rejects_nonpositive : forall x p q, wf x -> total x <> None ->
  Exists (fun s => scale p q s <= 0) (iter x) -> mul x p q = None.
Proof. exact mul_reject. Qed.
Print Assumptions mul_rejects_nonpositive.

Theorem reject_iff_invalid : forall s, mk s = None <-> invalid s.
Proof. exact reject_iff. Qed.
Print Assumptions reject_iff_invalid.

(* non-vacuity: a concrete specification meets the hypotheses used above *)
Example hyps_satisfiable :
  exists sh, mk (SSeq [IInt 3; IInt 3; IPair 3 2; IInt 4]) = Some sh /\ wf sh /\ total sh = Some 16 /\
             vec sh = [(3, 4); (4, 1)] /\ iter sh = [3; 3; 3; 3; 4] /\ has_partitioned sh = true.
Proof. eexists; repeat split; try reflexivity. repeat constructor. Qed.
