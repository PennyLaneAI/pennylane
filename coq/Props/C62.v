(* C62 Quantum-chemistry Hamiltonians are physically correct -- the DISCRETE part.
   Statements only; the proofs are in Disc/QchemProofs.v.
   What is NOT here (numerical tie only, see harness/props/c62.py): integrals, SCF, agreement of eigenvalues with
   PySCF FCI/CASCI, commutation with S^2, tapering.

   Vocabulary:
     hf_state e o b, excitations e o d, excitations_to_wires, number_fs / spinz_fs / spin2_fs   the model (Disc/QchemModel.v)
     s2 i            twice the spin projection of spin orbital i (+1 even = up, -1 odd = down)
     count_true b    number of occupied positions of an occupation vector
     zrange a b      the contiguous wires [a; a+1; ...; b]
     fw_apply w (s,b) action of the operator product w on the signed Fock basis state (-1)^s |b>  (None = 0)
     shift wt w      sum of wt(p) over the creators of w minus the sum over its annihilators
     O_apply wt v    the diagonal observable sum_p wt(p) a+_p a_p applied to a formal vector v
     W_apply w v     the word w applied to a formal vector
     fw_image JW n w Jordan-Wigner image of w on n qubits (Disc/FermiModel.v), sequiv = equal as operators *)
From Coq Require Import List ZArith QArith Bool.
From PLV Require Import Disc.FermiModel Disc.QchemModel Disc.QchemProofs.
Import ListNotations.

(* --- hf_state --- *)

(* documented error conditions: exactly electrons <= 0 or electrons > orbitals, for every basis *)
Theorem hf_state_error_iff : forall e o b, hf_state e o b = Err <-> (e <= 0 \/ e > o)%Z.
Proof. exact hf_error_iff_lemma. Qed.
Print Assumptions hf_state_error_iff.

(* occupation-number basis: length = orbitals, position i occupied iff i < electrons, exactly `electrons` ones *)
Theorem hf_state_occupation : forall e o, (0 < e <= o)%Z ->
  hf_state e o BOcc = Ok (occ_vec (Z.to_nat e) (Z.to_nat o)) /\
  length (occ_vec (Z.to_nat e) (Z.to_nat o)) = Z.to_nat o /\
  (forall i, (i < Z.to_nat o)%nat -> nth i (occ_vec (Z.to_nat e) (Z.to_nat o)) false = Nat.ltb i (Z.to_nat e)) /\
  count_true (occ_vec (Z.to_nat e) (Z.to_nat o)) = Z.to_nat e.
Proof. exact hf_occ_lemma. Qed.
Print Assumptions hf_state_occupation.

(* parity basis: qubit i stores the parity of the number of electrons in orbitals 0..i *)
Theorem hf_state_parity : forall e o, (0 < e <= o)%Z ->
  exists s, hf_state e o BPar = Ok s /\ length s = Z.to_nat o /\
  forall i, (i < Z.to_nat o)%nat -> nth i s false = Nat.odd (Nat.min (i + 1) (Z.to_nat e)).
Proof. exact hf_parity_lemma. Qed.
Print Assumptions hf_state_parity.

(* Bravyi-Kitaev basis: the state is beta_matrix . occupation (mod 2) ... *)
Theorem hf_state_bravyi_kitaev : forall e o, (0 < e <= o)%Z ->
  hf_state e o BBK = Ok (map (fun row => dot2 row (occ_vec (Z.to_nat e) (Z.to_nat o))) (beta_matrix (Z.to_nat o))).
Proof. exact hf_bk_lemma. Qed.
Print Assumptions hf_state_bravyi_kitaev.

(* ... and, up to 12 spin orbitals, _beta_matrix is the incidence matrix of the update sets used by
   qp.bravyi_kitaev (row j has a 1 in column i iff i = j or j is in the update set of i) *)
Theorem beta_matrix_is_update_sets_bounded : forall o, (o <= 12)%nat -> beta_matches_update o = true.
Proof. exact beta_update_bounded. Qed.
Print Assumptions beta_matrix_is_update_sets_bounded.

(* --- excitations --- *)

Theorem excitations_error_iff : forall e o d,
  excitations e o d = Err <-> (e <= 0 \/ o <= e \/ d < -2 \/ d > 2)%Z.
Proof. exact excitations_error_lemma. Qed.
Print Assumptions excitations_error_iff.

Theorem excitations_value : forall e o d, (0 < e < o)%Z -> (-2 <= d <= 2)%Z ->
  excitations e o d = Ok (singles (Z.to_nat e) (Z.to_nat o) d, doubles (Z.to_nat e) (Z.to_nat o) d).
Proof. exact excitations_ok_lemma. Qed.
Print Assumptions excitations_value.

(* soundness AND completeness: the singles are exactly the pairs occupied r -> virtual p with sz[p] - sz[r] = delta_sz *)
Theorem singles_exactly : forall e o d x,
  In x (singles e o d) <->
  exists r p, x = [r; p] /\ (r < e)%nat /\ (e <= p < o)%nat /\ (s2 p - s2 r = 2 * d)%Z.
Proof. exact singles_spec_lemma. Qed.
Print Assumptions singles_exactly.

(* the doubles are exactly the quadruples s < r occupied, q < p virtual with sz[p] + sz[q] - sz[r] - sz[s] = delta_sz *)
Theorem doubles_exactly : forall e o d x,
  In x (doubles e o d) <->
  exists s r q p, x = [s; r; q; p] /\ (s < r)%nat /\ (r < e)%nat /\ (e <= q)%nat /\ (q < p)%nat /\ (p < o)%nat /\
                  (s2 p + s2 q - s2 r - s2 s = 2 * d)%Z.
Proof. exact doubles_spec_lemma. Qed.
Print Assumptions doubles_exactly.

Theorem singles_no_duplicates : forall e o d, NoDup (singles e o d).
Proof. exact singles_nodup_lemma. Qed.
Print Assumptions singles_no_duplicates.

Theorem doubles_no_duplicates : forall e o d, NoDup (doubles e o d).
Proof. exact doubles_nodup_lemma. Qed.
Print Assumptions doubles_no_duplicates.

(* closed-form numbers of spin-conserving excitations (delta_sz = 0); by computation, bound in the statement.
   _bounded: the general-n count formula is not proved (exactness + no duplicates above hold for all n). *)
Theorem excitation_counts_bounded : forall e o, (o <= 12)%nat -> (e <= o)%nat ->
  length (singles e o 0%Z) = singles_count0 e o /\ length (doubles e o 0%Z) = doubles_count0 e o.
Proof. exact counts_bounded. Qed.
Print Assumptions excitation_counts_bounded.

(* fermionic=True: the returned words conserve the particle number; they are a+_occ a_virt (the adjoints of the
   excitation operators of the docstring) and therefore change 2 S_z by -2 delta_sz *)
Theorem fermionic_singles_balance : forall e o d x, In x (singles e o d) ->
  shift wt_one (single_word x) = 0%Z /\ shift s2 (single_word x) = (- (2 * d))%Z.
Proof. exact single_word_shift. Qed.
Print Assumptions fermionic_singles_balance.

Theorem fermionic_doubles_balance : forall e o d x, In x (doubles e o d) ->
  shift wt_one (double_word x) = 0%Z /\ shift s2 (double_word x) = (- (2 * d))%Z.
Proof. exact double_word_shift. Qed.
Print Assumptions fermionic_doubles_balance.

(* --- excitations_to_wires --- *)

Theorem excitations_to_wires_empty : forall w, excitations_to_wires [] [] w = Err.
Proof. exact etw_empty_lemma. Qed.
Print Assumptions excitations_to_wires_empty.

(* on every non-empty output of excitations the call succeeds and returns the contiguous ranges r..p and
   [s..r, q..p] *)
Theorem excitations_to_wires_ranges : forall e o d sg db,
  excitations e o d = Ok (sg, db) -> (sg <> [] \/ db <> []) ->
  excitations_to_wires sg db None =
    Ok (map (fun x => zrange (nth 0 x 0%nat) (nth 1 x 0%nat)) sg,
        map (fun x => [zrange (nth 0 x 0%nat) (nth 1 x 0%nat); zrange (nth 2 x 0%nat) (nth 3 x 0%nat)]) db).
Proof. exact etw_excitations_lemma. Qed.
Print Assumptions excitations_to_wires_ranges.

Theorem zrange_is_contiguous : forall a b, (a <= b)%nat ->
  length (zrange a b) = (b + 1 - a)%nat /\ forall k, (k <= b - a)%nat -> nth k (zrange a b) 0%Z = Z.of_nat (a + k).
Proof. exact zrange_spec. Qed.
Print Assumptions zrange_is_contiguous.

(* --- particle_number, spinz, spin2: term structure --- *)

Theorem particle_number_terms : forall n t,
  In t (number_fs n) <-> exists i, (i < n)%nat /\ t = ([(i, true); (i, false)], c1).
Proof. exact (diag_fs_terms (fun _ => c1)). Qed.
Print Assumptions particle_number_terms.

Theorem spinz_terms : forall n t,
  In t (spinz_fs n) <-> exists i, (i < n)%nat /\
    t = ([(i, true); (i, false)], (if Nat.even i then (1 # 2)%Q else (- (1 # 2))%Q, 0%Q)).
Proof. exact (diag_fs_terms (fun i => cq (szq i))). Qed.
Print Assumptions spinz_terms.

(* a+_i a_i |b> = n_i |b> : the sentence of particle_number acts as the occupation count *)
Theorem number_word_action : forall i s b, (i < length b)%nat ->
  fw_apply (nword i) (s, b) = if nth i b false then Some (s, b) else None.
Proof. exact nword_apply_lemma. Qed.
Print Assumptions number_word_action.

(* every term of N, S_z and S^2 (all sizes) passes both verified checkers *)
Theorem observables_conserve_number_and_sz : forall e n,
  conserves_number (number_fs n) = true /\ conserves_sz (number_fs n) = true /\
  conserves_number (spinz_fs n) = true /\ conserves_sz (spinz_fs n) = true /\
  conserves_number (spin2_fs e n) = true /\ conserves_sz (spin2_fs e n) = true.
Proof. exact observables_conserve_lemma. Qed.
Print Assumptions observables_conserve_number_and_sz.

(* --- conservation laws --- *)

(* a word shifts the eigenvalue of the diagonal observable O_wt by its balance, on every register size *)
Theorem word_shifts_eigenvalue : forall wt w sb sb', fw_apply w sb = Some sb' ->
  length (snd sb') = length (snd sb) /\ diag_val wt 0 (snd sb') = (diag_val wt 0 (snd sb) + shift wt w)%Z.
Proof. exact fw_apply_diag. Qed.
Print Assumptions word_shifts_eigenvalue.

(* number_conserving_word_commutes (Fock representation, all n, all words, all weights): [O_wt, w] = 0 *)
Theorem number_conserving_word_commutes : forall wt w, shift wt w = 0%Z ->
  forall v, O_apply wt (W_apply w v) = W_apply w (O_apply wt v).
Proof. exact fock_commutes_lemma. Qed.
Print Assumptions number_conserving_word_commutes.

(* wt = 1 is the particle number: the eigenvalue is the electron count, which balanced words preserve *)
Theorem number_eigenvalue_is_electron_count : forall b i, diag_val wt_one i b = Z.of_nat (count_true b).
Proof. exact diag_val_one_count. Qed.
Print Assumptions number_eigenvalue_is_electron_count.

Theorem balanced_word_preserves_electron_count : forall w s b s' b', shift wt_one w = 0%Z ->
  fw_apply w (s, b) = Some (s', b') -> length b' = length b /\ count_true b' = count_true b.
Proof. exact number_conserved_lemma. Qed.
Print Assumptions balanced_word_preserves_electron_count.

(* wt = s2 is 2 S_z in the interleaved convention: eigenvalue = #up - #down *)
Theorem sz_eigenvalue_is_up_minus_down : forall b i,
  diag_val s2 i b = (Z.of_nat (count_sel Nat.even i b) - Z.of_nat (count_sel Nat.odd i b))%Z.
Proof. exact diag_val_s2_count. Qed.
Print Assumptions sz_eigenvalue_is_up_minus_down.

(* soundness of the verified checkers used on the real fermionic Hamiltonians *)
Theorem conserves_number_sound : forall F, conserves_number F = true ->
  forall t, In t F -> forall v, O_apply wt_one (W_apply (fst t) v) = W_apply (fst t) (O_apply wt_one v).
Proof. exact (conserves_sound wt_one). Qed.
Print Assumptions conserves_number_sound.

Theorem conserves_sz_sound : forall F, conserves_sz F = true ->
  forall t, In t F -> forall v, O_apply s2 (W_apply (fst t) v) = W_apply (fst t) (O_apply s2 v).
Proof. exact (conserves_sound s2). Qed.
Print Assumptions conserves_sz_sound.

(* real coefficients => the Pauli sentence equals its adjoint (Pauli words are Hermitian) *)
Theorem is_hermitian_sentence_sound : forall A, is_hermitian_sentence A = true -> sequiv (sadj A) A.
Proof. exact is_hermitian_sound_lemma. Qed.
Print Assumptions is_hermitian_sentence_sound.

(* --- the same on the Jordan-Wigner image (matrix elements: by computation, bounds in the statements;
   commutation: from the anticommutation relations, Disc/QchemProofs.jw_balanced_commutes holds for every n and length) --- *)

(* the JW image of every word of length <= 3 on n <= 3 qubits has exactly the Fock-space matrix elements *)
Theorem jw_image_acts_like_fock_bounded : forall n w, (n <= 3)%nat -> (length w <= 3)%nat ->
  Forall (fun l => (fst l < n)%nat) w -> jw_fock_word_ok n w = true.
Proof. exact jw_fock_bounded. Qed.
Print Assumptions jw_image_acts_like_fock_bounded.

Theorem jw_image_acts_like_fock_bounded4 : forall w, (length w <= 2)%nat ->
  Forall (fun l => (fst l < 4)%nat) w -> jw_fock_word_ok 4 w = true.
Proof. exact jw_fock_bounded4. Qed.
Print Assumptions jw_image_acts_like_fock_bounded4.

(* JW(w) commutes with JW(particle_number(n)) for balanced words; stated for n <= 4, length <= 4, neither bound is used *)
Theorem jw_number_conserving_word_commutes_bounded : forall n w, (n <= 4)%nat -> (length w <= 4)%nat ->
  Forall (fun l => (fst l < n)%nat) w -> shift wt_one w = 0%Z ->
  exists W, fw_image JW n w = Some W /\ sequiv (smul W (jw_obs ONumber n)) (smul (jw_obs ONumber n) W).
Proof. intros n w _ _. exact (jw_balanced_commutes ONumber n w ltac:(discriminate)). Qed.
Print Assumptions jw_number_conserving_word_commutes_bounded.

(* JW(w) commutes with JW(spinz(n)) for words conserving up and down electrons' difference *)
Theorem jw_sz_conserving_word_commutes_bounded : forall n w, (n <= 4)%nat -> (length w <= 4)%nat ->
  Forall (fun l => (fst l < n)%nat) w -> shift s2 w = 0%Z ->
  exists W, fw_image JW n w = Some W /\ sequiv (smul W (jw_obs OSpinz n)) (smul (jw_obs OSpinz n) W).
Proof. intros n w _ _. exact (jw_balanced_commutes OSpinz n w ltac:(discriminate)). Qed.
Print Assumptions jw_sz_conserving_word_commutes_bounded.

(* --- non-vacuity: the docstring examples run through the model and meet the hypotheses --- *)
Example docstring_examples :
  hf_state 2 6 BOcc = Ok [true; true; false; false; false; false] /\
  hf_state 2 6 BPar = Ok [true; false; false; false; false; false] /\
  hf_state 2 6 BBK = Ok [true; false; false; false; false; false] /\
  excitations 2 4 0 = Ok ([[0; 2]; [1; 3]]%nat, [[0; 1; 2; 3]]%nat) /\
  excitations_to_wires [[0; 2]; [1; 3]]%nat [[0; 1; 2; 3]]%nat None
    = Ok ([[0; 1; 2]; [1; 2; 3]]%Z, [[[0; 1]; [2; 3]]]%Z) /\
  excitations_to_wires [[0; 2]; [1; 3]]%nat [[0; 1; 2; 3]]%nat (Some [10; 11; 12; 13]%Z)
    = Ok ([[10; 11; 12]; [11; 12; 13]]%Z, [[[10; 11]; [12; 13]]]%Z).
Proof. vm_compute. repeat split. Qed.

(* a balanced word acting non-trivially, and an unbalanced one rejected by the checker *)
Example conservation_examples :
  shift wt_one [(0, true); (1, true); (3, false); (2, false)]%nat = 0%Z /\
  shift s2 [(0, true); (1, true); (3, false); (2, false)]%nat = 0%Z /\
  fw_apply [(0, true); (1, true); (3, false); (2, false)]%nat (false, [false; false; true; true])
    = Some (false, [true; true; false; false]) /\
  fw_apply [(1, true); (0, false)]%nat (false, [true; false]) = Some (false, [false; true]) /\
  fw_apply [(0, true); (1, false)]%nat (false, [false; true; true]) = Some (false, [true; false; true]) /\
  fw_apply [(2, true); (0, false)]%nat (false, [true; true; false]) = Some (true, [false; true; true]) /\
  conserves_number [([(0, true); (1, false)]%nat, c1); ([(2, true)]%nat, c1)] = false /\
  conserves_sz [([(0, true); (1, false)]%nat, c1)] = false /\
  is_hermitian_sentence [([PZ; PI], (1 # 2, 0)%Q)] = true /\
  is_hermitian_sentence [([PZ; PI], (1 # 2, 1 # 3)%Q)] = false.
Proof. vm_compute. repeat split. Qed.
