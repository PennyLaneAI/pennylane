(* C55 Lie-algebra tools compute closed algebras and correct structure constants.
   Statements only; every proof is `exact <lemma>` from Disc/LieAlgProofs.v.

   These are soundness theorems of CHECKERS (Disc/LieAlgModel.v) that are run, inside Coq, on the outputs of the real
   qp.lie_closure / qp.structure_constants / qp.liealg.cartan_decomp / PauliVSpace on every run of the check.
   Vocabulary: an operator is a Hermitian G = sum_w x_w w with rational x_w (rsent); PennyLane's algebra is {iG};
   [G1, G2] = i * rbracket G1 G2;  seq_r = equality as functions word -> coefficient;  lincomb c B = sum c_i B_i;
   in_span_spec B v = exists c, |c| = |B| /\ lincomb c B = v;  independent_spec B = only the zero combination
   of B vanishes;  theta inv = the involution acting on Hermitian operators, kappa inv w = "i w is in k". *)
From Coq Require Import List ZArith Bool QArith.
From PLV Require Import Disc.PauliAlgModel Disc.LieAlgModel Disc.LieAlgProofs.
Import ListNotations.
Open Scope Z_scope.

(* the span test exhibits verified coefficients (for ANY candidate functionals fs) *)
Theorem in_span_sound : forall fs B v c,
  in_span fs B v = Some c -> length c = length B /\ seq_r (lincomb c B) v.
Proof. exact LieAlgProofs.in_span_sound. Qed.
Print Assumptions in_span_sound.

(* ... and is complete once the functionals are verified dual to B: the test is exact *)
Theorem in_span_complete : forall fs B v,
  check_dual fs B = true -> in_span_spec B v -> in_span fs B v <> None.
Proof. exact LieAlgProofs.in_span_complete. Qed.
Print Assumptions in_span_complete.

Theorem check_independent_sound : forall B, check_independent B = true -> independent_spec B.
Proof. exact LieAlgProofs.check_independent_sound. Qed.
Print Assumptions check_independent_sound.

(* lie_closure: linearly independent, span contains the generators, closed under commutators *)
Theorem check_closure_sound : forall B G, check_closure B G = true ->
  independent_spec B /\
  (forall g, In g G -> in_span_spec B g) /\
  (forall a b, In a B -> In b B -> in_span_spec B (rbracket a b)).
Proof. exact LieAlgProofs.check_closure_sound. Qed.
Print Assumptions check_closure_sound.

(* structure_constants (documented normalisation [iG_a, iG_b] = sum_g f^g_{a,b} iG_g, i.e.
   rbracket G_a G_b = - sum_g f[g][a][b] G_g; fcol f n a b = the vector (f[g][a][b])_g of the sparsely given tensor)
   reproduces every commutator of the basis *)
Theorem check_structure_sound : forall f B, check_structure f B = true ->
  forall a b, (a < length B)%nat -> (b < length B)%nat ->
    seq_r (rbracket (nth a B []) (nth b B [])) (rscale (-1 # 1) (lincomb (fcol f (length B) a b) B)).
Proof. exact LieAlgProofs.check_structure_sound. Qed.
Print Assumptions check_structure_sound.

(* PauliVSpace's independence question is decided exactly *)
Theorem vspace_independent_exact : forall B v b, vspace_independent B v = Some b ->
  independent_spec B /\ (b = false <-> in_span_spec B v).
Proof. exact LieAlgProofs.vspace_independent_exact. Qed.
Print Assumptions vspace_independent_exact.

(* the built-in involutions: linear extensions of a sign function on Pauli words, squaring to the identity *)
Theorem theta_is_linear_sign_extension : forall inv s u,
  (rcoeff (theta inv s) u == (if kappa inv u then 1 else -1) * rcoeff s u)%Q.
Proof. exact theta_coeff. Qed.
Print Assumptions theta_is_linear_sign_extension.

Theorem theta_additive : forall inv a b, theta inv (a ++ b) = theta inv a ++ theta inv b.
Proof. exact theta_app. Qed.
Print Assumptions theta_additive.

Theorem theta_squares_to_identity : forall inv s, theta inv (theta inv s) = s.
Proof. exact theta_involutive. Qed.
Print Assumptions theta_squares_to_identity.

(* ... and algebra automorphisms: for anticommuting Pauli words [i w1, i w2] = -+ 2 i w3 with
   sign(w3) = sign(w1) * sign(w2); all words on <= 4 qubits (wires 0..3), all built-in involutions and wire choices.
   The two bounds are not used: LieAlgProofs.kappa_automorphism gives the same for all canonical words, every
   involution of the model and every wire *)
Theorem builtin_involutions_are_automorphisms_le4 : forall inv w1 w2,
  In inv (builtin_involutions 4) -> In w1 (all_words 4) -> In w2 (all_words 4) ->
  commutes w1 w2 = false ->
  kappa inv (snd (wmul w1 w2)) = Bool.eqb (kappa inv w1) (kappa inv w2).
Proof.
  exact (fun inv w1 w2 _ H1 H2 =>
           kappa_automorphism inv w1 w2 (proj1 (all_words_wf 4 w1 H1)) (proj1 (all_words_wf 4 w2 H2))).
Qed.
Print Assumptions builtin_involutions_are_automorphisms_le4.

(* cartan_decomp: k is fixed by theta, m is negated, and [k,k] in k, [k,m] in m, [m,m] in k *)
Theorem check_cartan_sound : forall inv k m, check_cartan inv k m = true ->
  (forall x, In x k -> theta inv x = x) /\
  (forall y, In y m -> theta inv y = map (fun e => (fst e, Qopp (snd e))) y) /\
  independent_spec k /\ independent_spec m /\
  (forall a b, In a k -> In b k -> in_span_spec k (rbracket a b)) /\
  (forall a b, In a k -> In b m -> in_span_spec m (rbracket a b)) /\
  (forall a b, In a m -> In b m -> in_span_spec k (rbracket a b)).
Proof. exact LieAlgProofs.check_cartan_sound. Qed.
Print Assumptions check_cartan_sound.

(* non-vacuity: the documented transverse-field Ising example passes the closure and Cartan checkers, a truncated
   basis does not *)
Definition tfim : list rsent :=
  mks [ [([(0, PX); (1, PX)], 1%Q)]; [([(0, PZ)], 1%Q)]; [([(1, PZ)], 1%Q)];
        [([(0, PY); (1, PX)], (-1 # 1)%Q)]; [([(0, PX); (1, PY)], (-1 # 1)%Q)]; [([(0, PY); (1, PY)], 1%Q)] ].
Example tfim_closed :
  check_closure tfim (firstn 3 tfim) = true /\ check_closure (firstn 5 tfim) (firstn 3 tfim) = false /\
  check_cartan IEvenOdd [nth 1 tfim []; nth 2 tfim []]
               [nth 0 tfim []; nth 3 tfim []; nth 4 tfim []; nth 5 tfim []] = true.
Proof. vm_compute. repeat split. Qed.
