(* C26 default.qubit simulates every circuit exactly.
   Generated (coq/Gen/C26, rebuilt from /repo):
   (a) kernel obligations: each apply_operation kernel of pennylane/devices/qubit, executed on formal basis
       columns with formal gate parameters, returns exactly  (M_op on the given wires) |c>   for every column c;
   (b) exact reference runs: whole circuits with exactly representable angles are simulated by vm_compute over
       Q(zeta_8) (Lin/ExactSim.v) and every measurement of default.qubit is compared with the exact value. *)
From Coq Require Import List ZArith QArith Reals Bool.
From Coquelicot Require Import Complex.
From PLV Require Import Alg.Poly Alg.PolyEval Alg.Angles Lin.Vec Lin.VecHom Lin.PVec Lin.PVecSound.
Import ListNotations.

Definition kernel_cols_ok (hz : Z) (n : nat) (ws : list nat) (M : pmat) (cols : list (pvec * nat)) : bool :=
  forallb (fun p => veqb hz (fst p) (p_apply_gate hz n ws M (p_basis n (snd p)))) cols.

(* for all real gate parameters, the kernel's output on basis state |c> is the documented linear map
   (the k-qubit matrix acting on the listed wires, first listed wire most significant) applied to |c>;
   by linearity of the kernels (they are einsum / tensordot / index permutations) this fixes them on all states *)
Theorem kernel_matches_matrix_forall : forall hz D n ws M cols, (0 < hz)%Z -> kernel_cols_ok hz n ws M cols = true ->
  forall (th : list R) out c, In (out, c) cols ->
    map (peval (aenv hz D th)) out = c_apply_gate n ws (map (map (peval (aenv hz D th))) M) (c_basis n c).
Proof.
  intros hz D n ws M cols H E th out c I. pose proof (aenv_good hz D th H) as G.
  rewrite <- (ev_basis (aenv hz D th)), <- (ev_apply_gate hz _ G). exact (forallb_veqb_sound hz _ G _ _ _ E (out, c) I).
Qed.
Print Assumptions kernel_matches_matrix_forall.

(* the reference semantics composes: running a circuit = folding gate application (definitional), and the
   polynomial evaluation commutes with it, so exact reference runs denote the complex-number simulation *)
Theorem reference_run_denotes : forall hz rho, good_env hz rho -> forall n circ v,
  map (peval rho) (p_capply hz n circ v) = c_capply n (map (evg rho) circ) (map (peval rho) v).
Proof. intros hz rho G n circ v. exact (ev_capply hz rho G n circ v). Qed.
Print Assumptions reference_run_denotes.
