(* C33 Device preprocessing yields executable, equivalent circuits.
   Statements only; every proof is `exact <lemma>`, or a conjunction of lemmas, from Disc/PreprocessProofs.v. *)
From Coq Require Import List ZArith Bool.
From PLV Require Import Disc.PreprocessModel Disc.PreprocessProofs.
Import ListNotations.
Open Scope Z_scope.

(* validators (validate_device_wires / _measurements / _observables, no_sampling, no_analytic, the flag validators)
   either raise or return exactly one tape with the same operations, shots, measurement processes and observables;
   all of them except validate_device_wires return the very same tape *)
Theorem reject_not_alter : forall s t,
  is_validator s = true ->
  run_stage s t = Err \/
  exists t', run_stage s t = Ok [t'] /\ t_ops t' = t_ops t /\ t_shots t' = t_shots t /\
             map m_code (t_mps t') = map m_code (t_mps t) /\ map m_obs (t_mps t') = map m_obs (t_mps t) /\
             ((forall dw, s <> SWires dw) -> t' = t).
Proof. exact reject_not_alter_lemma. Qed.
Print Assumptions reject_not_alter.

(* validate_device_wires changes only measurements that have neither an observable nor wires: they get the device
   wires; with no device wires the tape is returned unchanged *)
Theorem wires_completed_only_for_wireless : forall dw t t',
  validate_device_wires dw t = Ok [t'] ->
  t_ops t' = t_ops t /\ t_shots t' = t_shots t /\ length (t_mps t') = length (t_mps t) /\
  forall i m, nth_error (t_mps t) i = Some m ->
    exists m', nth_error (t_mps t') i = Some m' /\
      ((m_obs m <> None \/ m_wires m <> []) -> m' = m) /\
      (m_obs m = None -> m_wires m = [] ->
         match dw with
         | Some (x :: r) => m' = mkMp (m_code m) None (x :: r)
         | _ => m' = m
         end).
Proof. exact wires_completed_lemma. Qed.
Print Assumptions wires_completed_only_for_wireless.

(* decompose: every operation of the returned tape satisfies the stopping condition (the first one may instead be
   the allowed initial state preparation); measurements and shots are untouched *)
Theorem decompose_output_accepted : forall fuel acc dec skip isprep t ts,
  decompose_stage fuel acc dec skip isprep t = Ok ts ->
  exists t', ts = [t'] /\ t_mps t' = t_mps t /\ t_shots t' = t_shots t /\
             ops_okb acc skip isprep (t_ops t') = true.
Proof. exact decompose_output_lemma. Qed.
Print Assumptions decompose_output_accepted.

(* for ALL pipelines: if the pipeline contains the device's decompose, validate_measurements and
   validate_device_wires stages, and every stage after each of them preserves what it established, then every tape
   the pipeline returns is supported: operations accepted, measurements accepted, wires on the device *)
Theorem preprocess_output_supported : forall D p b out,
  well_formed D p -> run_pipeline p b = Ok out -> Forall (supported D) out.
Proof. exact preprocess_output_supported_lemma. Qed.
Print Assumptions preprocess_output_supported.

(* the side conditions of well_formed: validators preserve every predicate (a validate_device_wires only for its own
   wires); decompose preserves the measurement and observable predicates, and the wire predicate when its
   decomposition table stays on the device wires.  That a decompose preserves the operation predicate of a
   DIFFERENT decompose stage, and anything about oracle stages, stays a hypothesis. *)
Theorem validators_preserve_support : forall s, is_validator s = true ->
  (forall acc skip prep, preserves (ops_ok acc skip prep) s) /\
  (forall ana samp, preserves (mps_ok ana samp) s) /\
  (forall ok, preserves (obs_ok ok) s) /\
  (forall dw, (forall dw', s = SWires dw' -> dw' = dw) -> preserves (wires_ok dw) s).
Proof.
  intros s V; repeat split; intros.
  - apply validator_preserves_ops; exact V.
  - apply validator_preserves_mps; exact V.
  - apply validator_preserves_obs; exact V.
  - apply validator_preserves_wires; assumption.
Qed.
Print Assumptions validators_preserve_support.

Theorem decompose_preserves_support : forall acc dtab skip prep,
  (forall ana samp, preserves (mps_ok ana samp) (SDecompose acc dtab skip prep)) /\
  (forall ok, preserves (obs_ok ok) (SDecompose acc dtab skip prep)) /\
  (forall w, dtab_wires_in w dtab -> preserves (wires_ok (Some w)) (SDecompose acc dtab skip prep)).
Proof.
  intros; repeat split; intros.
  - apply decompose_preserves_mps.
  - apply decompose_preserves_obs.
  - apply decompose_preserves_wires; assumption.
Qed.
Print Assumptions decompose_preserves_support.

(* every built-in device program has validate_device_wires, validate_measurements and (unless
   default.clifford(check_clifford=False)) decompose *)
Theorem builtin_programs_have_the_stages : forall c,
  has NValidateDeviceWires (pipeline_names c) = true /\
  has NValidateMeasurements (pipeline_names c) = true /\
  (has NDecompose (pipeline_names c) = true \/ (c_dev c = DClifford /\ c_check c = false)).
Proof. exact builtin_programs_lemma. Qed.
Print Assumptions builtin_programs_have_the_stages.

(* decompose preserves the circuit semantics (product of operator semantics in any monoid) when the decomposer does *)
Theorem decompose_sem : forall (U : Type) (one : U) (mul : U -> U -> U) (opsem : aop -> U),
  (forall a b c, mul a (mul b c) = mul (mul a b) c) -> (forall a, mul one a = a) -> (forall a, mul a one = a) ->
  forall dec, dec_sound U one mul opsem dec -> forall fuel acc skip isprep t ts,
  decompose_stage fuel acc dec skip isprep t = Ok ts ->
  exists t', ts = [t'] /\ circ_sem U one mul opsem (t_ops t') = circ_sem U one mul opsem (t_ops t) /\
             t_mps t' = t_mps t /\ t_shots t' = t_shots t.
Proof. exact decompose_sem_lemma. Qed.
Print Assumptions decompose_sem.

(* for ALL pipelines of semantics-preserving stages (each returning tapes and a post-processing function), the
   composed post-processing (slices per input tape, stack applied in reverse) applied to the results of the output
   tapes gives the results of the input tapes *)
Theorem pipeline_sem : forall (R : Type) (sem : tape -> R) (p : list (pstage R)),
  Forall (sem_preserving R sem) p -> forall b out post,
  run_pp R p b = Ok (out, post) -> post (map sem out) = map sem b.
Proof. exact pipeline_sem_lemma. Qed.
Print Assumptions pipeline_sem.

(* validators and decompose are such stages (null post-processing) *)
Theorem validator_stage_sem : forall (R : Type) (sem : tape -> R) s,
  is_validator s = true -> (forall t, sem (validated s t) = sem t) -> sem_preserving R sem (null_pp R sem s).
Proof. exact validator_sem_preserving. Qed.
Print Assumptions validator_stage_sem.

Theorem decompose_stage_sem : forall (U : Type) (one : U) (mul : U -> U -> U) (opsem : aop -> U),
  (forall a b c, mul a (mul b c) = mul (mul a b) c) -> (forall a, mul one a = a) -> (forall a, mul a one = a) ->
  forall (R : Type) (measure : U -> list amp -> bool -> R) acc dtab skip prep,
  dec_sound U one mul opsem (lookup dtab) ->
  sem_preserving R (tsem U one mul opsem R measure) (null_pp R (tsem U one mul opsem R measure) (SDecompose acc dtab skip prep)).
Proof. exact decompose_sem_preserving. Qed.
Print Assumptions decompose_stage_sem.

(* ---- non-vacuity: a default.qubit-shaped program [decompose; validate_device_wires; validate_measurements] is
   well formed, accepts a circuit with a template (code 7 -> [1;2]) and a wire-less measurement, and rejects others *)
Definition exD := mkDev [1; 2] true [9] [20; 21] [22] (Some [0; 1; 2]).
Definition exP := [SDecompose [1; 2] [(7, [mkOp 1 [0]; mkOp 2 [0; 1]])] true [9]; SWires (Some [0; 1; 2]); SMeas [20; 21] [22]].
Definition exT := mkTape [mkOp 9 [0]; mkOp 7 [0; 1]; mkOp 1 [1]] [mkMp 20 None []; mkMp 21 (Some 5) [1]] false.

Example ex_well_formed : well_formed exD exP.
Proof.
  repeat split.
  - exists [], [(7, [mkOp 1 [0]; mkOp 2 [0; 1]])], [SWires (Some [0; 1; 2]); SMeas [20; 21] [22]]. split; [reflexivity|].
    repeat constructor; apply validator_preserves_ops; reflexivity.
  - exists [SDecompose [1; 2] [(7, [mkOp 1 [0]; mkOp 2 [0; 1]])] true [9]; SWires (Some [0; 1; 2])], []. split; [reflexivity|constructor].
  - exists [SDecompose [1; 2] [(7, [mkOp 1 [0]; mkOp 2 [0; 1]])] true [9]], [SMeas [20; 21] [22]]. split; [reflexivity|].
    repeat constructor. apply validator_preserves_wires; [reflexivity|intros dw' H; discriminate].
Qed.

Example ex_accepts :
  run_pipeline exP [exT] =
  Ok [mkTape [mkOp 9 [0]; mkOp 1 [0]; mkOp 2 [0; 1]; mkOp 1 [1]] [mkMp 20 None [0; 1; 2]; mkMp 21 (Some 5) [1]] false].
Proof. vm_compute. reflexivity. Qed.

Example ex_rejects_unknown_op_wire_and_measurement :
  run_pipeline exP [mkTape [mkOp 8 [0]] [] false] = Err /\
  run_pipeline exP [mkTape [mkOp 1 [5]] [] false] = Err /\
  run_pipeline exP [mkTape [mkOp 1 [0]] [mkMp 22 None [0]] false] = Err.
Proof. vm_compute. auto. Qed.
