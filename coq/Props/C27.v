(* C27 Simulator devices agree with each other.
   Every device is compared against ONE exact reference: the circuit simulated by vm_compute over Q(zeta_8)
   (Lin/ExactSim.v).  Agreement of each device with the reference implies pairwise agreement. *)
From Coq Require Import List ZArith QArith Reals Bool.
From Coquelicot Require Import Complex.
From PLV Require Import Alg.Poly Alg.PolyEval Alg.Angles Lin.Vec Lin.VecHom Lin.PVec Lin.PVecSound Lin.ExactSim.
Import ListNotations.

(* the exact run denotes the complex-number state-vector simulation *)
Theorem reference_is_statevector_semantics : forall hz rho, good_env hz rho -> forall n circ,
  map (peval rho) (p_capply hz n circ (p_basis n 0)) = c_capply n (map (evg rho) circ) (c_basis n 0).
Proof. intros hz rho G n circ. apply (ev_run hz rho G). Qed.
Print Assumptions reference_is_statevector_semantics.

(* default.mixed is compared with the same reference through the outer product of the reference state: for a unitary
   circuit U and rho = |psi><psi|, U rho U^dagger = |U psi><U psi| (NOT proved here); the theorem gives the entries of
   the outer product that the comparison uses *)
Definition outer (v : list C) : list (list C) := map (fun a => map (fun b => Cmult a (Cconj b)) v) v.
Theorem pure_state_density_entry : forall (v : list C) i j,
  nth j (nth i (outer v) []) (RtoC 0) = Cmult (nth i v (RtoC 0)) (Cconj (nth j v (RtoC 0))) \/ (length v <= i)%nat \/ (length v <= j)%nat.
Proof.
  intros v i j. destruct (Nat.lt_ge_cases i (length v)) as [Hi|Hi]; [|right; left; exact Hi].
  destruct (Nat.lt_ge_cases j (length v)) as [Hj|Hj]; [|right; right; exact Hj]. left. unfold outer.
  rewrite (nth_indep _ [] (map (fun b => Cmult (RtoC 0) (Cconj b)) v)) by (rewrite map_length; exact Hi).
  rewrite (map_nth (fun a => map (fun b => Cmult a (Cconj b)) v) v (RtoC 0) i).
  rewrite (nth_indep _ (RtoC 0) (Cmult (nth i v (RtoC 0)) (Cconj (RtoC 0)))) by (rewrite map_length; exact Hj).
  rewrite (map_nth (fun b => Cmult (nth i v (RtoC 0)) (Cconj b)) v (RtoC 0) j). reflexivity.
Qed.
Print Assumptions pure_state_density_entry.
