(* C21 Mid-circuit measurement methods agree with the exact semantics.
   Reference semantics = branch enumeration: for every outcome history b of the k mid-circuit measurements the
   circuit with measurement j replaced by the projector |b_j><b_j| (followed by X when reset and b_j = 1) and every
   classically controlled operation included iff its predicate holds on b, run EXACTLY over Q(zeta_8) inside Coq
   (Lin/ExactSim.v); postselection keeps the histories with the postselected outcomes and renormalises;
   results are branch sums.  Generated obligation per circuit: the squared norms of all 2^k branch states
   sum to one (probs_total_one): the histories are exhaustive and exclusive. *)
From Coq Require Import List ZArith QArith Reals Bool.
From Coquelicot Require Import Complex.
From PLV Require Import Alg.Poly Alg.PolyEval Alg.Angles Lin.Vec Lin.VecHom Lin.PVec Lin.PVecSound.
Import ListNotations.

Theorem branch_state_is_linear_evolution : forall hz rho, good_env hz rho -> forall n circ,
  map (peval rho) (p_capply hz n circ (p_basis n 0)) = c_capply n (map (evg rho) circ) (c_basis n 0).
Proof. intros hz rho G n circ. apply (ev_run hz rho G). Qed.
Print Assumptions branch_state_is_linear_evolution.

Theorem branch_weights_total_one : forall hz rho, good_env hz rho -> forall states, probs_total_one hz states = true ->
  c_norms_total (map (map (peval rho)) states) = RtoC 1.
Proof. exact probs_total_one_sound. Qed.
Print Assumptions branch_weights_total_one.

(* the two projectors of a computational-basis measurement resolve the identity: P0 + P1 = I, P_b P_b = P_b, P0 P1 = 0 *)
Definition pP0 : pmat := [[pone; pzero]; [pzero; pzero]].
Definition pP1 : pmat := [[pzero; pzero]; [pzero; pone]].
Theorem projectors_resolve_identity :
  meqb 4 (p_madd 4 pP0 pP1) (p_mident 2) = true /\ meqb 4 (p_mmul 4 pP0 pP0) pP0 = true /\
  meqb 4 (p_mmul 4 pP1 pP1) pP1 = true /\ meqb 4 (p_mmul 4 pP0 pP1) [[pzero; pzero]; [pzero; pzero]] = true.
Proof. repeat split; vm_compute; reflexivity. Qed.
Print Assumptions projectors_resolve_identity.
