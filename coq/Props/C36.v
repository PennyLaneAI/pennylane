(* C36 Finite-difference coefficients have their stated accuracy.
   Statements only; every theorem is `exact <lemma>` from Num/FiniteDiffProofs.v.
   Vocabulary (Num/FiniteDiffModel.v): a stencil is a list of (coefficient, shift) pairs over Q;
   moment cs j = sum_i c_i s_i^j;  moments_hold n D cs = forall j < D, moment cs j == n! [j = n];
   a polynomial is its coefficient list (lowest degree first), peval = Horner evaluation,
   pderiv [a0;a1;a2;...] = [1 a1; 2 a2; ...], nderiv n = n-fold pderiv;
   stencil n cs p x0 h = (sum_i c_i p(x0 + h s_i)) / h^n. *)
From Coq Require Import List ZArith QArith Bool.
From PLV Require Import Num.FiniteDiffModel Num.FiniteDiffProofs.
Import ListNotations.
Open Scope Q_scope.

(* (a) For ALL stencils: the moment conditions below D imply that the finite-difference quotient equals
   the n-th derivative for every polynomial of degree < D, every base point and every non-zero step. *)
Theorem moments_imply_exact : forall (n D : nat) (cs : list (Q * Q)), moments_hold n D cs ->
  forall p : list Q, (length p <= D)%nat -> forall x0 h : Q, ~ h == 0 ->
  stencil n cs p x0 h == peval (nderiv n p) x0.
Proof. exact moments_imply_exact_l. Qed.
Print Assumptions moments_imply_exact.

(* the same without the division (holds for h = 0 as well) *)
Theorem moments_imply_exact_sum : forall (n D : nat) (cs : list (Q * Q)), moments_hold n D cs ->
  forall p : list Q, (length p <= D)%nat -> forall x0 h : Q,
  stencil_sum cs p x0 h == qpow h n * peval (nderiv n p) x0.
Proof. exact moments_imply_exact_sum_l. Qed.
Print Assumptions moments_imply_exact_sum.

(* (b) the model's coefficients (shift selection + exact Vandermonde solve + pruning + sorting) satisfy the
   moment conditions with D = n + approx_order, on a finite grid (bounds in the statement).  The elimination is
   not run: for every cell vm_compute checks the moments of integer Lagrange weights, and a Vandermonde system
   over distinct shifts has one solution, so these are the coefficients the elimination returns.  The bound is
   needed: beyond the grid the 1e-10 pruning can remove a true coefficient.
   For the centred even-n case the stencil has only n + approx_order - 1 points; the last moment holds by
   symmetry and is checked like the others. *)
Theorem coeffs_satisfy_moments : forall (n a : Z) (s : strategy) cs,
  (1 <= n <= 4)%Z -> (1 <= a <= 6)%Z -> fd_coeffs n a s = Some cs ->
  moments_hold (Z.to_nat n) (Z.to_nat (n + a)) cs.
Proof. exact coeffs_moments_4_6. Qed.
Print Assumptions coeffs_satisfy_moments.

Theorem coeffs_satisfy_moments_ext : forall (n a : Z) (s : strategy) cs,
  (1 <= n <= 8)%Z -> (1 <= a <= 10)%Z -> fd_coeffs n a s = Some cs ->
  moments_hold (Z.to_nat n) (Z.to_nat (n + a)) cs.
Proof. exact coeffs_moments_8_10. Qed.
Print Assumptions coeffs_satisfy_moments_ext.

(* the model returns coefficients exactly for forward, backward, and centre with even approx_order
   (fd_coeffs_defined: for every n, approx_order >= 1; the upper bounds are not used) *)
Theorem coeffs_defined : forall (n a : Z) (s : strategy), (1 <= n <= 8)%Z -> (1 <= a <= 10)%Z ->
  (fd_coeffs n a s <> None <->
   s = Forward \/ s = Backward \/ (s = Center /\ (a mod 2 = 0)%Z)).
Proof. exact coeffs_defined_8_10. Qed.
Print Assumptions coeffs_defined.

(* (a)+(b): the property for the model *)
Theorem fd_coeffs_differentiate_exactly : forall (n a : Z) (s : strategy) cs,
  (1 <= n <= 8)%Z -> (1 <= a <= 10)%Z -> fd_coeffs n a s = Some cs ->
  forall p : list Q, (length p <= Z.to_nat (n + a))%nat -> forall x0 h : Q, ~ h == 0 ->
  stencil (Z.to_nat n) cs p x0 h == peval (nderiv (Z.to_nat n) p) x0.
Proof. exact fd_exact_8_10. Qed.
Print Assumptions fd_coeffs_differentiate_exactly.

(* non-vacuity: the forward difference (f(x+h) - f(x)) / h meets the hypotheses with n = 1, D = 2, and the
   vocabulary computes what it should on p(x) = 3 + 5x + 2x^2 *)
Example hyps_satisfiable :
  fd_coeffs 1 1 Forward = Some [(-1, 0); (1, 1)] /\
  moments_okb 1 2 [(-1, 0); (1, 1)] = true /\
  moments_okb 1 3 [(-1, 0); (1, 1)] = false /\
  nderiv 1 [3; 5; 2] = [1 * 5; 2 * 2] /\
  Qeq_bool (peval (nderiv 1 [3; 5]) 7) 5 = true /\
  Qeq_bool (stencil 1 [(-1, 0); (1, 1)] [3; 5] 7 (1 # 3)) 5 = true.
Proof. vm_compute. repeat split; reflexivity. Qed.

Example center_2_2 : fd_coeffs 2 2 Center = Some [(-2, 0); (1, -1); (1, 1)].
Proof. vm_compute. reflexivity. Qed.
