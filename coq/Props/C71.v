(* C71 Snapshots report the state of the circuit prefix.
   Statements only; every proof is `exact <lemma>` from Disc/SnapshotsProofs.v.
   Model (Disc/SnapshotsModel.v): circuits are lists of gates and snapshots over an arbitrary state type
   with arbitrary [apply] and [measure]; three execution paths DQ (default.qubit debugger), DM
   (default.mixed debugger), TAPE (tape splitting for devices without a debugger). *)
From Coq Require Import List ZArith Bool Arith.
From PLV Require Import Disc.SnapshotsModel Disc.SnapshotsProofs.
Import ListNotations.

Section Statements.
  Variables (G St K V : Type).
  Variable apply : G -> St -> St.
  Variable measure : K -> St -> V.

  (* the k-th snapshot (k = number of snapshots before position p) is recorded with the measurement of
     the circuit TRUNCATED at p (the gates before it, from the initial state), and its default integer
     tag is its ordinal among all snapshots *)
  Theorem snapshot_is_prefix_measure : forall c init p t k,
      nth_error c p = Some (Snap G K t k) ->
      nth_error (occs G St K V apply measure c init) (nsnaps G K (firstn p c))
      = Some (t, nsnaps G K (firstn p c),
              measure k (run G St apply (gates_of G K (firstn p c)) init)).
  Proof. intros c init; exact (occs_from_prefix G St K V apply measure c [] init). Qed.

  Theorem one_record_per_snapshot : forall c init,
      length (occs G St K V apply measure c init) = nsnaps G K c.
  Proof. intros c init; exact (occs_length G St K V apply measure c [] init). Qed.

  (* each execution path = logging exactly those records, in circuit order, with the path's own
     dictionary update; and the final state is that of the gates alone *)
  Theorem default_qubit_logs_prefix_records : forall c init,
      exec G St K V apply measure (DQ) c init
      = (run G St apply (gates_of G K c) init,
         fold_left (fun l kv => upd_dq V (fst kv) (snd kv) l) (dev_kvs G St K V apply measure c init) []).
  Proof. exact (exec_dev_kvs G St K V apply measure (upd_dq V)). Qed.

  Theorem default_mixed_logs_prefix_records : forall c init, no_empty G K c = true ->
      exec G St K V apply measure (DM) c init
      = (run G St apply (gates_of G K c) init,
         fold_left (fun l kv => set V (fst kv) (One V (snd kv)) l) (dev_kvs G St K V apply measure c init) []).
  Proof. exact (exec_dm_spec G St K V apply measure). Qed.

  Theorem tape_split_logs_prefix_records : forall c init,
      exec G St K V apply measure (TAPE) c init
      = (run G St apply (gates_of G K c) init,
         fold_left (fun l kv => set V (fst kv) (One V (snd kv)) l) (tape_kvs G St K V apply measure c init) []).
  Proof. exact (exec_tape_spec G St K V apply measure). Qed.

  (* what is found under a tag.  default.qubit: ALL values recorded under the tag in order (a single
     value if the tag is used once, a list if it is repeated); overwrite paths: the last one *)
  Theorem default_qubit_lookup : forall kvs k,
      lookup V k (fold_left (fun l kv => upd_dq V (fst kv) (snd kv) l) kvs []) = pack V (vals V k kvs).
  Proof. exact (dq_lookup V). Qed.

  Theorem overwrite_lookup : forall kvs k,
      lookup V k (fold_left (fun l kv => set V (fst kv) (One V (snd kv)) l) kvs [])
      = pack_last V (vals V k kvs).
  Proof. exact (over_lookup V). Qed.

  (* keys appear in order of first use (Python dict order), on every path *)
  Theorem tags_in_order_dq : forall kvs,
      map fst (fold_left (fun l kv => upd_dq V (fst kv) (snd kv) l) kvs []) = first_seen (map fst kvs).
  Proof. intros kvs; exact (keys_fold V (upd_dq V) (keys_upd_dq V) kvs []). Qed.

  Theorem tags_in_order_overwrite : forall kvs,
      map fst (fold_left (fun l kv => set V (fst kv) (One V (snd kv)) l) kvs []) = first_seen (map fst kvs).
  Proof.
    intros kvs; exact (keys_fold V (fun k v l => set V k (One V v) l)
                                 (fun k v l => keys_set V k (One V v) l) kvs []).
  Qed.

  (* the final state (hence the final results) is unchanged by the snapshots: it equals the state of
     the circuit with the snapshots erased, whose execution logs nothing *)
  Theorem final_unchanged : forall m c init,
      fst (exec G St K V apply measure m (erase G K c) init) = run G St apply (gates_of G K c) init
      /\ snd (exec G St K V apply measure m (erase G K c) init) = []
      /\ (no_empty G K c = true \/ m <> DM ->
          fst (exec G St K V apply measure m c init) = run G St apply (gates_of G K c) init).
  Proof.
    intros m c init. rewrite (exec_erased G St K V apply measure m c init).
    split; [reflexivity | split; [reflexivity | exact (final_state G St K V apply measure m c init)]].
  Qed.

  Theorem final_unchanged_default_mixed_any_tags : forall c init,
      fst (exec G St K V apply measure (DM) c init) = run G St apply (gates_of G K c) init.
  Proof. intros c init; exact (final_state_dm_any G St K V apply measure c init 0%nat []). Qed.
End Statements.
Print Assumptions snapshot_is_prefix_measure.
Print Assumptions one_record_per_snapshot.
Print Assumptions default_qubit_logs_prefix_records.
Print Assumptions default_mixed_logs_prefix_records.
Print Assumptions tape_split_logs_prefix_records.
Print Assumptions default_qubit_lookup.
Print Assumptions overwrite_lookup.
Print Assumptions tags_in_order_dq.
Print Assumptions tags_in_order_overwrite.
Print Assumptions final_unchanged.
Print Assumptions final_unchanged_default_mixed_any_tags.

(* non-vacuity and the duplicate-tag / empty-tag behaviour of the three paths on concrete circuits *)
Example duplicate_tags_default_qubit : c_exec 0 ex_circ
  = ([10; 11; 12]%Z,
     [(KInt 0, One _ (0%Z, [])); (KStr 5, Many _ [(1%Z, [10%Z]); (2%Z, [10%Z; 11%Z])]);
      (KInt 3, One _ (0%Z, [10%Z; 11%Z]))]).
Proof. exact ex_dq. Qed.
Example duplicate_tags_overwrite : c_exec 1 ex_circ = c_exec 2 ex_circ
  /\ c_exec 1 ex_circ
     = ([10; 11; 12]%Z,
        [(KInt 0, One _ (0%Z, [])); (KStr 5, One _ (2%Z, [10%Z; 11%Z])); (KInt 3, One _ (0%Z, [10%Z; 11%Z]))]).
Proof. exact ex_dm_tape. Qed.
Example empty_tag_paths_differ :
  let c := [Snap Z Z (Some 5%Z) 0%Z; Snap Z Z (Some 5%Z) 0%Z; Snap Z Z (Some 0%Z) 0%Z] in
  map fst (snd (c_exec 0 c)) = [KStr 5; KStr 0] /\
  map fst (snd (c_exec 1 c)) = [KStr 5; KInt 1] /\
  map fst (snd (c_exec 2 c)) = [KStr 5; KInt 2].
Proof. exact ex_empty_tag. Qed.
