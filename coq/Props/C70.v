(* C70 default.clifford simulates stabilizer circuits exactly.
   Generated (coq/Gen/C70): for every entry (PennyLane gate -> stim gate name) of the device's operation table and
   every single-qubit Pauli generator P, meqb (M P M^dagger) (+-P') = true, where M is the PennyLane gate's exact
   matrix and +-P' is what stim's tableau for that gate NAME says (read from the installed stim): the name table
   maps each gate to a stim gate with the same action on the Pauli group.  Whole circuits are compared with the
   exact reference simulation (Lin/ExactSim.v). *)
From Coq Require Import List ZArith QArith Reals Bool.
From Coquelicot Require Import Complex.
From PLV Require Import Alg.Poly Alg.PolyEval Alg.Angles Lin.Vec Lin.VecHom Lin.PVec Lin.PVecSound.
Import ListNotations.

Theorem conjugation_obligation_sound : forall hz rho, good_env hz rho -> forall M P P',
  meqb hz (p_mmul hz (p_mmul hz M P) (p_madj M)) P' = true ->
  c_mmul (c_mmul (map (map (peval rho)) M) (map (map (peval rho)) P)) (c_madj (map (map (peval rho)) M)) = map (map (peval rho)) P'.
Proof.
  intros hz rho G M P P' H. apply (meqb_sound hz rho G) in H.
  rewrite !(ev_mmul hz rho G), (ev_madj hz rho G) in H. exact H.
Qed.
Print Assumptions conjugation_obligation_sound.

(* whole circuits: the exact reference run (Lin/ExactSim.v) denotes the complex state-vector simulation.  That conjugation is
   multiplicative, so that the per-gate obligations determine a circuit's action on Paulis, is NOT stated here. *)
Theorem reference_is_statevector_semantics : forall hz rho, good_env hz rho -> forall n circ,
  map (peval rho) (p_capply hz n circ (p_basis n 0)) = c_capply n (map (evg rho) circ) (c_basis n 0).
Proof. intros hz rho G n circ. apply (ev_run hz rho G). Qed.
Print Assumptions reference_is_statevector_semantics.
