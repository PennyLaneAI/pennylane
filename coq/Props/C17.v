(* C17 Optimisation passes preserve semantics and accept all valid circuits.
   Statements only; every proof is `exact <lemma>` from Disc/PassesProofs.v.

   The DRIVERS of four passes (Disc/PassesModel.v, tied to /repo by the correspondence run) are shown to preserve the
   ordered product of the circuit in EVERY semantics (Gm, mul, e, equ) that is a monoid up to `equ` and satisfies the
   algebraic facts the pass uses; `equ` may be exact equality of unitaries or equality up to a global phase.
   The facts are hypotheses here; for PennyLane's gate matrices they are the content of C07 (self-inverse / symmetric /
   composable attribute sets, for all parameters) and of the tensor-product structure (disjoint wires commute).
   H_symall and H_symctrl range over ALL wire lists, lists with a repeated label included, and `wf` only fixes the
   arity: on such lists they equate e.g. CZ[0;0] with both CZ[0;1] and CZ[0;2], so a semantics that is faithful on
   valid gates satisfies them only when restricted to repetition-free wire lists.
   Passes that compute new numeric angles, pattern matching, rowcol, ZX, compile ... are checked per instance by the
   differential layer of harness/props/c17.py, not by these theorems. *)
From Coq Require Import List ZArith Bool Setoid Morphisms.
From PLV Require Import Disc.PassesModel Disc.PassesProofs.
Import ListNotations.
Open Scope Z_scope.

Section Statements.
  Variable Gm : Type.
  Variable equ : Gm -> Gm -> Prop.
  Variable mul : Gm -> Gm -> Gm.
  Variable e : Gm.
  Variable sem : gate -> Gm.
  Context {equ_equiv : Equivalence equ} {mul_proper : Proper (equ ==> equ ==> equ) mul}.
  Let P := prod Gm mul e sem.                 (* sem g1 * (sem g2 * ( ... * e)) *)

  Definition monoid : Prop :=
    (forall a b c, equ (mul (mul a b) c) (mul a (mul b c))) /\ (forall a, equ (mul e a) a) /\ (forall a, equ (mul a e) a).
  (* (H_comm) gates on disjoint wires commute *)
  Definition H_comm : Prop := forall g h, shares (gwires g) (gwires h) = false -> equ (mul (sem g) (sem h)) (mul (sem h) (sem g)).
  (* (H_inv) names in self_inverses square to the identity; (H_adj) Adjoint(g) is a two-sided inverse of g *)
  Definition H_inv : Prop := forall n w a a', self_inverse n = true -> equ (mul (sem (G n false w a)) (sem (G n false w a'))) e.
  Definition H_adj : Prop := forall n w a, equ (mul (sem (G n false w a)) (sem (G n true w a))) e /\ equ (mul (sem (G n true w a)) (sem (G n false w a))) e.
  (* (H_sym) symmetric_over_all_wires / symmetric_over_control_wires: same wire set (and same last wire) gives the same operator *)
  Definition H_symall : Prop := forall n b w w' a, sym_all n = true -> length w = length w' -> num_shared w w' = length w ->
    equ (sem (G n b w a)) (sem (G n b w' a)).
  Definition H_symctrl : Prop := forall n b w w' a, sym_ctrl n = true -> length w = length w' -> num_shared w w' = length w ->
    last_l w = last_l w' -> equ (sem (G n b w a)) (sem (G n b w' a)).
  (* (H_rot) composable rotations add their angles; (H_zero) an angle accepted by the atol test denotes the identity;
     (H_adjrot) Adjoint(R(a)) = R(-a) (the Adjoint-expansion pre-pass) *)
  Definition H_rot : Prop := forall n w a b, composable n = true -> equ (mul (sem (G n false w a)) (sem (G n false w b))) (sem (G n false w (a + b))).
  Definition H_zero (is_zero : Z -> bool) : Prop := forall n w a, composable n = true -> is_zero a = true -> equ (sem (G n false w a)) e.
  Definition H_adjrot : Prop := forall n w a, composable n = true -> equ (sem (G n true w a)) (sem (G n false w (- a))).
  (* (H_bar) Barrier is the identity; (H_gp) GlobalPhase is central, additive, independent of its wires *)
  Definition H_bar : Prop := forall g, is_barrier g = true -> equ (sem g) e.
  Definition H_gp : Prop :=
    (forall g, is_gphase g = true -> equ (sem g) (sem (gphase_gate (gparam g)))) /\
    (forall a x, equ (mul (sem (gphase_gate a)) x) (mul x (sem (gphase_gate a)))) /\
    (forall a b, equ (mul (sem (gphase_gate a)) (sem (gphase_gate b))) (sem (gphase_gate (a + b)))).

  (* cancel_inverses (recursive or not): on every circuit whose operators have the arity of their name the driver terminates
     within its fuel, does not raise, and returns a circuit with the same product *)
  Theorem cancel_inverses_sem : monoid -> H_comm -> H_inv -> H_adj -> H_symall -> H_symctrl ->
    forall (ar : Z -> nat) (recursive : bool) (l : list gate), Forall (wf ar) l ->
    exists out, cancel_inverses recursive l = Ok out /\ equ (P out) (P l).
  Proof.
    intros (A & L & R) C I Adj SA SC ar.
    exact (cancel_inverses_total_sem Gm equ mul e sem A L R C ar I (fun n w a => proj1 (Adj n w a)) (fun n w a => proj2 (Adj n w a)) SA SC).
  Qed.

  (* merge_rotations (any atol predicate, any include_gates): terminates, never raises, same product - for ALL gate lists *)
  Theorem merge_rotations_sem : monoid -> H_comm -> H_rot -> forall is_zero included, H_zero is_zero -> H_adjrot ->
    forall l : list gate, exists out, merge_rotations is_zero included l = Ok out /\ equ (P out) (P l).
  Proof.
    intros (A & L & R) C Rt is_zero included Z0 AR.
    exact (merge_rotations_total_sem Gm equ mul e sem A L R C is_zero included Rt Z0 AR).
  Qed.

  Theorem remove_barrier_sem : monoid -> H_bar -> forall l, equ (P (remove_barrier l)) (P l).
  Proof. intros (A & L & R) B. exact (remove_barrier_sem Gm equ mul e sem L B). Qed.

  (* exact: no global phase is lost when `equ` is exact equality *)
  Theorem combine_global_phases_sem : monoid -> H_gp -> forall l, equ (P (combine_global_phases l)) (P l).
  Proof. intros (A & L & R) (N & Ce & Ad). exact (combine_global_phases_sem Gm equ mul e sem A L R N Ce Ad). Qed.
End Statements.
Print Assumptions cancel_inverses_sem.
Print Assumptions merge_rotations_sem.
Print Assumptions remove_barrier_sem.
Print Assumptions combine_global_phases_sem.

(* structure of the outputs *)
Theorem remove_barrier_output_has_no_barrier : forall l, Forall (fun g => is_barrier g = false) (remove_barrier l).
Proof. exact remove_barrier_no_barrier. Qed.
Print Assumptions remove_barrier_output_has_no_barrier.

Theorem combine_global_phases_output_shape : forall l,
  combine_global_phases l = filter (fun g => negb (is_gphase g)) l ++
                            (if existsb is_gphase l then [gphase_gate (sum_gphase l)] else []).
Proof. exact combine_global_phases_shape. Qed.
Print Assumptions combine_global_phases_output_shape.

(* The acceptance clause is REFUTED by the faithful model for variable-arity operators (28 = MultiRZ): the driver raises
   (zip(strict=True) in _check_equality) on one valid circuit and cancels two operators of different arity on another.
   Both are reproduced on /repo by the corpus of harness/impl/c17_impl.py. *)
Theorem cancel_inverses_accepts_all_refuted : exists c, cancel_inverses true c = Raised.
Proof. exists [G 28 false [0; 1] 5; G 28 true [0; 1; 2] 5]. exact cancel_inverses_raises_witness. Qed.
Print Assumptions cancel_inverses_accepts_all_refuted.
Theorem cancel_inverses_fixed_arity_needed_refuted : exists g h, length (gwires g) <> length (gwires h) /\ cancel_inverses true [g; h] = Ok [].
Proof. exists (G 28 false [0; 1] 5), (G 28 true [1; 0; 2] 5). split; [discriminate|exact cancel_inverses_arity_mismatch_witness]. Qed.
Print Assumptions cancel_inverses_fixed_arity_needed_refuted.

(* non-vacuity: the hypotheses are jointly satisfiable by a semantics that distinguishes circuits (signed total angle in Z) *)
Example hypotheses_satisfiable_cancel : forall (ar : Z -> nat) recursive l, Forall (wf ar) l ->
  exists out, cancel_inverses recursive l = Ok out /\ angle_prod out = angle_prod l.
Proof. exact angle_instance_cancel. Qed.
Example hypotheses_satisfiable_merge : forall included l,
  exists out, merge_rotations exact_zero included l = Ok out /\ angle_prod out = angle_prod l.
Proof. exact angle_instance_merge. Qed.
Example hypotheses_satisfiable_gphase : forall l, angle_prod (combine_global_phases l) = angle_prod l.
Proof. exact angle_instance_gphase. Qed.
Example semantics_not_degenerate : angle_prod [G 16 false [0] 3; G 31 false [] 4] = 7 /\ angle_prod [] = 0.
Proof. exact angle_sem_nontrivial. Qed.
