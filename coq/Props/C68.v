(* C68 Kernel utilities return valid kernel matrices.
   Statements only; every theorem is `exact <lemma>` from Num/KernelsProofs.v.
   Model: Num/KernelsModel.v (transcription of kernels/utils.py, cost_functions.py, postprocessing.py over Q;
   Python exceptions = None; kernels are arbitrary functions X -> X -> Q with scalar values; d is the default
   element for nth).  mat_eq = entrywise equality of rationals; qform M x = x^T M x. *)
From Coq Require Import List QArith Qabs Qminmax Bool Arith.
From PLV Require Import Num.KernelsModel Num.KernelsProofs.
Import ListNotations.
Open Scope Q_scope.

(* ---------------------------------------------------------------- kernel_matrix *)
(* shape N x M and entry (i,j) = kernel(X1[i], X2[j]) -- for EVERY kernel (no symmetry), all sizes *)
Theorem kernel_matrix_entrywise : forall (X : Type) (k : X -> X -> Q) (X1 X2 : list X), X1 <> [] -> X2 <> [] ->
  exists M, kernel_matrix k X1 X2 = Some M /\ length M = length X1 /\
    (forall i, (i < length X1)%nat -> length (nth i M []) = length X2) /\
    forall d1 d2 i j, (i < length X1)%nat -> (j < length X2)%nat ->
      nth j (nth i M []) 0 = k (nth i X1 d1) (nth j X2 d2).
Proof. exact @kernel_matrix_entry. Qed.
Print Assumptions kernel_matrix_entrywise.

Theorem kernel_matrix_empty_raises : forall (X : Type) (k : X -> X -> Q) (X1 X2 : list X),
  X1 = [] \/ X2 = [] -> kernel_matrix k X1 X2 = None.
Proof. exact @kernel_matrix_empty. Qed.
Print Assumptions kernel_matrix_empty_raises.

(* ---------------------------------------------------------------- square_kernel_matrix *)
(* entry (i,j): kernel(x_i,x_j) for i<j, the COPIED value kernel(x_j,x_i) for i>j, and on the diagonal 1
   (assume_normalized_kernel) or kernel(x_i,x_i)   [sq_entry]; includes the N = 1 shortcut and the final
   moveaxis (a transposition) *)
Theorem square_kernel_matrix_entrywise : forall (X : Type) (k : X -> X -> Q) (d : X) (xs : list X) (an : bool),
  xs <> [] ->
  exists M, square_kernel_matrix k d xs an = Some M /\ length M = length xs /\
    (forall i, (i < length xs)%nat -> length (nth i M []) = length xs) /\
    forall i j, (i < length xs)%nat -> (j < length xs)%nat -> nth j (nth i M []) 0 = sq_entry k d xs an i j.
Proof. exact @square_spec. Qed.
Print Assumptions square_kernel_matrix_entrywise.

(* symmetric for EVERY kernel function (the lower triangle is copied, the kernel need not be symmetric) *)
Theorem square_kernel_matrix_symmetric : forall (X : Type) (k : X -> X -> Q) (d : X) xs an M,
  square_kernel_matrix k d xs an = Some M ->
  forall i j, (i < length xs)%nat -> (j < length xs)%nat -> nth j (nth i M []) 0 = nth i (nth j M []) 0.
Proof. exact @square_symmetric. Qed.
Print Assumptions square_kernel_matrix_symmetric.

Theorem square_unit_diagonal : forall (X : Type) (k : X -> X -> Q) (d : X) xs an M,
  square_kernel_matrix k d xs an = Some M ->
  (an = true \/ forall i, (i < length xs)%nat -> k (nth i xs d) (nth i xs d) = 1) ->
  forall i, (i < length xs)%nat -> nth i (nth i M []) 0 = 1.
Proof. exact @square_unit_diagonal. Qed.
Print Assumptions square_unit_diagonal.

(* ASSUMPTION made explicit: the result reproduces the kernel entrywise iff the kernel is symmetric on the data
   (and has unit diagonal when assume_normalized_kernel is used) -- true for embedding kernels *)
Theorem square_reproduces_symmetric_kernel : forall (X : Type) (k : X -> X -> Q) (d : X) xs an M,
  square_kernel_matrix k d xs an = Some M ->
  (forall i j, (i < j)%nat -> (j < length xs)%nat -> k (nth j xs d) (nth i xs d) = k (nth i xs d) (nth j xs d)) ->
  (an = true -> forall i, (i < length xs)%nat -> k (nth i xs d) (nth i xs d) = 1) ->
  forall i j, (i < length xs)%nat -> (j < length xs)%nat -> nth j (nth i M []) 0 = k (nth i xs d) (nth j xs d).
Proof. exact @square_is_kernel. Qed.
Print Assumptions square_reproduces_symmetric_kernel.

Theorem square_empty_raises : forall (X : Type) (k : X -> X -> Q) (d : X) an, square_kernel_matrix k d [] an = None.
Proof. exact @square_empty. Qed.
Print Assumptions square_empty_raises.

(* ---------------------------------------------------------------- polarity / target_alignment *)
(* polarity = sum_ij K_ij y_i y_j ; target_alignment = polarity / sqrt(normsq) with
   normsq = (sum_ij K_ij^2) (sum_ij (y_i y_j)^2)  (the square of the normalisation stays in Q);
   y = the labels, rescaled or not; K_ij = sq_entry *)
Theorem polarity_alignment_formula : forall (X : Type) (k : X -> X -> Q) (d : X) xs Y an rescale,
  xs <> [] -> length Y = length xs ->
  let N := length xs in
  let y := fun i => nth i (labels_used Y rescale) 0 in
  let K := sq_entry k d xs an in
  exists p n2, polarity k d xs Y an rescale = Some (p, n2) /\
    p == sumn N (fun i => sumn N (fun j => K i j * (y i * y j))) /\
    n2 == sumn N (fun i => sumn N (fun j => K i j * K i j)) *
          sumn N (fun i => sumn N (fun j => (y i * y j) * (y i * y j))).
Proof. exact @polarity_spec. Qed.
Print Assumptions polarity_alignment_formula.

(* rescale_class_labels: y_i / n_plus for labels equal to 1, y_i / n_minus for all others, with
   n_plus = #{y = 1}, n_minus = len(Y) - n_plus; and the divisors are never 0 *)
Theorem alignment_rescale_labels : forall Y i, (i < length Y)%nat ->
  nth i (rescale_labels Y) 0
  = if is_one (nth i Y 0) then nth i Y 0 / qnat (count_plus Y)
    else nth i Y 0 / qnat (length Y - count_plus Y).
Proof. exact rescale_entry. Qed.
Print Assumptions alignment_rescale_labels.

Theorem rescale_plus_label : forall Y i, (i < length Y)%nat -> nth i Y 0 == 1 ->
  nth i (rescale_labels Y) 0 == 1 / qnat (count_plus Y).
Proof. exact rescale_plus. Qed.
Print Assumptions rescale_plus_label.

Theorem rescale_minus_label : forall Y i, (i < length Y)%nat -> nth i Y 0 == -(1) ->
  nth i (rescale_labels Y) 0 == -(1) / qnat (length Y - count_plus Y).
Proof. exact rescale_minus. Qed.
Print Assumptions rescale_minus_label.

Theorem rescale_divisor_plus_positive : forall Y y, In y Y -> is_one y = true -> (0 < count_plus Y)%nat.
Proof. exact count_plus_pos. Qed.
Print Assumptions rescale_divisor_plus_positive.

Theorem rescale_divisor_minus_positive : forall Y y, In y Y -> is_one y = false -> (count_plus Y < length Y)%nat.
Proof. exact count_minus_pos. Qed.
Print Assumptions rescale_divisor_minus_positive.

(* ---------------------------------------------------------------- post-processing on a spectral form *)
(* x^T (V diag(c) V^T) x = sum_j c_j ((x^T V)_j)^2, hence >= 0 for every rational x when all c_j >= 0 *)
Theorem spectral_quadratic_form : forall m V w x, Forall (fun r => length r = m) V ->
  qform (sandwich V w) x == dot3 (lincomb m x V) w (lincomb m x V).
Proof. exact sandwich_qform. Qed.
Print Assumptions spectral_quadratic_form.

Theorem spectral_form_psd : forall m V w x, Forall (fun r => length r = m) V -> Forall (fun c => 0 <= c) w ->
  0 <= qform (sandwich V w) x.
Proof. exact sandwich_psd. Qed.
Print Assumptions spectral_form_psd.

(* hypotheses: (w, V) returned by eigh satisfy K = V diag(w) V^T and w[0] is the smallest eigenvalue *)
Theorem threshold_spectrum : forall w V K, Forall (fun c => hd 0 w <= c) w -> mat_eq K (sandwich V w) ->
  mat_eq (threshold_matrix w V K) (sandwich V (map clip0 w)).
Proof. exact threshold_spectral. Qed.
Print Assumptions threshold_spectrum.

Theorem clip_is_max : forall c, clip0 c == Qmax c 0.
Proof. exact clip0_is_max. Qed.
Print Assumptions clip_is_max.

Theorem flip_spectrum : forall w V K, Forall (fun c => hd 0 w <= c) w -> mat_eq K (sandwich V w) ->
  mat_eq (flip_matrix w V K) (sandwich V (map Qabs w)).
Proof. exact flip_spectral. Qed.
Print Assumptions flip_spectrum.

(* additionally V V^T = I *)
Theorem displace_spectrum : forall wmin w V K,
  mat_eq K (sandwich V w) -> mat_eq (eye (length K)) (sandwich V (repeat 1 (length w))) ->
  mat_eq (displace_matrix wmin K) (sandwich V (if Qltb wmin 0 then map (fun c => c - wmin) w else w)).
Proof. exact displace_spectral. Qed.
Print Assumptions displace_spectrum.

Theorem threshold_spectrum_nonneg : forall m w V K x, Forall (fun r => length r = m) V ->
  Forall (fun c => hd 0 w <= c) w -> mat_eq K (sandwich V w) -> 0 <= qform (threshold_matrix w V K) x.
Proof. exact threshold_psd. Qed.
Print Assumptions threshold_spectrum_nonneg.

Theorem flip_spectrum_nonneg : forall m w V K x, Forall (fun r => length r = m) V ->
  Forall (fun c => hd 0 w <= c) w -> mat_eq K (sandwich V w) -> 0 <= qform (flip_matrix w V K) x.
Proof. exact flip_psd. Qed.
Print Assumptions flip_spectrum_nonneg.

Theorem displace_spectrum_nonneg : forall m wmin w V K x, Forall (fun r => length r = m) V ->
  wmin = hd 0 w -> Forall (fun c => hd 0 w <= c) w ->
  mat_eq K (sandwich V w) -> mat_eq (eye (length K)) (sandwich V (repeat 1 (length w))) ->
  0 <= qform (displace_matrix wmin K) x.
Proof. exact displace_psd. Qed.
Print Assumptions displace_spectrum_nonneg.

(* K - wmin * I entry by entry when wmin < 0 (no spectral assumption) *)
Theorem displace_is_shift_by_identity : forall wmin K a b, Qltb wmin 0 = true ->
  (a < length K)%nat -> (b < length K)%nat -> (b < length (nth a K []))%nat ->
  nth b (nth a (displace_matrix wmin K) []) 0 = nth b (nth a K []) 0 - wmin * (if Nat.eqb a b then 1 else 0).
Proof. exact displace_entry. Qed.
Print Assumptions displace_is_shift_by_identity.

Theorem psd_input_unchanged : forall w V K, 0 <= hd 0 w ->
  threshold_matrix w V K = K /\ flip_matrix w V K = K /\ displace_matrix (hd 0 w) K = K.
Proof. intros w V K H. exact (conj (threshold_unchanged w V K H) (conj (flip_unchanged w V K H) (displace_unchanged _ K H))). Qed.
Print Assumptions psd_input_unchanged.

(* the decidable side condition evaluated by the tie on every generated spectral case implies the hypotheses
   above, hence every model output the implementation is compared with is PSD over Q *)
Theorem tie_side_conditions_sound : forall w V K, spectral_ok w V K = true ->
  mat_eq K (sandwich V w) /\ mat_eq (eye (length K)) (sandwich V (repeat 1 (length w))) /\
  Forall (fun c => hd 0 w <= c) w /\ Forall (fun r => length r = length w) V.
Proof. exact spectral_ok_sound. Qed.
Print Assumptions tie_side_conditions_sound.

Theorem postprocessed_model_psd : forall which w V K x, spectral_ok w V K = true ->
  0 <= qform (post_model which w V K) x.
Proof. exact post_model_psd. Qed.
Print Assumptions postprocessed_model_psd.

(* ---------------------------------------------------------------- non-vacuity *)
(* a NON-symmetric kernel: the square matrix is symmetric anyway and differs from the kernel below the diagonal *)
Example square_nonsymmetric_kernel :
  square_kernel_matrix (tab [[1; 2; 3]; [4; 5; 6]; [7; 8; 9]]) O [0; 1; 2]%nat true
  = Some [[1; 2; 3]; [2; 1; 6]; [3; 6; 1]].
Proof. vm_compute. reflexivity. Qed.

(* an indefinite matrix with exact rational spectral form satisfying all hypotheses *)
Example spectral_hypotheses_satisfiable :
  spectral_ok [-(1); 2] [[3 # 5; 4 # 5]; [-(4 # 5); 3 # 5]] [[23 # 25; 36 # 25]; [36 # 25; 2 # 25]] = true.
Proof. vm_compute. reflexivity. Qed.

(* why the label factor of the alignment's denominator is sqrt(sum_ij (y_i y_j)^2), as in the code, and not
   sqrt(sum_ij y_i y_j): for balanced classes (here the labels of the target_alignment docstring example)
   the second sum is 0 while the first is 16 *)
Example alignment_docstring_denominator_differs :
  let y := fun i => nth i [-(1); -(1); 1; 1] 0 in
  sumn 4 (fun i => sumn 4 (fun j => y i * y j)) == 0 /\
  sumn 4 (fun i => sumn 4 (fun j => (y i * y j) * (y i * y j))) == 16.
Proof. split; vm_compute; reflexivity. Qed.
