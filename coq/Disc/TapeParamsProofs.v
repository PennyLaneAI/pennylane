(* Facts about the model of QuantumScript's parameter bookkeeping.
   par_info is `pi_from 0` of the per-entry data lists (cdata), so its k-th entry addresses the k-th element of
   their concatenation (pi_from_spec).  The three bind_* recursions of the model are one positional map (imap)
   with the pointwise update `upd`; what bind does to each parameter is bind_pointwise, and the rest follows from
   the shape of the assignment table (build_asg_nth: entry m is par_info[sorted(indices)[m]] -> m) and from
   lookup_last returning the last write.  For histories over a store of tapes, exec_cases lists what one step
   can do to the store.  For expansion, `deps` gives for each parameter of the expanded tape the positions of
   the original tape whose requires_grad it inherits. *)
From Coq Require Import List ZArith Bool Lia ZifyBool QArith FinFun.
From PLV Require Import Alg.ListFacts Disc.TapeParamsModel.
Import ListNotations.
Open Scope Z_scope.

Lemma enum_length : forall n a, length (enum_from a n) = n.
Proof. induction n; intros; simpl; [reflexivity | now rewrite IHn]. Qed.

Lemma enum_nth : forall n a k, (k < n)%nat -> nth_error (enum_from a n) k = Some (a + Z.of_nat k).
Proof.
  induction n as [|n IH]; intros a k Hk; [lia|].
  destruct k as [|k]; cbn [enum_from nth_error]; [f_equal; lia|].
  rewrite IH by lia. f_equal. lia.
Qed.

Lemma enum_In : forall n a x, In x (enum_from a n) -> a <= x < a + Z.of_nat n.
Proof.
  induction n as [|n IH]; intros a x H; [destruct H|].
  cbn [enum_from] in H. destruct H as [<- | H]; [lia|]. apply IH in H. lia.
Qed.

Lemma enum_NoDup : forall n a, NoDup (enum_from a n).
Proof.
  induction n as [|n IH]; intros a; cbn [enum_from]; constructor; [|apply IH].
  intros H. apply enum_In in H. lia.
Qed.

Lemma py_nth_nat {A} (l : list A) (n : nat) : py_nth l (Z.of_nat n) = nth_error l n.
Proof.
  unfold py_nth, znth. destruct (Z.of_nat n <? 0) eqn:E; [lia|]. now rewrite Nat2Z.id.
Qed.

Lemma py_nth_nonneg {A} (l : list A) (i : Z) : 0 <= i -> py_nth l i = nth_error l (Z.to_nat i).
Proof. intros H. rewrite <- (py_nth_nat l (Z.to_nat i)). now rewrite Z2Nat.id. Qed.

Lemma pi_from_length : forall ds idx, length (pi_from idx ds) = length (concat ds).
Proof.
  induction ds as [|d r IH]; intros idx; cbn [pi_from concat]; [reflexivity|].
  now rewrite !app_length, map_length, IH, enum_length.
Qed.

Lemma pi_from_app : forall a b i,
  pi_from i (a ++ b) = pi_from i a ++ pi_from (i + Z.of_nat (length a)) b.
Proof.
  induction a as [|d a IH]; intros b i; cbn [pi_from app length].
  - f_equal. lia.
  - rewrite IH, <- app_assoc. do 3 f_equal. lia.
Qed.

Lemma par_info_cdata t : par_info t = pi_from 0 (cdata t).
Proof. unfold par_info, cdata. rewrite pi_from_app, map_length. reflexivity. Qed.

Lemma all_params_cdata t : all_params t = concat (cdata t).
Proof. unfold all_params, allp, cdata. now rewrite concat_app. Qed.

Lemma pi_from_spec : forall ds idx k oi pi,
  nth_error (pi_from idx ds) k = Some (oi, pi) ->
  idx <= oi /\ 0 <= pi /\
  exists d v, nth_error ds (Z.to_nat (oi - idx)) = Some d /\ nth_error d (Z.to_nat pi) = Some v /\
              nth_error (concat ds) k = Some v.
Proof.
  induction ds as [|d r IH]; intros idx k oi pi H; cbn [pi_from] in H.
  - destruct k; discriminate.
  - cbn [concat]. destruct (Nat.ltb k (length d)) eqn:E.
    + apply Nat.ltb_lt in E.
      rewrite nth_error_app1 in H by now rewrite map_length, enum_length.
      rewrite nth_error_map, enum_nth in H by assumption. cbn in H. inversion H; subst.
      destruct (nth_error d k) as [v|] eqn:Ev; [|apply nth_error_None in Ev; lia].
      repeat split; try lia. exists d, v. rewrite Z.sub_diag, Nat2Z.id. cbn.
      repeat split; [assumption|]. now rewrite nth_error_app1.
    + apply Nat.ltb_ge in E.
      rewrite nth_error_app2 in H by now rewrite map_length, enum_length.
      rewrite map_length, enum_length in H. apply IH in H. destruct H as (H1 & H2 & d' & v & Hd & Hv & Hc).
      repeat split; try lia. exists d', v.
      replace (Z.to_nat (oi - idx)) with (S (Z.to_nat (oi - (idx + 1)))) by lia.
      cbn. repeat split; try assumption. now rewrite nth_error_app2.
Qed.

Lemma pi_from_ge : forall ds idx o p, In (o, p) (pi_from idx ds) -> idx <= o.
Proof.
  intros ds idx o p H. apply In_nth_error in H. destruct H as [k H]. now apply pi_from_spec in H.
Qed.

Lemma pi_from_NoDup : forall ds idx, NoDup (pi_from idx ds).
Proof.
  induction ds as [|d r IH]; intros idx; cbn [pi_from]; [constructor|].
  apply NoDup_app_intro.
  - apply FinFun.Injective_map_NoDup; [intros x y E; now inversion E | apply enum_NoDup].
  - apply IH.
  - intros [o p] Hin Hin'. apply in_map_iff in Hin. destruct Hin as (i & E & _). inversion E; subst.
    apply pi_from_ge in Hin'. lia.
Qed.

Lemma pi_from_shape : forall a b i, map (@length par) a = map (@length par) b -> pi_from i a = pi_from i b.
Proof.
  induction a as [|x a IH]; intros [|y b] i H; try discriminate; [reflexivity|].
  cbn in H. inversion H as [[H1 H2]]. cbn [pi_from]. now rewrite H1, (IH b (i + 1) H2).
Qed.

(* entry k of par_info is (op_idx, p_idx) with circuit[op_idx].data[p_idx] = k-th parameter *)
Lemma par_info_points : forall t k oi pi, nth_error (par_info t) k = Some (oi, pi) ->
  exists d v, py_nth (cdata t) oi = Some d /\ py_nth d pi = Some v /\ nth_error (all_params t) k = Some v.
Proof.
  intros t k oi pi H. rewrite par_info_cdata in H. apply pi_from_spec in H.
  destruct H as (H1 & H2 & d & v & Hd & Hv & Hc). exists d, v.
  rewrite !py_nth_nonneg by lia. rewrite Z.sub_0_r in Hd. rewrite all_params_cdata. auto.
Qed.

Lemma par_info_len t : length (par_info t) = length (all_params t).
Proof. now rewrite par_info_cdata, all_params_cdata, pi_from_length. Qed.

Lemma par_info_nodup t : NoDup (par_info t).
Proof. rewrite par_info_cdata. apply pi_from_NoDup. Qed.

Lemma par_info_inj t a b e : nth_error (par_info t) a = Some e -> nth_error (par_info t) b = Some e -> a = b.
Proof.
  intros Ha Hb. pose proof (par_info_nodup t) as Hnd. rewrite NoDup_nth_error in Hnd.
  apply Hnd; [apply nth_error_Some|]; congruence.
Qed.

(* The bind_* functions of the model all map over a list, handing each element its position. *)
Fixpoint imap {A B} (f : Z -> A -> B) (i : Z) (l : list A) : list B :=
  match l with [] => [] | x :: r => f i x :: imap f (i + 1) r end.

Lemma imap_length {A B} (f : Z -> A -> B) : forall l i, length (imap f i l) = length l.
Proof. induction l; intros; cbn; [reflexivity | now rewrite IHl]. Qed.

Lemma imap_nth {A B} (f : Z -> A -> B) : forall l i n,
  nth_error (imap f i l) n = option_map (f (i + Z.of_nat n)) (nth_error l n).
Proof.
  induction l as [|x l IH]; intros i n; [destruct n; reflexivity|].
  destruct n as [|n]; cbn [imap nth_error option_map].
  - now rewrite Z.add_0_r.
  - rewrite IH. do 2 f_equal. lia.
Qed.

Lemma imap_app {A B} (f : Z -> A -> B) : forall a b i,
  imap f i (a ++ b) = imap f i a ++ imap f (i + Z.of_nat (length a)) b.
Proof.
  induction a as [|x a IH]; intros b i; cbn [imap app length].
  - f_equal. lia.
  - rewrite IH. do 3 f_equal. lia.
Qed.

Lemma imap_keeps {A B C} (f : Z -> A -> B) (g : B -> C) (g' : A -> C) :
  (forall i x, g (f i x) = g' x) -> forall l i, map g (imap f i l) = map g' l.
Proof. intros H. induction l; intros; cbn; [reflexivity | now rewrite H, IHl]. Qed.

Lemma imap_map_comm {A B A' B'} (f : Z -> A -> B) (f' : Z -> A' -> B') (g : B -> B') (g' : A -> A') :
  (forall i x, g (f i x) = f' i (g' x)) -> forall l i, map g (imap f i l) = imap f' i (map g' l).
Proof. intros H. induction l; intros; cbn; [reflexivity | now rewrite H, IHl]. Qed.

Lemma imap_id {A} (f : Z -> A -> A) : forall l i,
  (forall n x, nth_error l n = Some x -> f (i + Z.of_nat n) x = x) -> imap f i l = l.
Proof.
  induction l as [|x l IH]; intros i H; [reflexivity|]. cbn [imap].
  rewrite <- (H O x eq_refl) at 2. rewrite Z.add_0_r. f_equal.
  apply IH. intros n y Hn. replace (i + 1 + Z.of_nat n) with (i + Z.of_nat (S n)) by lia. now apply H.
Qed.

Definition upd (asg : list (Z * Z * Z)) (ps : list par) (oi pi : Z) (v : par) : par :=
  match lookup_last asg oi pi None with Some k => nth (Z.to_nat k) ps v | None => v end.
Definition slot_upd asg ps oi (s : slot) : slot := mkSlot (sname s) (bind_data asg ps oi 0 (sdata s)) (swires s).
Definition mp_upd asg ps oi (m : mp) : mp := mkMp (mkind m) (option_map (slot_upd asg ps oi) (mobs m)).

Lemma bind_data_imap : forall d asg ps oi i, bind_data asg ps oi i d = imap (upd asg ps oi) i d.
Proof. induction d; intros; cbn; [reflexivity | now rewrite IHd]. Qed.

Lemma bind_slots_imap : forall l asg ps oi, bind_slots asg ps oi l = imap (slot_upd asg ps) oi l.
Proof. induction l; intros; cbn [bind_slots imap]; [reflexivity | now rewrite IHl]. Qed.

Lemma bind_meas_imap : forall l asg ps oi, bind_meas asg ps oi l = imap (mp_upd asg ps) oi l.
Proof. induction l; intros; cbn [bind_meas imap]; [reflexivity | now rewrite IHl]. Qed.

Lemma bind_slots_length : forall l asg ps oi, length (bind_slots asg ps oi l) = length l.
Proof. intros. now rewrite bind_slots_imap, imap_length. Qed.

Lemma mp_data_upd asg ps oi m : mp_data (mp_upd asg ps oi m) = bind_data asg ps oi 0 (mp_data m).
Proof. unfold mp_data. cbn. now destruct (mobs m). Qed.

Lemma slot_upd_id asg ps oi s : bind_data asg ps oi 0 (sdata s) = sdata s -> slot_upd asg ps oi s = s.
Proof. unfold slot_upd. intros ->. now destruct s. Qed.

Lemma mp_upd_id asg ps oi m : bind_data asg ps oi 0 (mp_data m) = mp_data m -> mp_upd asg ps oi m = m.
Proof.
  destruct m as [k [s|]]; unfold mp_upd, mp_data; cbn; [|reflexivity]. intros H. now rewrite slot_upd_id.
Qed.

Lemma cdata_op t n s : nth_error (ops t) n = Some s -> nth_error (cdata t) n = Some (sdata s).
Proof.
  intros H. unfold cdata. rewrite nth_error_app1, nth_error_map, H; [reflexivity|].
  rewrite map_length. apply nth_error_Some. congruence.
Qed.

Lemma cdata_mp t n m : nth_error (meas t) n = Some m -> nth_error (cdata t) (length (ops t) + n) = Some (mp_data m).
Proof.
  intros H. unfold cdata. rewrite nth_error_app2; rewrite map_length; [|lia].
  replace (length (ops t) + n - length (ops t))%nat with n by lia. now rewrite nth_error_map, H.
Qed.

Definition bind_asg (t : tape) (idx : list Z) := build_asg (par_info t) 0 (sorted_py idx).

(* the tape a successful bind returns, given the assignment table *)
Definition bound (t : tape) (asg : list (Z * Z * Z)) (ps : list par) : tape :=
  mkTape (bind_slots asg ps 0 (ops t)) (bind_meas asg ps (Z.of_nat (length (ops t))) (meas t)) (Some (trainable t)).

Lemma bind_inv : forall t ps idx t', bind t ps idx = Some t' ->
  length ps = length idx /\ exists asg, bind_asg t idx = Some asg /\ t' = bound t asg ps.
Proof.
  unfold bind, bind_asg. intros t ps idx t' H.
  destruct (Nat.eqb (length ps) (length idx)) eqn:E; cbn in H; [|discriminate].
  apply Nat.eqb_eq in E. split; [assumption|].
  destruct (build_asg (par_info t) 0 (sorted_py idx)) as [asg|]; [|discriminate].
  exists asg. inversion H. auto.
Qed.

Lemma bound_cdata : forall t asg ps,
  cdata (bound t asg ps) = imap (fun oi => bind_data asg ps oi 0) 0 (cdata t).
Proof.
  intros. unfold cdata, bound. cbn [ops meas].
  rewrite bind_slots_imap, bind_meas_imap, imap_app, map_length.
  f_equal; apply imap_map_comm; [reflexivity | apply mp_data_upd].
Qed.

Lemma bind_par_info : forall t ps idx t', bind t ps idx = Some t' -> par_info t' = par_info t.
Proof.
  intros t ps idx t' H. apply bind_inv in H. destruct H as (_ & asg & _ & ->).
  rewrite !par_info_cdata, bound_cdata. apply pi_from_shape, imap_keeps.
  intros. now rewrite bind_data_imap, imap_length.
Qed.

(* pointwise description of the bound tape through par_info *)
Lemma bind_pointwise : forall t ps idx t' asg, bind t ps idx = Some t' -> bind_asg t idx = Some asg ->
  forall j oi pi v, nth_error (par_info t) j = Some (oi, pi) -> nth_error (all_params t) j = Some v ->
  nth_error (all_params t') j = Some (upd asg ps oi pi v).
Proof.
  intros t ps idx t' asg H Ha j oi pi v Hj Hv.
  pose proof (bind_par_info _ _ _ _ H) as Hpi.
  apply bind_inv in H. destruct H as (_ & asg' & Ha' & Ht'). rewrite Ha in Ha'. inversion Ha'; subst asg'.
  assert (Hj' : nth_error (par_info t') j = Some (oi, pi)) by now rewrite Hpi.
  rewrite par_info_cdata in Hj, Hj'. apply pi_from_spec in Hj, Hj'.
  destruct Hj as (H1 & H2 & d & v0 & Hd & Hv0 & Hc). destruct Hj' as (_ & _ & d' & v' & Hd' & Hv' & Hc').
  rewrite all_params_cdata in *. rewrite Hc in Hv. inversion Hv; subst v0. rewrite Hc'. f_equal.
  rewrite Ht', bound_cdata, imap_nth, Hd in Hd'. cbn in Hd'. inversion Hd'; subst d'.
  rewrite bind_data_imap, imap_nth, Hv0 in Hv'. cbn in Hv'. inversion Hv'. f_equal; lia.
Qed.

Lemma lookup_last_none : forall asg oi pi acc,
  (forall o p k, In (o, p, k) asg -> (o, p) <> (oi, pi)) -> lookup_last asg oi pi acc = acc.
Proof.
  induction asg as [|[[o p] k] asg IH]; intros oi pi acc H; [reflexivity|]. cbn [lookup_last].
  destruct ((o =? oi) && (p =? pi)) eqn:E.
  - apply andb_true_iff in E. destruct E as [E1 E2]. apply Z.eqb_eq in E1, E2. subst.
    exfalso. apply (H oi pi k); [now left | reflexivity].
  - apply IH. intros o' p' k' Hin. apply (H o' p' k'). now right.
Qed.

Lemma lookup_last_in : forall asg oi pi acc k,
  lookup_last asg oi pi acc = Some k -> In (oi, pi, k) asg \/ acc = Some k.
Proof.
  induction asg as [|[[o p] k0] asg IH]; intros oi pi acc k H; [now right|]. cbn [lookup_last] in H.
  apply IH in H. destruct H as [H | H]; [left; now right|].
  destruct ((o =? oi) && (p =? pi)) eqn:E; [|now right].
  apply andb_true_iff in E. destruct E as [E1 E2]. apply Z.eqb_eq in E1, E2. subst. inversion H; subst. left; now left.
Qed.

(* the last entry for a key wins *)
Lemma lookup_last_at : forall asg m oi pi k acc, nth_error asg m = Some (oi, pi, k) ->
  (forall m' k', (m < m')%nat -> nth_error asg m' <> Some (oi, pi, k')) -> lookup_last asg oi pi acc = Some k.
Proof.
  induction asg as [|[[o p] k0] asg IH]; intros m oi pi k acc Hm Hlast; [destruct m; discriminate|].
  cbn [lookup_last]. destruct m as [|m]; cbn in Hm.
  - inversion Hm; subst. rewrite !Z.eqb_refl. cbn. apply lookup_last_none.
    intros o p k' Hin E. inversion E; subst. apply In_nth_error in Hin. destruct Hin as [m' Hm'].
    apply (Hlast (S m') k'); [lia | exact Hm'].
  - apply (IH m); [assumption|]. intros m' k' Hlt. apply (Hlast (S m') k'). lia.
Qed.

(* entry m of the table is (par_info[sidx[m]], k0 + m), read from either side *)
Lemma build_asg_nth : forall sidx pinfo k0 asg, build_asg pinfo k0 sidx = Some asg -> forall m,
  (forall i, nth_error sidx m = Some i ->
     exists o p, py_nth pinfo i = Some (o, p) /\ nth_error asg m = Some (o, p, k0 + Z.of_nat m)) /\
  (forall o p k, nth_error asg m = Some (o, p, k) ->
     exists i, nth_error sidx m = Some i /\ py_nth pinfo i = Some (o, p) /\ k = k0 + Z.of_nat m).
Proof.
  induction sidx as [|i0 r IH]; intros pinfo k0 asg H m; cbn [build_asg] in H.
  - inversion H. split; intros; destruct m; discriminate.
  - destruct (py_nth pinfo i0) as [[o0 p0]|] eqn:E; [|discriminate].
    destruct (build_asg pinfo (k0 + 1) r) as [asg'|] eqn:E'; [|discriminate]. cbn in H. inversion H; subst asg.
    destruct m as [|m]; cbn [nth_error].
    + rewrite Z.add_0_r. split; [intros i Hi | intros o p k Hk]; [inversion Hi | inversion Hk]; subst; eauto.
    + replace (k0 + Z.of_nat (S m)) with (k0 + 1 + Z.of_nat m) by lia. exact (IH _ _ _ E' m).
Qed.

Lemma build_asg_in : forall sidx pinfo k0 asg, build_asg pinfo k0 sidx = Some asg ->
  forall o p k, In (o, p, k) asg ->
  exists m i, nth_error sidx m = Some i /\ py_nth pinfo i = Some (o, p) /\ k = k0 + Z.of_nat m.
Proof.
  intros sidx pinfo k0 asg H o p k Hin. apply In_nth_error in Hin. destruct Hin as [m Hm].
  exists m. exact (proj2 (build_asg_nth _ _ _ _ H m) _ _ _ Hm).
Qed.

Lemma fold_insert_in {A} (ins : A -> list A -> list A) :
  (forall l x y, In y (ins x l) <-> y = x \/ In y l) -> forall l y, In y (fold_right ins [] l) <-> In y l.
Proof.
  intros Hins. induction l as [|x l IH]; intros y; [reflexivity|]. cbn [fold_right].
  rewrite Hins, IH. cbn. intuition.
Qed.

Lemma insert_sorted_in : forall l x y, In y (insert_sorted x l) <-> y = x \/ In y l.
Proof.
  induction l as [|z l IH]; intros x y; cbn [insert_sorted].
  - cbn. intuition.
  - destruct (x <=? z); cbn [In]; [intuition|]. rewrite IH. intuition.
Qed.

Lemma sorted_py_in : forall l y, In y (sorted_py l) <-> In y l.
Proof. exact (fold_insert_in _ insert_sorted_in). Qed.

(* positions not addressed by any index keep their value *)
Lemma bind_untouched : forall t ps idx t', bind t ps idx = Some t' ->
  forall j, (forall i, In i idx -> py_nth (par_info t) i <> nth_error (par_info t) j) ->
  nth_error (all_params t') j = nth_error (all_params t) j.
Proof.
  intros t ps idx t' H j Hno.
  destruct (bind_inv _ _ _ _ H) as (_ & asg & Ha & _).
  destruct (nth_error (par_info t) j) as [[oi pi]|] eqn:Hj.
  - destruct (par_info_points _ _ _ _ Hj) as (d & v & _ & _ & Hv).
    rewrite (bind_pointwise _ _ _ _ _ H Ha _ _ _ _ Hj Hv), Hv. f_equal. unfold upd.
    rewrite lookup_last_none; [reflexivity|].
    intros o p k Hin E. inversion E; subst.
    destruct (build_asg_in _ _ _ _ Ha _ _ _ Hin) as (m & i & H1 & H2 & _).
    apply (Hno i); [apply sorted_py_in; eapply nth_error_In; eassumption | now rewrite H2].
  - apply nth_error_None in Hj. rewrite par_info_len in Hj.
    assert (length (all_params t') = length (all_params t)) as E
      by now rewrite <- !par_info_len, (bind_par_info _ _ _ _ H).
    transitivity (@None par); [apply nth_error_None; lia | symmetry; apply nth_error_None; lia].
Qed.

(* names, wires, measurement classes and the trainable indices are kept *)
Lemma bind_frame : forall t ps idx t', bind t ps idx = Some t' ->
  map sname (ops t') = map sname (ops t) /\ map swires (ops t') = map swires (ops t) /\
  map mkind (meas t') = map mkind (meas t) /\ trainable t' = trainable t /\ par_info t' = par_info t.
Proof.
  intros t ps idx t' H. pose proof (bind_par_info _ _ _ _ H) as Hp.
  apply bind_inv in H. destruct H as (_ & asg & _ & ->). unfold bound in *. cbn [ops meas].
  rewrite bind_slots_imap, bind_meas_imap in *.
  repeat split; [apply imap_keeps; reflexivity .. | assumption].
Qed.

Definition binds_current (t : tape) (ps : list par) (idx : list Z) : Prop :=
  forall k i, nth_error (sorted_py idx) k = Some i ->
  exists e, py_nth (par_info t) i = Some e /\ exists v, via_pinfo t e = Some v /\ nth_error ps k = Some v.

Lemma bind_id_data : forall t ps idx asg, bind_asg t idx = Some asg -> binds_current t ps idx ->
  forall m d, nth_error (cdata t) m = Some d -> bind_data asg ps (Z.of_nat m) 0 d = d.
Proof.
  intros t ps idx asg Ha Hc m d Hm. rewrite bind_data_imap. apply imap_id. intros n v Hn.
  rewrite Z.add_0_l. unfold upd.
  destruct (lookup_last asg (Z.of_nat m) (Z.of_nat n) None) as [k|] eqn:E; [|reflexivity].
  apply lookup_last_in in E. destruct E as [E | E]; [|discriminate].
  destruct (build_asg_in _ _ _ _ Ha _ _ _ E) as (q & i & H1 & H2 & H3).
  destruct (Hc q i H1) as (e & He & w & Hw & Hps). rewrite H2 in He. inversion He; subst e.
  unfold via_pinfo in Hw. cbn [fst snd] in Hw. rewrite py_nth_nat, Hm, py_nth_nat, Hn in Hw.
  inversion Hw; subst w. rewrite H3, Z.add_0_l, Nat2Z.id. now apply nth_error_nth.
Qed.

Lemma bind_current : forall t ps idx t', bind t ps idx = Some t' -> binds_current t ps idx ->
  ops t' = ops t /\ meas t' = meas t /\ trainable t' = trainable t.
Proof.
  intros t ps idx t' H Hc. destruct (bind_inv _ _ _ _ H) as (_ & asg & Ha & ->). unfold bound. cbn [ops meas].
  rewrite bind_slots_imap, bind_meas_imap.
  repeat split; apply imap_id; intros n x Hn; [apply slot_upd_id | apply mp_upd_id].
  - rewrite Z.add_0_l. apply (bind_id_data t ps idx asg Ha Hc), cdata_op, Hn.
  - rewrite <- Nat2Z.inj_add. apply (bind_id_data t ps idx asg Ha Hc), cdata_mp, Hn.
Qed.

(* ---- exactly the addressed positions get the new values (increasing non-negative indices) ---- *)
Fixpoint incr (l : list Z) : Prop :=
  match l with x :: ((y :: _) as r) => x < y /\ incr r | _ => True end.

Lemma incr_sorted : forall l, incr l -> sorted_py l = l.
Proof.
  induction l as [|x l IH]; intros H; [reflexivity|]. unfold sorted_py in *. cbn [fold_right].
  destruct l as [|y l]; [reflexivity|]. destruct H as [Hxy Hr]. rewrite (IH Hr). cbn [insert_sorted].
  destruct (x <=? y) eqn:E; [reflexivity | lia].
Qed.

Lemma incr_lt : forall l, incr l -> forall a b x y, (a < b)%nat -> nth_error l a = Some x -> nth_error l b = Some y -> x < y.
Proof.
  induction l as [|z l IH]; intros H a b x y Hab Ha Hb; [destruct a; discriminate|].
  destruct b as [|b]; [lia|]. destruct l as [|w l]; [destruct b; discriminate|]. destruct H as [Hzw Hr].
  destruct a as [|a]; cbn in Ha, Hb.
  - inversion Ha; subst z. destruct b as [|b]; [cbn in Hb; inversion Hb; subst; lia|].
    assert (w < y) by (apply (IH Hr O (S b) w y); [lia | reflexivity | exact Hb]). lia.
  - apply (IH Hr a b x y); [lia | exact Ha | exact Hb].
Qed.

Lemma bind_sets : forall t ps idx t', bind t ps idx = Some t' -> incr idx -> (forall i, In i idx -> 0 <= i) ->
  forall k i, nth_error idx k = Some i -> nth_error (all_params t') (Z.to_nat i) = nth_error ps k.
Proof.
  intros t ps idx t' H Hinc Hpos k i Hk.
  destruct (bind_inv _ _ _ _ H) as (Hlen & asg & Ha & _).
  pose proof Ha as Hb. unfold bind_asg in Hb. rewrite (incr_sorted _ Hinc) in Hb.
  destruct (proj1 (build_asg_nth _ _ _ _ Hb k) i Hk) as (o & p & Hop & Hasg).
  assert (0 <= i) as Hi by (apply Hpos; eapply nth_error_In; eassumption).
  rewrite py_nth_nonneg in Hop by assumption.
  destruct (par_info_points _ _ _ _ Hop) as (d & v & _ & _ & Hv).
  rewrite (bind_pointwise _ _ _ _ _ H Ha _ _ _ _ Hop Hv). unfold upd.
  rewrite (lookup_last_at _ _ _ _ _ _ Hasg).
  - rewrite Z.add_0_l, Nat2Z.id. symmetry. apply nth_error_nth'.
    rewrite Hlen. apply nth_error_Some. congruence.
  - (* a later entry comes from a larger index, hence from another par_info entry *)
    intros m' k' Hlt Hm'. destruct (proj2 (build_asg_nth _ _ _ _ Hb m') _ _ _ Hm') as (i' & Hi' & Hop' & _).
    assert (i < i') by (apply (incr_lt idx Hinc k m'); assumption).
    rewrite py_nth_nonneg in Hop' by lia.
    assert (Z.to_nat i = Z.to_nat i') by (eapply par_info_inj; eassumption). lia.
Qed.

Lemma bind_resolves : forall t ps idx t', bind t ps idx = Some t' ->
  forall i, In i idx -> exists e, py_nth (par_info t) i = Some e.
Proof.
  intros t ps idx t' H i Hin. destruct (bind_inv _ _ _ _ H) as (_ & asg & Ha & _).
  apply sorted_py_in in Hin. apply In_nth_error in Hin. destruct Hin as [m Hm].
  destruct (proj1 (build_asg_nth _ _ _ _ Ha m) i Hm) as (o & p & Hop & _). eauto.
Qed.

(* positional form for non-negative indices *)
Lemma bind_untouched_pos : forall t ps idx t', bind t ps idx = Some t' -> (forall i, In i idx -> 0 <= i) ->
  forall j, ~ In (Z.of_nat j) idx -> nth_error (all_params t') j = nth_error (all_params t) j.
Proof.
  intros t ps idx t' H Hpos j Hj. apply (bind_untouched _ _ _ _ H). intros i Hin E.
  destruct (bind_resolves _ _ _ _ H i Hin) as [e He]. rewrite He in E.
  rewrite py_nth_nonneg in He by auto.
  assert (Z.to_nat i = j) by (eapply par_info_inj; [eassumption | now symmetry]).
  apply Hj. replace (Z.of_nat j) with i by (specialize (Hpos i Hin); lia). exact Hin.
Qed.

Lemma set_train_inv : forall t l t', set_train t l = Some t' ->
  t' = mkTape (ops t) (meas t) (Some (sort_set (map unTI l))).
Proof.
  unfold set_train. intros t l t' H.
  destruct (existsb _ l); [discriminate|]. destruct (existsb _ l); [discriminate|]. now inversion H.
Qed.

Lemma set_nth_other {A} : forall (l : list A) i j v, i <> j -> nth_error (set_nth i v l) j = nth_error l j.
Proof.
  induction l as [|x l IH]; intros i j v H; [destruct i; reflexivity|].
  destruct i, j; cbn; try reflexivity; [congruence | apply IH; congruence].
Qed.

Lemma set_nth_same {A} : forall (l : list A) i v x, nth_error l i = Some x -> nth_error (set_nth i v l) i = Some v.
Proof.
  induction l as [|y l IH]; intros i v x H; [destruct i; discriminate|]. destruct i; cbn; [reflexivity | eapply IH; eassumption].
Qed.

Lemma app_keeps {A} (l : list A) x j t : nth_error l j = Some t -> nth_error (l ++ [x]) j = Some t.
Proof. intros H. rewrite nth_error_app1; [assumption | apply nth_error_Some; congruence]. Qed.

(* a step leaves the store alone, appends a tape to it, or performs a trainable_params assignment in place *)
Lemma exec_cases : forall st s st' c, exec st s = (st', c) ->
  st' = st \/ (exists x, st' = st ++ [x]) \/
  exists i l t0 t1, s = SSetTrain i l /\ nth_error st i = Some t0 /\ set_train t0 l = Some t1 /\ st' = set_nth i t1 st.
Proof.
  intros st s st' c H. destruct s as [i ou mu tu | i ps idx | i l | i rs | i rs | ]; cbn [exec] in H.
  - destruct (nth_error st i); inversion H; eauto.
  - destruct (nth_error st i) as [t0|]; [destruct (bind t0 ps idx)|]; inversion H; eauto.
  - destruct (nth_error st i) as [t0|] eqn:Ei; [destruct (set_train t0 l) as [t1|] eqn:Es|]; inversion H; auto.
    right; right. exists i, l, t0, t1. auto.
  - destruct (nth_error st i) as [t0|]; [destruct (decompose t0 rs)|]; inversion H; eauto.
  - destruct (nth_error st i) as [t0|]; [destruct (grad_expand t0 rs)|]; inversion H; eauto.
  - inversion H; auto.
Qed.

Definition mutates (s : step) (j : nat) : Prop := exists l, s = SSetTrain j l.

Lemma exec_frame : forall st s st' c, exec st s = (st', c) ->
  forall j t, nth_error st j = Some t ->
  (~ mutates s j -> nth_error st' j = Some t) /\
  (exists t', nth_error st' j = Some t' /\ ops t' = ops t /\ meas t' = meas t).
Proof.
  intros st s st' c H j t Hj.
  destruct (exec_cases _ _ _ _ H) as [-> | [[x ->] | (i & l & t0 & t1 & -> & Ei & Es & ->)]].
  - split; [auto | exists t; auto].
  - split; [intros _ | exists t]; auto using app_keeps.
  - destruct (Nat.eq_dec i j) as [->|Hne].
    + split; [intros Hm; exfalso; apply Hm; now exists l|].
      exists t1. rewrite (set_nth_same _ _ _ _ Ei). rewrite Ei in Hj. inversion Hj; subst t0.
      rewrite (set_train_inv _ _ _ Es). auto.
    + rewrite set_nth_other by assumption. split; [auto | exists t; auto].
Qed.

Lemma run_frame : forall ss st stf cs, run_steps st ss = (stf, cs) ->
  forall j t, nth_error st j = Some t ->
  ((forall s, In s ss -> ~ mutates s j) -> nth_error stf j = Some t) /\
  (exists t', nth_error stf j = Some t' /\ ops t' = ops t /\ meas t' = meas t).
Proof.
  induction ss as [|s ss IH]; intros st stf cs H j t Hj; cbn [run_steps] in H.
  - inversion H; subst. split; [auto | exists t; auto].
  - destruct (exec st s) as [st1 c] eqn:E. destruct (run_steps st1 ss) as [st2 cs2] eqn:E2. inversion H; subst.
    destruct (exec_frame _ _ _ _ E j t Hj) as [F1 (t1 & F2 & F3 & F4)]. split.
    + intros Hno. apply (proj1 (IH _ _ _ E2 j t (F1 (Hno s (or_introl eq_refl))))). intros s' Hs'. apply Hno. now right.
    + destruct (proj2 (IH _ _ _ E2 j t1 F2)) as (t2 & G1 & G2 & G3). exists t2. repeat split; congruence.
Qed.

Definition flag_at (l : list par) (k : Z) : bool := match znth l k with Some v => snd v | None => false end.

(* old positions a new value depends on: non-zero coefficients of its rule *)
Fixpoint nz_pos (off : Z) (cs : list Q) (d : list par) : list Z :=
  match cs, d with
  | c :: cr, _ :: dr => if qnz c then off :: nz_pos (off + 1) cr dr else nz_pos (off + 1) cr dr
  | _, _ => []
  end.
Definition deps_rule (off : Z) (d : list par) (r : rule) : list (list Z) :=
  flat_map (fun e : orule => map (fun pr : prule => nz_pos off (snd pr) d) (snd (fst e))) r.
Definition singles (off : Z) (n : nat) : list (list Z) := map (fun i => [i]) (enum_from off n).
Definition deps_op (rs : rules) (off : Z) (s : slot) : list (list Z) :=
  match find_rule rs (sname s) (map snd (sdata s)) with
  | Some r => deps_rule off (sdata s) r
  | None => singles off (length (sdata s))
  end.
Fixpoint deps_ops (rs : rules) (off : Z) (l : list slot) : list (list Z) :=
  match l with [] => [] | s :: r => deps_op rs off s ++ deps_ops rs (off + Z.of_nat (length (sdata s))) r end.
(* the position map of an expansion: for every parameter of the new tape, the old positions it is computed from *)
Definition deps (t : tape) (rs : rules) : list (list Z) :=
  deps_ops rs 0 (ops t)
  ++ singles (Z.of_nat (length (concat (map sdata (ops t))))) (length (concat (map mp_data (meas t)))).

Definition dep_ok (all : list par) (p : par) (ds : list Z) : Prop := snd p = existsb (flag_at all) ds.

Lemma flag_at_nat : forall l n,
  flag_at l (Z.of_nat n) = match nth_error l n with Some v => snd v | None => false end.
Proof. intros. unfold flag_at, znth. destruct (Z.of_nat n <? 0) eqn:E; [lia|]. now rewrite Nat2Z.id. Qed.

Lemma flag_at_nonneg : forall l k, flag_at l k = true -> 0 <= k.
Proof. unfold flag_at, znth. intros l k H. destruct (k <? 0) eqn:E; [discriminate | lia]. Qed.

Lemma flag_at_cons : forall v l k, flag_at (v :: l) k = if k =? 0 then snd v else flag_at l (k - 1).
Proof.
  intros. unfold flag_at, znth. destruct (k =? 0) eqn:E0; [apply Z.eqb_eq in E0; now subst|].
  destruct (k <? 0) eqn:E, (k - 1 <? 0) eqn:E1; try lia.
  now replace (Z.to_nat k) with (S (Z.to_nat (k - 1))) by lia.
Qed.

Lemma flag_at_mid : forall pre v post, flag_at (pre ++ v :: post) (Z.of_nat (length pre)) = snd v.
Proof. intros. now rewrite flag_at_nat, nth_error_app2, Nat.sub_diag by lia. Qed.

Lemma anyflag_deps : forall cs d pre post,
  anyflag cs d = existsb (flag_at (pre ++ d ++ post)) (nz_pos (Z.of_nat (length pre)) cs d).
Proof.
  induction cs as [|c cs IH]; intros d pre post; [reflexivity|]. destruct d as [|v d]; [reflexivity|].
  cbn [anyflag nz_pos]. specialize (IH d (pre ++ [v]) post).
  rewrite <- app_assoc, app_length, Nat2Z.inj_add in IH. cbn [app length] in IH. change (Z.of_nat 1) with 1 in IH.
  cbn [app]. destruct (qnz c); cbn [existsb andb orb].
  - now rewrite flag_at_mid, IH.
  - exact IH.
Qed.

Lemma singles_ok : forall d pre post,
  Forall2 (dep_ok (pre ++ d ++ post)) d (singles (Z.of_nat (length pre)) (length d)).
Proof.
  induction d as [|v d IH]; intros pre post; [constructor|]. unfold singles. cbn [length enum_from map].
  constructor.
  - unfold dep_ok. cbn [existsb app]. now rewrite flag_at_mid, orb_false_r.
  - specialize (IH (pre ++ [v]) post). rewrite <- app_assoc, app_length, Nat2Z.inj_add in IH. exact IH.
Qed.

Lemma rule_ok : forall r s pre post,
  Forall2 (dep_ok (pre ++ sdata s ++ post)) (concat (map sdata (map (ev_orule s) r)))
          (deps_rule (Z.of_nat (length pre)) (sdata s) r).
Proof.
  induction r as [|e r IH]; intros s pre post; [constructor|].
  unfold deps_rule in *. cbn [map concat flat_map]. apply Forall2_app; [|apply IH].
  unfold ev_orule. cbn [sdata]. induction (snd (fst e)) as [|pr prs IHp]; cbn [map]; constructor; [|exact IHp].
  unfold dep_ok, ev_par. cbn [snd]. apply anyflag_deps.
Qed.

Lemma op_ok : forall rs s pre post,
  Forall2 (dep_ok (pre ++ sdata s ++ post))
          (concat (map sdata (match expand_op rs s with Some n => n | None => [s] end)))
          (deps_op rs (Z.of_nat (length pre)) s).
Proof.
  intros rs s pre post. unfold expand_op, deps_op.
  destruct (find_rule rs (sname s) (map snd (sdata s))) as [r|].
  - apply rule_ok.
  - cbn [map concat]. rewrite app_nil_r. apply singles_ok.
Qed.

Lemma ops_ok : forall rs l pre post,
  Forall2 (dep_ok (pre ++ concat (map sdata l) ++ post)) (concat (map sdata (expand_ops rs l)))
          (deps_ops rs (Z.of_nat (length pre)) l).
Proof.
  induction l as [|s l IH]; intros pre post; [constructor|].
  unfold expand_ops in *. cbn [flat_map map concat deps_ops]. rewrite map_app, concat_app.
  apply Forall2_app.
  - rewrite <- app_assoc. apply op_ok.
  - specialize (IH (pre ++ sdata s) post). rewrite <- !app_assoc, app_length, Nat2Z.inj_add in IH.
    rewrite <- app_assoc. exact IH.
Qed.

Lemma decompose_inv : forall t rs t', decompose t rs = Some t' -> t' = mkTape (expand_ops rs (ops t)) (meas t) None.
Proof. unfold decompose. intros t rs t' H. destruct (all_stop rs (ops t)); [discriminate | now inversion H]. Qed.

Lemma decompose_deps : forall t rs t', decompose t rs = Some t' ->
  Forall2 (dep_ok (all_params t)) (all_params t') (deps t rs).
Proof.
  intros t rs t' H. rewrite (decompose_inv _ _ _ H).
  unfold all_params, allp, deps. cbn [ops meas]. apply Forall2_app.
  - exact (ops_ok rs (ops t) [] (concat (map mp_data (meas t)))).
  - pose proof (singles_ok (concat (map mp_data (meas t))) (concat (map sdata (ops t))) []) as P.
    rewrite app_nil_r in P. exact P.
Qed.

(* plain decompose resets the trainable indices to "all parameters" *)
Lemma decompose_trainable_all : forall t rs t', decompose t rs = Some t' ->
  trainable t' = enum_from 0 (length (all_params t')).
Proof.
  intros t rs t' H. rewrite (decompose_inv _ _ _ H). unfold trainable. cbn [train]. now rewrite par_info_len.
Qed.

Lemma insert_dedup_in : forall l x y, In y (insert_dedup x l) <-> y = x \/ In y l.
Proof.
  induction l as [|z l IH]; intros x y; cbn [insert_dedup]; [cbn; intuition|].
  destruct (x <? z); [cbn; intuition|]. destruct (x =? z) eqn:E.
  - apply Z.eqb_eq in E. subst. cbn. intuition.
  - cbn [In]. rewrite IH. intuition.
Qed.

Lemma sort_set_in : forall l y, In y (sort_set l) <-> In y l.
Proof. exact (fold_insert_in _ insert_dedup_in). Qed.

Lemma flagged_in : forall l i0 j, In j (flagged i0 l) <-> i0 <= j /\ flag_at l (j - i0) = true.
Proof.
  induction l as [|v l IH]; intros i0 j; cbn [flagged].
  - split; [intros [] | intros [_ H]]. unfold flag_at, znth in H. now destruct (j - i0 <? 0), (Z.to_nat (j - i0)).
  - rewrite flag_at_cons. specialize (IH (i0 + 1) j). replace (j - (i0 + 1)) with (j - i0 - 1) in IH by lia.
    destruct (j - i0 =? 0) eqn:E, (snd v); cbn [In]; rewrite IH; intuition (lia || discriminate).
Qed.

Lemma flagged_flag_at : forall l j, In j (flagged 0 l) <-> (0 <= j /\ flag_at l j = true).
Proof. intros l j. now rewrite flagged_in, Z.sub_0_r. Qed.

Definition consistent (t : tape) : Prop :=
  forall k, In k (trainable t) <-> (0 <= k /\ flag_at (all_params t) k = true).

Lemma grad_expand_inv : forall t rs t'', grad_expand t rs = XNew t'' ->
  exists t', decompose t rs = Some t' /\ ops t'' = ops t' /\ meas t'' = meas t' /\
             train t'' = Some (sort_set (flagged 0 (all_params t'))).
Proof.
  intros t rs t'' H. unfold grad_expand in H. destruct (existsb snd (concat (map mp_data (meas t)))); [discriminate|].
  destruct (decompose t rs) as [t'|]; [|discriminate]. exists t'. split; [reflexivity|].
  destruct (set_train t' _) as [t1|] eqn:Es; [|discriminate]. inversion H; subst t''.
  rewrite (set_train_inv _ _ _ Es). cbn [ops meas train]. now rewrite map_map, map_id.
Qed.

(* a new value is flagged exactly when one of the old positions it is computed from is *)
Lemma deps_flag : forall all l D, Forall2 (dep_ok all) l D -> forall n,
  flag_at l (Z.of_nat n) = true <->
  exists ds, nth_error D n = Some ds /\ exists k, In k ds /\ flag_at all k = true.
Proof.
  induction 1 as [|v ds l D Hok F IH]; intros n; rewrite flag_at_nat.
  - destruct n; (split; [discriminate | intros (ds & Hds & _); discriminate]).
  - destruct n as [|n]; cbn [nth_error].
    + unfold dep_ok in Hok. rewrite Hok, existsb_exists. split; [eauto | now intros (? & [= <-] & ?)].
    + rewrite <- flag_at_nat. apply IH.
Qed.

(* after the gradient expand the trainable set is the image of the old one under the position map *)
Lemma grad_expand_trainable : forall t rs t'', grad_expand t rs = XNew t'' ->
  consistent t'' /\
  forall j, In j (trainable t'') <->
    exists n ds, j = Z.of_nat n /\ nth_error (deps t rs) n = Some ds /\
                 exists k, In k ds /\ flag_at (all_params t) k = true.
Proof.
  intros t rs t'' H. destruct (grad_expand_inv _ _ _ H) as (t' & Hd & Ho & Hm & Ht).
  assert (Hall : all_params t'' = all_params t') by (unfold all_params, allp; now rewrite Ho, Hm).
  assert (Htr : consistent t'').
  { intros j. unfold trainable. rewrite Ht, sort_set_in, Hall. apply flagged_flag_at. }
  split; [exact Htr|]. intros j. rewrite (Htr j), Hall.
  pose proof (deps_flag _ _ _ (decompose_deps _ _ _ Hd)) as F. split.
  - intros [Hj Hf]. rewrite <- (Z2Nat.id j Hj) in Hf. apply F in Hf. destruct Hf as (ds & Hds & Hk).
    exists (Z.to_nat j), ds. repeat split; [lia | assumption | assumption].
  - intros (n & ds & -> & Hds). split; [lia|]. apply F. eauto.
Qed.

Corollary grad_expand_trainable_pos : forall t rs t'', consistent t -> grad_expand t rs = XNew t'' ->
  forall j, In j (trainable t'') <->
    exists n ds, j = Z.of_nat n /\ nth_error (deps t rs) n = Some ds /\ exists k, In k ds /\ 0 <= k /\ In k (trainable t).
Proof.
  intros t rs t'' Hc H j. rewrite (proj2 (grad_expand_trainable _ _ _ H) j).
  split; intros (n & ds & E & Hds & k & Hk & Hf); exists n, ds; repeat split; try assumption; exists k.
  - pose proof (flag_at_nonneg _ _ Hf). repeat split; try assumption. apply Hc. auto.
  - destruct Hf as [Hk0 Hin]. split; [assumption|]. now apply Hc.
Qed.
