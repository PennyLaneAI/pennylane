(* Proofs about Disc/RebindModel.v (data leaves, flatten/unflatten, bind_new_parameters).
   bind_aux consumes a prefix of the parameter list and returns the remainder, so every lemma about it
   is stated for `own leaves ++ rest`; `bind` is the case rest = [].  Three facts carry everything:
   feeding an operator (or its erasure) its own leaves rebuilds it (bind_aux_id, bind_aux_erase); a
   successful bind consumed exactly the leaves of its result and kept the erasure (bind_aux_sound); a
   prefix of the right shapes is always accepted (bind_aux_complete).  Erasure keeps shapes, which
   links the last two into the guard (bind_guard).  Induction is op_ind2 of Disc/EqualProofs.v. *)
From Coq Require Import List ZArith QArith Bool Lia Arith.
From PLV Require Import Disc.EqualModel Disc.EqualProofs Disc.RebindModel.
Import ListNotations.

Definition shape (l : list leaf) : list nat := map (@length Q) l.

Lemma same_len_true : forall p q, length p = length q -> same_len p q = true.
Proof. intros. unfold same_len. rewrite H. apply Nat.eqb_refl. Qed.

Lemma zero_leaf_length : forall p, length (zero_leaf p) = length p.
Proof. intros. unfold zero_leaf. apply map_length. Qed.

Lemma zero_leaf_same_len : forall p q, length p = length q -> zero_leaf p = zero_leaf q.
Proof. unfold zero_leaf. induction p; destruct q; simpl; intro H; try discriminate; auto. f_equal. auto. Qed.

Lemma shape_app : forall a b, shape (a ++ b) = shape a ++ shape b.
Proof. intros. apply map_app. Qed.

Lemma shape_zero : forall ps, shape (map zero_leaf ps) = shape ps.
Proof. intros. unfold shape. rewrite map_map. apply map_ext. intros. apply zero_leaf_length. Qed.

Lemma zero_same_shape : forall ps qs, shape ps = shape qs -> map zero_leaf ps = map zero_leaf qs.
Proof.
  induction ps; destruct qs; simpl; intro H; try discriminate; auto.
  injection H as Hl Hs. f_equal; auto using zero_leaf_same_len.
Qed.

Lemma take_leaves_app : forall old pre rest, shape pre = shape old -> take_leaves old (pre ++ rest) = Some (pre, rest).
Proof.
  induction old; destruct pre; simpl; intros; try discriminate; auto.
  injection H; intros Hs Hl. rewrite same_len_true by auto. rewrite IHold by auto. reflexivity.
Qed.

Lemma take_leaves_spec : forall old ps t rest, take_leaves old ps = Some (t, rest) -> ps = t ++ rest /\ shape t = shape old.
Proof.
  induction old; simpl; intros.
  - inversion H; subst. auto.
  - destruct ps; try discriminate. destruct (same_len a l) eqn:E; try discriminate.
    destruct (take_leaves old ps) as [[t' r']|] eqn:T; try discriminate. inversion H; subst.
    apply IHold in T. destruct T as [-> S]. split; auto. simpl. f_equal; auto.
    unfold same_len in E. apply Nat.eqb_eq in E. auto.
Qed.

(* The operand lists are handled for an arbitrary element binder f, so that each lemma applies to the
   closure `fun x qs => bind_aux x qs` that the Comp case of bind_aux passes to bind_list. *)
Lemma bind_list_map : forall f (g : op -> op) ops ps,
  bind_list f (map (fun o : Z * list Z * op => (fst o, g (snd o))) ops) ps = bind_list (fun x => f (g x)) ops ps.
Proof.
  induction ops; simpl; intros; auto.
  destruct (f (g (snd a)) ps) as [[x' ps']|]; auto. rewrite IHops. reflexivity.
Qed.

Lemma bind_list_id : forall f ops rest,
  Forall (fun o => forall rest, f (snd o) (params_of (snd o) ++ rest) = Some (snd o, rest)) ops ->
  bind_list f ops (flat_map (fun o : Z * list Z * op => params_of (snd o)) ops ++ rest) = Some (ops, rest).
Proof.
  induction ops; simpl; intros; auto. inversion H; subst.
  rewrite <- app_assoc, H2, IHops by auto. destruct a as [[k w] x]. reflexivity.
Qed.

Lemma bind_aux_id : forall a rest, bind_aux a (params_of a ++ rest) = Some (a, rest).
Proof.
  induction a using op_ind2; intros; cbn [bind_aux params_of].
  2-6: simpl; rewrite IHa; reflexivity.
  - rewrite take_leaves_app by reflexivity. reflexivity.
  - rewrite bind_list_id by exact H. reflexivity.
Qed.

Lemma bind_aux_erase : forall a rest, bind_aux (erase a) (params_of a ++ rest) = Some (a, rest).
Proof.
  induction a using op_ind2; intros; cbn [bind_aux params_of erase].
  2-6: simpl; rewrite IHa; reflexivity.
  - rewrite take_leaves_app by (symmetry; apply shape_zero). reflexivity.
  - rewrite bind_list_map, bind_list_id by exact H. reflexivity.
Qed.

Lemma bind_same : forall a, bind a (params_of a) = Some a.
Proof. intros. unfold bind. rewrite <- (app_nil_r (params_of a)). rewrite bind_aux_id. reflexivity. Qed.

Lemma unflatten_flatten_op : forall a, unflatten (flatten a) = Some a.
Proof.
  intros. unfold unflatten, flatten, bind. simpl. rewrite <- (app_nil_r (params_of a)).
  rewrite bind_aux_erase. reflexivity.
Qed.

Lemma round_trip_item : forall a, round_trip_model a = Some a.
Proof.
  intros [x | [k o w e u v]]; simpl.
  - rewrite unflatten_flatten_op. reflexivity.
  - destruct o as [a|]; simpl.
    + rewrite bind_aux_erase. destruct e as [x|]; simpl; auto.
      rewrite same_len_true by apply zero_leaf_length. reflexivity.
    + destruct e as [x|]; simpl; auto. rewrite same_len_true by apply zero_leaf_length. reflexivity.
Qed.

Lemma bind_list_sound : forall f ops,
  Forall (fun o => forall ps a' rest, f (snd o) ps = Some (a', rest) ->
                   ps = params_of a' ++ rest /\ erase a' = erase (snd o)) ops ->
  forall ps ops' rest, bind_list f ops ps = Some (ops', rest) ->
  ps = flat_map (fun o : Z * list Z * op => params_of (snd o)) ops' ++ rest /\
  map (fun o : Z * list Z * op => (fst o, erase (snd o))) ops' =
  map (fun o : Z * list Z * op => (fst o, erase (snd o))) ops.
Proof.
  induction ops; simpl; intros.
  - inversion H0; subst. auto.
  - inversion H; subst.
    destruct (f (snd a) ps) as [[x' ps']|] eqn:B; try discriminate.
    destruct (bind_list f ops ps') as [[r' rest']|] eqn:L; try discriminate.
    inversion H0; subst. apply H3 in B. destruct B as [-> Ee].
    apply (IHops H4) in L. destruct L as [-> Em]. simpl.
    rewrite app_assoc, Ee, Em. auto.
Qed.

Lemma bind_aux_sound : forall a ps a' rest, bind_aux a ps = Some (a', rest) ->
  ps = params_of a' ++ rest /\ erase a' = erase a.
Proof.
  induction a using op_ind2; intros qs a' rest B; cbn [bind_aux] in B.
  (* SProdO and ExpO first take their one-element leaf; then all five wrappers rebuild around the base *)
  5-6: destruct qs as [|[|x [|]] qs']; simpl in B; try discriminate.
  2-6: destruct (bind_aux a _) as [[b' r]|] eqn:E; try discriminate; inversion B; subst;
       apply IHa in E; destruct E as [-> Ee]; simpl; rewrite Ee; auto.
  - destruct (take_leaves ps qs) as [[t r]|] eqn:T; try discriminate. inversion B; subst.
    apply take_leaves_spec in T. destruct T as [-> S]. split; auto. simpl. f_equal.
    apply zero_same_shape, S.
  - destruct (bind_list _ ops qs) as [[ops' r]|] eqn:L; try discriminate. inversion B; subst.
    apply (bind_list_sound _ ops H) in L. destruct L as [-> Em]. split; auto.
    simpl. f_equal. exact Em.
Qed.

Lemma bind_sound : forall a ps a', bind a ps = Some a' -> params_of a' = ps /\ erase a' = erase a.
Proof.
  intros a ps a' B. unfold bind in B. destruct (bind_aux a ps) as [[x r]|] eqn:E; try discriminate.
  destruct r; try discriminate. inversion B; subst. apply bind_aux_sound in E. destruct E as [-> Ee].
  rewrite app_nil_r. auto.
Qed.

Lemma shape_params_erase : forall a, shape (params_of (erase a)) = shape (params_of a).
Proof.
  induction a using op_ind2; simpl; auto.
  2-3: unfold shape in *; simpl; f_equal; auto.
  - apply shape_zero.
  - induction ops; simpl; auto. inversion H; subst. rewrite !shape_app. f_equal; auto.
Qed.

Lemma bind_list_complete : forall f ops,
  Forall (fun o => forall pre rest, shape pre = shape (params_of (snd o)) ->
                   exists a', f (snd o) (pre ++ rest) = Some (a', rest)) ops ->
  forall pre rest, shape pre = shape (flat_map (fun o : Z * list Z * op => params_of (snd o)) ops) ->
  exists ops', bind_list f ops (pre ++ rest) = Some (ops', rest).
Proof.
  induction ops; simpl; intros.
  - destruct pre; try discriminate. simpl. eauto.
  - inversion H; subst. rewrite shape_app in H0. unfold shape in H0 at 1. apply map_eq_app in H0.
    destruct H0 as [p1 [p2 [-> [S1 S2]]]]. rewrite <- app_assoc.
    unfold leaf in *. destruct (H3 p1 (p2 ++ rest) S1) as [a' ->].
    destruct (IHops H4 p2 rest S2) as [r' ->]. eauto.
Qed.

Lemma bind_aux_complete : forall a pre rest, shape pre = shape (params_of a) ->
  exists a', bind_aux a (pre ++ rest) = Some (a', rest).
Proof.
  induction a using op_ind2; intros pre rest S; cbn [bind_aux]; cbn [params_of] in S.
  5-6: destruct pre as [|[|x [|]] pre']; simpl in S; try discriminate; injection S as S; simpl.
  2-6: destruct (IHa _ rest S) as [b' ->]; eauto.
  - rewrite take_leaves_app by auto. eauto.
  - destruct (bind_list_complete (fun x qs => bind_aux x qs) ops H pre rest S) as [ops' ->]. eauto.
Qed.

Lemma bind_guard : forall a ps, bind a ps <> None <-> shape ps = shape (params_of a).
Proof.
  intros. split.
  - intro N. destruct (bind a ps) as [a'|] eqn:B; try congruence.
    apply bind_sound in B. destruct B as [<- E].
    rewrite <- (shape_params_erase a'), E. apply shape_params_erase.
  - intro S. destruct (bind_aux_complete a ps [] S) as [a' B]. unfold bind.
    rewrite app_nil_r in B. rewrite B. discriminate.
Qed.
