(* C20: proofs about Disc/SplitModel.v.

   The dictionary built by the split stores, per single-term key, the (measurement index, coefficient)
   pairs in the order the terms were met; the post-processing turns it into a list of pushes
   (index, coefficient, value).  Up to permutation that list is the concatenation, measurement by
   measurement, of `contribs E i m` (pushesE_add, split_one_spec), and a measurement's value is a
   sum over its bucket, so the order of the pushes does not matter (sum_terms_perm).  reasm_main
   reads off bucket i0: earlier measurements have smaller indices, later ones larger, what is left is
   contribs E i0 m, whose weighted sum plus offset is evalm E m.  Grouping only changes the order in
   which the dictionary entries are visited, hence grouped_same from the same permutation argument. *)
From Coq Require Import List ZArith QArith Bool Lia Permutation Setoid Morphisms.
From PLV Require Import Alg.ListFacts Disc.SplitModel.
Import ListNotations.
Arguments entry_pushes : simpl never.

Lemma word_eqb_eq : forall a b, word_eqb a b = true -> a = b.
Proof.
  induction a as [|[w l] a IH]; destruct b as [|[w' l'] b]; cbn; intros H; try discriminate; auto.
  apply andb_prop in H as [H H3]. apply andb_prop in H as [H1 H2].
  apply Z.eqb_eq in H1, H2. subst. f_equal. auto.
Qed.

Lemma key_eqb_eq : forall a b, key_eqb a b = true -> a = b.
Proof.
  intros [[[k n] dn] w] [[[k' n'] dn'] w']; cbn; intros H.
  apply andb_prop in H as [H H4]. apply andb_prop in H as [H H3]. apply andb_prop in H as [H1 H2].
  apply Z.eqb_eq in H1, H2, H3. apply word_eqb_eq in H4. subst. reflexivity.
Qed.

Definition pushesE (E : key -> Q) (d : dict) : list push :=
  flat_map (fun e => entry_pushes (snd e) (E (fst e))) d.

Lemma pushes_nogroup_map : forall E d, pushes_nogroup d (map E (keys d)) = Some (pushesE E d).
Proof.
  induction d as [|[k l] d IH]; cbn; auto.
  unfold keys in IH. rewrite IH. reflexivity.
Qed.

Lemma entry_pushes_app : forall l l' v, entry_pushes (l ++ l') v = entry_pushes l v ++ entry_pushes l' v.
Proof. intros. unfold entry_pushes. apply map_app. Qed.

Lemma pushesE_add : forall E d k i c,
  Permutation (pushesE E (dict_add d k i c)) (pushesE E d ++ [(i, c, E k)]).
Proof.
  induction d as [|[k' l] d IH]; intros k i c; cbn.
  - apply Permutation_refl.
  - destruct (key_eqb k k') eqn:Hk; cbn.
    + apply key_eqb_eq in Hk. subst k'. rewrite entry_pushes_app. cbn.
      rewrite <- !app_assoc. apply Permutation_app_head.
      cbn. apply Permutation_cons_append.
    + rewrite <- app_assoc. apply Permutation_app_head. apply IH.
Qed.

(* what measurement number i adds to the push list (term_contribs, contribs) and to its offset
   (term_offset, offset_of) *)
Fixpoint term_contribs (E : key -> Q) (i : nat) (ts : list term) : list push :=
  match ts with
  | [] => []
  | (c, isI, w) :: r => if isI then term_contribs E i r else (i, c, E (exp_key w)) :: term_contribs E i r
  end.

Fixpoint term_offset (ts : list term) : Q :=
  match ts with
  | [] => 0
  | (c, isI, w) :: r => (if isI then c else 0) + term_offset r
  end.

Definition contribs (E : key -> Q) (i : nat) (m : meas) : list push :=
  match m with
  | MComp kind ts _ k => if Z.eqb kind 0 then term_contribs E i ts else [(i, 1, E k)]
  | MIdent kind k => if Z.eqb kind 0 then [] else [(i, 1, E k)]
  | MOther _ k => [(i, 1, E k)]
  end.

Definition offset_of (m : meas) : Q :=
  match m with
  | MComp kind ts _ _ => if Z.eqb kind 0 then term_offset ts else 0
  | MIdent kind _ => if Z.eqb kind 0 then 1 else 0
  | MOther _ _ => 0
  end.

Lemma split_terms_spec : forall E ts d off i d' off',
  split_terms d off i ts = (d', off') ->
  Permutation (pushesE E d') (pushesE E d ++ term_contribs E i ts) /\ off' == off + term_offset ts.
Proof.
  induction ts as [|[[c isI] w] ts IH]; intros d off i d' off' H; cbn in H.
  - inversion H; subst. cbn. rewrite app_nil_r. split; [apply Permutation_refl | ring].
  - destruct isI.
    + apply IH in H as [H1 H2]. cbn. split; auto. rewrite H2. ring.
    + apply IH in H as [H1 H2]. cbn. split.
      * eapply Permutation_trans; [exact H1|].
        eapply Permutation_trans; [apply Permutation_app_tail; apply pushesE_add|].
        rewrite <- app_assoc. apply Permutation_refl.
      * rewrite H2. ring.
Qed.

Lemma split_one_spec : forall E d i m d' off,
  split_one d i m = Some (d', off) ->
  Permutation (pushesE E d') (pushesE E d ++ contribs E i m) /\ off == offset_of m.
Proof.
  intros E d i m d' off H. destruct m as [kind ts simp k|kind k|kind k]; cbn in H; cbn.
  - destruct (Z.eqb kind 0) eqn:Hk.
    + inversion H as [H']. apply (split_terms_spec E) in H' as [H1 H2]. split; auto. rewrite H2. ring.
    + destruct simp; [discriminate|]. inversion H; subst. split; [apply pushesE_add | reflexivity].
  - destruct (Z.eqb kind 0) eqn:Hk; inversion H; subst.
    + rewrite app_nil_r. split; [apply Permutation_refl | ring].
    + split; [apply pushesE_add | reflexivity].
  - inversion H; subst. split; [apply pushesE_add | reflexivity].
Qed.

Definition pidx (p : push) : nat := fst (fst p).
Definition pcr (p : push) : Q * Q := (snd (fst p), snd p).

Lemma term_contribs_idx : forall E i ts p, In p (term_contribs E i ts) -> pidx p = i.
Proof.
  induction ts as [|[[c isI] w] ts IH]; cbn; intros p H; [contradiction|].
  destruct isI; auto. destruct H as [H|H]; auto. subst. reflexivity.
Qed.

Lemma contribs_idx : forall E i m p, In p (contribs E i m) -> pidx p = i.
Proof.
  intros E i m p H. destruct m as [kind ts simp k|kind k|kind k]; cbn in H.
  - destruct (Z.eqb kind 0); [eapply term_contribs_idx; eauto|].
    destruct H as [H|[]]; subst; reflexivity.
  - destruct (Z.eqb kind 0); [contradiction|]. destruct H as [H|[]]; subst; reflexivity.
  - destruct H as [H|[]]; subst; reflexivity.
Qed.

Lemma term_contribs_value : forall E i ts,
  dotsum (map pcr (term_contribs E i ts)) + term_offset ts == eval_terms E ts.
Proof.
  induction ts as [|[[c isI] w] ts IH]; cbn; [ring|].
  destruct isI; cbn; rewrite <- IH; unfold pcr; cbn; ring.
Qed.

Lemma contribs_value : forall E i m,
  dotsum (map pcr (contribs E i m)) + offset_of m == evalm E m.
Proof.
  intros E i m. destruct m as [kind ts simp k|kind k|kind k]; cbn.
  - destruct (Z.eqb kind 0); [apply term_contribs_value | cbn; ring].
  - destruct (Z.eqb kind 0); cbn; ring.
  - ring.
Qed.

Lemma bucket_eq : forall j ps, bucket j ps = map pcr (filter (fun p => Nat.eqb (pidx p) j) ps).
Proof. reflexivity. Qed.

Lemma bucket_app : forall j a b, bucket j (a ++ b) = bucket j a ++ bucket j b.
Proof. intros. unfold bucket. rewrite filter_app, map_app. reflexivity. Qed.

Lemma bucket_perm : forall j a b, Permutation a b -> Permutation (bucket j a) (bucket j b).
Proof.
  intros j a b H. rewrite !bucket_eq. apply Permutation_map.
  induction H; cbn.
  - constructor.
  - destruct (Nat.eqb (pidx x) j); [constructor|]; auto.
  - destruct (Nat.eqb (pidx x) j), (Nat.eqb (pidx y) j); try apply Permutation_refl. constructor.
  - eapply Permutation_trans; eauto.
Qed.

Lemma bucket_all : forall j l, (forall p, In p l -> pidx p = j) -> bucket j l = map pcr l.
Proof.
  intros j l H. rewrite bucket_eq. f_equal.
  induction l as [|p l IH]; cbn; auto.
  rewrite (H p (or_introl eq_refl)), Nat.eqb_refl. f_equal. apply IH. intros; apply H; right; auto.
Qed.

Lemma bucket_none : forall j l, (forall p, In p l -> pidx p <> j) -> bucket j l = [].
Proof.
  intros j l H. rewrite bucket_eq.
  induction l as [|p l IH]; cbn; auto.
  destruct (Nat.eqb (pidx p) j) eqn:Hp.
  - apply Nat.eqb_eq in Hp. exfalso. apply (H p); auto. left; auto.
  - apply IH. intros; apply H; right; auto.
Qed.

Lemma dotsum_app : forall a b, dotsum (a ++ b) == dotsum a + dotsum b.
Proof. induction a as [|[c r] a IH]; intros b; cbn; [ring|]. rewrite IH. ring. Qed.

Lemma dotsum_perm : forall a b, Permutation a b -> dotsum a == dotsum b.
Proof.
  intros a b H. induction H.
  - reflexivity.
  - destruct x as [c r]; cbn. rewrite IHPermutation. reflexivity.
  - destruct x as [c r], y as [c' r']; cbn. ring.
  - etransitivity; eauto.
Qed.

Lemma sum_terms_eq : forall cr off, sum_terms cr off == dotsum cr + off.
Proof.
  intros cr off. destruct cr as [|[c r] [|p t]]; cbn.
  - ring.
  - destruct (Qeq_bool c 1 && Qeq_bool off 0) eqn:Hs; [|reflexivity].
    apply andb_prop in Hs as [H1 H2]. apply Qeq_bool_eq in H1, H2. rewrite H1, H2. ring.
  - reflexivity.
Qed.

Lemma sum_terms_perm : forall cr cr' off off', Permutation cr cr' -> off == off' ->
  sum_terms cr off == sum_terms cr' off'.
Proof. intros. rewrite !sum_terms_eq. rewrite (dotsum_perm _ _ H), H0. reflexivity. Qed.

Lemma reasm_perm : forall ps ps' offs j, Permutation ps ps' ->
  Forall2 Qeq (reasm ps j offs) (reasm ps' j offs).
Proof.
  intros ps ps' offs. induction offs as [|off offs IH]; intros j H; cbn; constructor.
  - apply sum_terms_perm; [apply bucket_perm; auto | reflexivity].
  - apply IH; auto.
Qed.

Lemma split_all_rest : forall E ms d0 i0 d offs,
  split_all d0 i0 ms = Some (d, offs) ->
  exists rest, Permutation (pushesE E d) (pushesE E d0 ++ rest) /\ (forall p, In p rest -> (i0 <= pidx p)%nat).
Proof.
  induction ms as [|m ms IH]; intros d0 i0 d offs H; cbn in H.
  - inversion H; subst. exists []. rewrite app_nil_r. split; [apply Permutation_refl | intros p []].
  - destruct (split_one d0 i0 m) as [[d1 off]|] eqn:H1; [|discriminate].
    destruct (split_all d1 (S i0) ms) as [[d2 offs']|] eqn:H2; [|discriminate].
    inversion H; subst. apply (split_one_spec E) in H1 as [P1 _].
    apply IH in H2 as [rest [P2 Hr]].
    exists (contribs E i0 m ++ rest). split.
    + eapply Permutation_trans; [exact P2|]. rewrite app_assoc. apply Permutation_app_tail. exact P1.
    + intros p Hp. apply in_app_or in Hp as [Hp|Hp].
      * apply contribs_idx in Hp. lia.
      * apply Hr in Hp. lia.
Qed.

Lemma reasm_main : forall E ms d0 i0 d offs ps,
  split_all d0 i0 ms = Some (d, offs) ->
  (forall p, In p (pushesE E d0) -> (pidx p < i0)%nat) ->
  Permutation ps (pushesE E d) ->
  Forall2 Qeq (reasm ps i0 offs) (map (evalm E) ms).
Proof.
  induction ms as [|m ms IH]; intros d0 i0 d offs ps H Hlt Hp; cbn in H.
  - inversion H; subst. cbn. constructor.
  - destruct (split_one d0 i0 m) as [[d1 off]|] eqn:H1; [|discriminate].
    destruct (split_all d1 (S i0) ms) as [[d2 offs']|] eqn:H2; [|discriminate].
    inversion H; subst. clear H.
    pose proof (split_one_spec E _ _ _ _ _ H1) as [P1 Hoff].
    pose proof (split_all_rest E _ _ _ _ _ H2) as [rest [P2 Hr]].
    cbn. constructor.
    + (* the entry of measurement i0 *)
      assert (HP : Permutation ps ((pushesE E d0 ++ contribs E i0 m) ++ rest)).
      { eapply Permutation_trans; [exact Hp|]. eapply Permutation_trans; [exact P2|].
        apply Permutation_app_tail. exact P1. }
      rewrite (sum_terms_perm _ _ _ _ (bucket_perm i0 _ _ HP) Hoff).
      rewrite !bucket_app.
      rewrite (bucket_none i0 (pushesE E d0)) by (intros p Hin; apply Hlt in Hin; lia).
      rewrite (bucket_none i0 rest) by (intros p Hin; apply Hr in Hin; lia).
      rewrite (bucket_all i0 (contribs E i0 m)) by (intros p Hin; eapply contribs_idx; eauto).
      cbn. rewrite app_nil_r. rewrite sum_terms_eq. apply contribs_value.
    + eapply IH; [exact H2| |exact Hp].
      intros p Hin. eapply Permutation_in in Hin; [|exact P1].
      apply in_app_or in Hin as [Hin|Hin]; [apply Hlt in Hin; lia|].
      apply contribs_idx in Hin. lia.
Qed.

Lemma split_reassemble_linear_lemma : forall (E : key -> Q) ms d offs,
  split_all [] 0 ms = Some (d, offs) ->
  exists vals, reassemble_nogroup d (map E (keys d)) offs = Some vals /\
               Forall2 Qeq vals (map (evalm E) ms).
Proof.
  intros E ms d offs H. unfold reassemble_nogroup. rewrite pushes_nogroup_map.
  eexists; split; [reflexivity|].
  eapply reasm_main; [exact H| intros p [] | apply Permutation_refl].
Qed.

Lemma split_one_none : forall d i m, split_one d i m = None <-> rejected m = true.
Proof.
  intros d i m. destruct m as [kind ts simp k|kind k|kind k]; cbn.
  - destruct (Z.eqb kind 0); cbn; [split; discriminate|]. destruct simp; split; auto; discriminate.
  - destruct (Z.eqb kind 0); split; discriminate.
  - split; discriminate.
Qed.

Lemma rejects_nonlinear_lemma : forall ms d i, split_all d i ms = None <-> existsb rejected ms = true.
Proof.
  induction ms as [|m ms IH]; intros d i; cbn.
  - split; discriminate.
  - destruct (split_one d i m) as [[d1 off]|] eqn:H1.
    + assert (Hr : rejected m = false).
      { destruct (rejected m) eqn:Hr; auto. apply (split_one_none d i) in Hr. congruence. }
      rewrite Hr. cbn. rewrite <- (IH d1 (S i)).
      destruct (split_all d1 (S i) ms) as [[d2 offs]|]; split; auto; discriminate.
    + apply split_one_none in H1. rewrite H1. cbn. split; auto.
Qed.

(* non-expval measurements that are accepted are passed through whole, with coefficient 1 and no offset *)
Lemma passthrough_lemma : forall d i m d' off kind,
  (match m with MComp k _ _ _ => k | MIdent k _ => k | MOther k _ => k end) = kind ->
  Z.eqb kind 0 = false ->
  split_one d i m = Some (d', off) ->
  d' = dict_add d (match m with MComp _ _ _ k => k | MIdent _ k => k | MOther _ k => k end) i 1 /\ off = 0.
Proof.
  intros d i m d' off kind Hk Hz H. destruct m as [kd ts simp k|kd k|kd k]; cbn in *; subst kd; rewrite ?Hz in H.
  - destruct simp; [discriminate|]. inversion H; auto.
  - inversion H; auto.
  - inversion H; auto.
Qed.

Definition idx_pushes (E : key -> Q) (d : dict) (x : nat) : list push :=
  match nth_error d x with Some (k, l) => entry_pushes l (E k) | None => [] end.

Lemma mk_gres_GT : forall l, length l <> 1%nat -> mk_gres l = GT l.
Proof. intros [|a [|b t]] H; cbn in *; auto. congruence. Qed.

Lemma glookup_exec : forall E d ig g idxs j x k l,
  nth_error ig g = Some idxs -> nth_error idxs j = Some x -> nth_error d x = Some (k, l) ->
  glookup (exec_groups E (group_keys d ig)) (map (@length nat) ig) g j = Some (E k).
Proof.
  intros E d ig g idxs j x k l Hg Hj Hx. unfold glookup, exec_groups, group_keys.
  rewrite !nth_error_map, Hg. cbn.
  assert (Hk : key_at d x = k) by (unfold key_at; rewrite Hx; reflexivity).
  destruct (Nat.eqb (length idxs) 1) eqn:Hl.
  - apply Nat.eqb_eq in Hl. destruct idxs as [|a [|b t]]; cbn in Hl; try discriminate.
    destruct j as [|j]; cbn in Hj; [|destruct j; discriminate]. inversion Hj; subst. cbn. reflexivity.
  - apply Nat.eqb_neq in Hl. rewrite mk_gres_GT by (rewrite !map_length; auto).
    rewrite !nth_error_map, Hj. cbn. rewrite Hk. reflexivity.
Qed.

Lemma pushes_grouped_group : forall E d ig g idxs, nth_error ig g = Some idxs ->
  forall s p tail pt, idxs = p ++ s ->
  pushes_grouped (exec_groups E (group_keys d ig)) (map (@length nat) ig) tail = Some pt ->
  pushes_grouped (exec_groups E (group_keys d ig)) (map (@length nat) ig) (ge_group d g (length p) s ++ tail)
  = Some (flat_map (idx_pushes E d) s ++ pt).
Proof.
  intros E d ig g idxs Hg. induction s as [|x s IH]; intros p tail pt Hi Ht; cbn; auto.
  assert (Hi' : idxs = (p ++ [x]) ++ s) by (rewrite <- app_assoc; exact Hi).
  specialize (IH (p ++ [x]) tail pt Hi' Ht). rewrite app_length in IH. cbn in IH.
  replace (length p + 1)%nat with (S (length p)) in IH by lia.
  unfold idx_pushes at 1. destruct (nth_error d x) as [[k l]|] eqn:Hx.
  - cbn. rewrite (glookup_exec E d ig g idxs (length p) x k l Hg); auto.
    + rewrite IH. rewrite <- app_assoc. reflexivity.
    + rewrite Hi. rewrite nth_error_app2 by lia. rewrite Nat.sub_diag. reflexivity.
  - cbn. exact IH.
Qed.

Lemma pushes_grouped_all : forall E d ig suf pre, ig = pre ++ suf ->
  pushes_grouped (exec_groups E (group_keys d ig)) (map (@length nat) ig) (ge_all d (length pre) suf)
  = Some (flat_map (idx_pushes E d) (concat suf)).
Proof.
  intros E d ig. induction suf as [|idxs suf IH]; intros pre Hi; cbn; auto.
  assert (Hi' : ig = (pre ++ [idxs]) ++ suf) by (rewrite <- app_assoc; exact Hi).
  specialize (IH (pre ++ [idxs]) Hi'). rewrite app_length in IH. cbn in IH.
  replace (length pre + 1)%nat with (S (length pre)) in IH by lia.
  rewrite flat_map_app.
  apply (pushes_grouped_group E d ig (length pre) idxs) with (p := []); auto.
  rewrite Hi. rewrite nth_error_app2 by lia. rewrite Nat.sub_diag. reflexivity.
Qed.

Lemma flat_map_idx_seq : forall E d pre,
  flat_map (idx_pushes E (pre ++ d)) (seq (length pre) (length d)) = pushesE E d.
Proof.
  intros E. induction d as [|[k l] d IH]; intros pre; cbn; auto.
  unfold idx_pushes at 1. rewrite nth_error_app2 by lia. rewrite Nat.sub_diag. cbn.
  f_equal. specialize (IH (pre ++ [(k, l)])). rewrite <- app_assoc in IH. cbn in IH.
  rewrite app_length in IH. cbn in IH. replace (length pre + 1)%nat with (S (length pre)) in IH by lia.
  exact IH.
Qed.

Lemma grouped_same_lemma : forall (E : key -> Q) d ig offs,
  Permutation (concat ig) (seq 0 (length d)) ->
  exists v v',
    reassemble_grouped (ge_all d 0 ig) (exec_groups E (group_keys d ig)) (map (@length nat) ig) offs = Some v /\
    reassemble_nogroup d (map E (keys d)) offs = Some v' /\
    Forall2 Qeq v v'.
Proof.
  intros E d ig offs HP. unfold reassemble_grouped, reassemble_nogroup.
  pose proof (pushes_grouped_all E d ig ig [] eq_refl) as HG. cbn [length] in HG.
  rewrite HG. rewrite pushes_nogroup_map.
  do 2 eexists. split; [reflexivity|]. split; [reflexivity|].
  apply reasm_perm.
  rewrite HP, <- (flat_map_idx_seq E d []). apply Permutation_refl.
Qed.

Lemma count_pos_in : forall x l, count_nat x l = 1%nat -> In x l.
Proof.
  intros x l H. unfold count_nat in H.
  destruct (filter (Nat.eqb x) l) as [|y t] eqn:Hf; cbn in H; [discriminate|].
  assert (Hin : In y (filter (Nat.eqb x) l)) by (rewrite Hf; left; auto).
  apply filter_In in Hin as [Hin Hxy]. apply Nat.eqb_eq in Hxy. subst; auto.
Qed.

(* the executable partition test used in the correspondence implies the permutation hypothesis *)
Lemma is_partition_perm : forall ig n, is_partition ig n = true -> Permutation (concat ig) (seq 0 n).
Proof.
  intros ig n H. unfold is_partition in H. apply andb_prop in H as [Hl Hc].
  apply Nat.eqb_eq in Hl. rewrite forallb_forall in Hc.
  apply Permutation_sym. apply NoDup_Permutation_bis.
  - apply seq_NoDup.
  - rewrite seq_length. lia.
  - intros x Hx. apply count_pos_in. apply Nat.eqb_eq. apply Hc. exact Hx.
Qed.

Lemma repeat_map_seq : forall {A} (a : A) n s, repeat a n = map (fun _ => a) (seq s n).
Proof. induction n; intros s; cbn; auto. f_equal; auto. Qed.

Lemma append_op_spec : forall done o B,
  append_op (map (fun b => map (slice_op b) done) (seq 0 B)) o
  = map (fun b => map (slice_op b) (done ++ [o])) (seq 0 B).
Proof.
  intros done o B. unfold append_op. rewrite map_length, seq_length.
  rewrite combine_map_r, map_map. apply map_ext. intros b. cbn. rewrite map_app. reflexivity.
Qed.

Lemma fold_append_spec : forall ops done B,
  fold_left append_op ops (map (fun b => map (slice_op b) done) (seq 0 B))
  = map (fun b => map (slice_op b) (done ++ ops)) (seq 0 B).
Proof.
  induction ops as [|o ops IH]; intros done B; cbn.
  - rewrite app_nil_r. reflexivity.
  - rewrite append_op_spec, IH, <- app_assoc. reflexivity.
Qed.

Lemma split_operations_spec : forall ops B,
  split_operations ops B = map (fun b => map (slice_op b) ops) (seq 0 B).
Proof.
  intros ops B. unfold split_operations. rewrite (repeat_map_seq (@nil sop) B 0).
  exact (fold_append_spec ops [] B).
Qed.

Lemma broadcast_roundtrip_lemma : forall {R} (def : R) (run : list sop -> list R) ops B nmeas,
  restack def nmeas (map run (split_operations ops B))
  = map (fun m => map (fun b => nth m (run (map (slice_op b) ops)) def) (seq 0 B)) (seq 0 nmeas).
Proof.
  intros R def run ops B nmeas. unfold restack. rewrite split_operations_spec.
  apply map_ext. intros m. rewrite !map_map. reflexivity.
Qed.
