(* C65  Lemmas about the executor dispatch model (Disc/ExecutorModel.v).

   Two facts carry everything.  pool_eval_spec: a pool whose completion order reaches every task
   index returns `collect (map run tasks)`, so [perm] disappears from every later statement.
   zipn_zipn: transposing a non-empty rectangular table twice gives it back, which is what the
   starmap fallback (zip the rows, map over the columns) relies on.
   submit_spec_gen, map_spec_gen and starmap_spec_gen are stated for an arbitrary [variant] q, with the
   decisions of q that the proof needs as hypotheses; the lemmas named after [pinned], [fixed_map] and
   [fixed_all] put the variant in and discharge those hypotheses.  The witnesses at the end are the
   inputs on which [pinned] differs from the builtins. *)
From Coq Require Import List ZArith Bool Arith Lia Permutation.
From PLV Require Import Alg.ListFacts Disc.ExecutorModel.
Import ListNotations.
Open Scope Z_scope.

Lemma map_seq_nth {A B} (g : A -> B) (d : A) (l : list A) :
  map (fun i => g (nth i l d)) (seq 0 (length l)) = map g l.
Proof.
  induction l as [|a l IH]; simpl; [reflexivity|].
  f_equal. rewrite <- seq_shift, map_map. exact IH.
Qed.

Lemma map_seq_nth_error {T A} (run : T -> option A) (l : list T) :
  forall h : nat -> option A,
  (forall i t, nth_error l i = Some t -> h i = run t) -> map h (seq 0 (length l)) = map run l.
Proof.
  induction l as [|a l IH]; simpl; intros h H; [reflexivity|].
  f_equal; [apply (H 0%nat); reflexivity|].
  rewrite <- seq_shift, map_map. apply IH. intros i t Hi. apply (H (S i)). exact Hi.
Qed.

Lemma assoc_log {T A} (run : T -> option A) (tasks : list T) (perm : list nat) (i : nat) (t : T) :
  In i perm -> nth_error tasks i = Some t ->
  assoc i (flat_map (fun j => match nth_error tasks j with
                              | Some t => [(j, run t)] | None => [] end) perm) = Some (run t).
Proof.
  induction perm as [|a perm IH]; simpl; intros Hin Ht; [contradiction|].
  destruct (Nat.eq_dec a i) as [->|Hne].
  - rewrite Ht. simpl. rewrite Nat.eqb_refl. reflexivity.
  - destruct Hin as [Hin|Hin]; [contradiction|]. apply Nat.eqb_neq in Hne.
    destruct (nth_error tasks a); simpl; [rewrite Hne|]; apply IH; assumption.
Qed.

(* whatever the completion order, as long as every task completes: results by index *)
Lemma pool_eval_spec {T A} (run : T -> option A) (perm : list nat) (tasks : list T) :
  covers perm (length tasks) -> pool_eval run perm tasks = collect (map run tasks).
Proof.
  intros Hc. unfold pool_eval. f_equal.
  apply map_seq_nth_error. intros i t Hi.
  rewrite (assoc_log run tasks perm i t); [reflexivity| |exact Hi].
  apply Hc. apply nth_error_Some. rewrite Hi. discriminate.
Qed.

Lemma coversb_covers perm n : coversb perm n = true -> covers perm n.
Proof.
  unfold coversb, covers. intros H i Hi.
  rewrite forallb_forall in H. specialize (H i).
  assert (Hin : In i (seq 0 n)) by (apply in_seq; lia).
  apply H in Hin. apply existsb_exists in Hin. destruct Hin as [x [Hx Hxi]].
  apply Nat.eqb_eq in Hxi. subst. exact Hx.
Qed.

Lemma permutation_covers perm n : Permutation (seq 0 n) perm -> covers perm n.
Proof. intros H i Hi. apply (Permutation_in i H). apply in_seq. lia. Qed.

Lemma fold_min_const (ls : list nat) (n : nat) :
  (forall x, In x ls -> x = n) -> fold_left Nat.min ls n = n.
Proof.
  induction ls as [|a ls IH]; simpl; intros H; [reflexivity|].
  rewrite (H a) by (left; reflexivity). rewrite Nat.min_id. apply IH. intros x Hx. apply H. right. exact Hx.
Qed.

Lemma minlen_all {A} (its : list (list A)) (n : nat) :
  its <> [] -> (forall x, In x its -> length x = n) -> minlen its = n.
Proof.
  destruct its as [|it r]; [intros H; contradiction|]. intros _ H. unfold minlen.
  rewrite (H it) by (left; reflexivity). apply fold_min_const.
  intros x Hx. apply in_map_iff in Hx. destruct Hx as [y [<- Hy]]. apply H. right. exact Hy.
Qed.

Lemma uniform_all {A} (it : list A) r :
  uniform (it :: r) = true -> forall x, In x (it :: r) -> length x = length it.
Proof.
  unfold uniform. intros H x [<-|Hx]; [reflexivity|].
  rewrite forallb_forall in H. apply Nat.eqb_eq. apply H. exact Hx.
Qed.

Lemma minlen_uniform {A} (it : list A) r : uniform (it :: r) = true -> minlen (it :: r) = length it.
Proof. intros H. apply minlen_all; [discriminate|]. apply uniform_all. exact H. Qed.

Lemma zipn_length {A} (d : A) its : length (zipn d its) = minlen its.
Proof. unfold zipn. rewrite map_length, seq_length. reflexivity. Qed.

Lemma zipn_single {A} (d : A) (it : list A) : zipn d [it] = map (fun x => [x]) it.
Proof. unfold zipn, minlen. simpl. apply (map_seq_nth (fun x => [x]) d it). Qed.

Lemma zipn_cols {A} (d : A) (r0 : list A) rs : uniform (r0 :: rs) = true ->
  zipn d (r0 :: rs) = map (fun j => map (fun r => nth j r d) (r0 :: rs)) (seq 0 (length r0)).
Proof. intros Hu. unfold zipn. rewrite (minlen_uniform r0 rs Hu). reflexivity. Qed.

Lemma zipn_nonempty {A} (d : A) (r0 : list A) rs :
  uniform (r0 :: rs) = true -> r0 <> [] -> zipn d (r0 :: rs) <> [].
Proof.
  intros Hu Hne. rewrite zipn_cols by exact Hu. destruct r0; [contradiction|]. simpl. discriminate.
Qed.

Lemma minlen_zipn {A} (d : A) (r0 : list A) rs :
  uniform (r0 :: rs) = true -> r0 <> [] -> minlen (zipn d (r0 :: rs)) = length (r0 :: rs).
Proof.
  intros Hu Hne. apply minlen_all; [apply zipn_nonempty; assumption|].
  intros x Hx. rewrite zipn_cols in Hx by exact Hu.
  apply in_map_iff in Hx. destruct Hx as [j [<- _]]. apply map_length.
Qed.

(* zip( *zip( *rows)) = rows for a non-empty rectangular table of width >= 1 *)
Lemma zipn_zipn {A} (d : A) (r0 : list A) (rs : list (list A)) :
  uniform (r0 :: rs) = true -> r0 <> [] -> zipn d (zipn d (r0 :: rs)) = r0 :: rs.
Proof.
  intros Hu Hne. unfold zipn at 1. rewrite minlen_zipn, zipn_cols by assumption.
  set (rows := r0 :: rs).
  transitivity (map (fun i => nth i rows []) (seq 0 (length rows))); [|apply map_nth_seq].
  apply map_ext_in. intros i Hi. apply in_seq in Hi. rewrite map_map.
  assert (Hlen : length (nth i rows []) = length r0).
  { apply (uniform_all r0 rs Hu). apply nth_In. apply Hi. }
  rewrite <- (map_nth_seq d (nth i rows [])), Hlen.
  apply map_ext_in. intros j _.
  apply (nth_map_lt (fun r : list A => nth j r d) rows i [] d). lia.
Qed.

Lemma submit_spec_gen q be f args kw :
  (submit_unpack (cfg_of be) = false -> v_apply_kw_splat q = true -> kw = []) ->
  exec_submit_gen q be f args kw = spec_submit f args kw.
Proof.
  intros H. unfold exec_submit_gen, spec_submit.
  destruct (submit_unpack (cfg_of be)) eqn:E; [reflexivity|].
  destruct (v_apply_kw_splat q) eqn:K; [|reflexivity].
  rewrite (H eq_refl eq_refl). reflexivity.
Qed.

Lemma submit_spec_pinned be f args kw :
  (be = MPPool -> kw = []) -> exec_submit_gen pinned be f args kw = spec_submit f args kw.
Proof.
  intros H. apply submit_spec_gen. intros E _. apply H. destruct be; cbn in E; try discriminate. reflexivity.
Qed.

Lemma submit_spec_fixed_all be f args kw : exec_submit_gen fixed_all be f args kw = spec_submit f args kw.
Proof. apply submit_spec_gen. intros _ K. cbn in K. discriminate. Qed.

(* the backend's map is the builtin on every backend; the multiprocessing pool takes one iterable *)
Lemma be_map_spec be perm f kw iters :
  iters <> [] -> (be = MPPool -> exists it, iters = [it]) -> covers perm (minlen iters) ->
  be_map be perm (f, kw) iters = spec_map f iters kw.
Proof.
  intros Hne Hmp Hc. destruct be.
  2, 3: destruct iters; [contradiction|]; apply pool_eval_spec; rewrite zipn_length; exact Hc.
  - destruct iters; [contradiction | reflexivity].
  - destruct (Hmp eq_refl) as [it ->]. cbn [be_map].
    rewrite pool_eval_spec by (rewrite map_length; exact Hc).
    unfold spec_map. rewrite zipn_single, !map_map. reflexivity.
Qed.

Lemma map_spec_gen q be perm f iters kw :
  iters <> [] -> covers perm (minlen iters) ->
  (be <> MPPool -> v_unpack q (map_unpack (cfg_of be)) (nparams f) (length iters) = true) ->
  (be = MPPool ->
     (1 < nparams f /\ uniform iters = true) \/
     (nparams f <= 1 /\ (exists it, iters = [it]) /\ v_unpack q false (nparams f) 1%nat = true)) ->
  exec_map_gen q be perm f iters kw = spec_map f iters kw.
Proof.
  intros Hne Hc Hd Hmp.
  destruct be.
  1-3: cbn [exec_map_gen]; unfold native_map_gen; rewrite Hd by discriminate;
       apply be_map_spec; [exact Hne | intros [=] | exact Hc].
  cbn [exec_map_gen]. unfold mp_map_gen.
  destruct (Hmp eq_refl) as [[Hnp Hu] | [Hnp [Hit Hq]]].
  - apply Z.ltb_lt in Hnp. rewrite Hnp. unfold zip_strict. rewrite Hu.
    unfold starmap_with. cbn [backend_has_starmap be_starmap].
    rewrite pool_eval_spec by (rewrite zipn_length; exact Hc).
    destruct iters; [contradiction | reflexivity].
  - apply Z.ltb_ge in Hnp. rewrite Hnp. unfold native_map_gen. destruct Hit as [it ->].
    cbn [cfg_of map_unpack length]. rewrite Hq. apply be_map_spec; eauto.
Qed.

Lemma map_unpack_native be : be <> MPPool -> map_unpack (cfg_of be) = true.
Proof. destruct be; intros H; try reflexivity. contradiction. Qed.

(* [pinned] is correct whenever the signature has more than one parameter *)
Lemma map_spec_pinned be perm f iters kw :
  iters <> [] -> covers perm (minlen iters) -> 1 < nparams f ->
  (be = MPPool -> uniform iters = true) ->
  exec_map_gen pinned be perm f iters kw = spec_map f iters kw.
Proof.
  intros Hne Hc Hnp Hu. apply map_spec_gen; try assumption.
  - intros Hbe. rewrite (map_unpack_native be Hbe). cbn. apply Z.ltb_lt. exact Hnp.
  - intros Hbe. left. split; [exact Hnp | apply Hu; exact Hbe].
Qed.

(* [unpack_by_iterables] (unpack when the backend unpacks or there is one iterable): every arity *)
Lemma map_spec_fixed be perm f iters kw :
  iters <> [] -> covers perm (minlen iters) ->
  (be = MPPool -> (1 < nparams f /\ uniform iters = true) \/ (nparams f <= 1 /\ exists it, iters = [it])) ->
  exec_map_gen fixed_map be perm f iters kw = spec_map f iters kw.
Proof.
  intros Hne Hc Hmp. apply map_spec_gen; try assumption.
  - intros Hbe. rewrite (map_unpack_native be Hbe). reflexivity.
  - intros Hbe. destruct (Hmp Hbe) as [H|[H1 H2]]; [left; exact H|right].
    split; [exact H1|]. split; [exact H2|reflexivity].
Qed.

(* [pinned], signature arity <= 1: the function is applied to each WHOLE iterable *)
Lemma map_packed_pinned be perm f iters kw :
  nparams f <= 1 -> covers perm (length iters) ->
  exec_map_gen pinned be perm f iters kw = collect (map (fun it => call f [ASeq it] kw) iters).
Proof.
  intros Hnp Hc. apply Z.ltb_ge in Hnp.
  assert (E : exec_map_gen pinned be perm f iters kw = be_map be perm (f, kw) [map ASeq iters]).
  { destruct be; cbn [exec_map_gen]; unfold mp_map_gen, native_map_gen; cbn [pinned v_unpack];
      unfold unpack_pinned; rewrite Hnp, ?andb_false_r; reflexivity. }
  rewrite E, be_map_spec; [|discriminate|eauto|cbn; rewrite map_length; exact Hc].
  unfold spec_map. rewrite zipn_single, !map_map. reflexivity.
Qed.

Lemma spec_map_zipn f r0 rs kw : uniform (r0 :: rs) = true -> r0 <> [] ->
  spec_map f (zipn d0 (r0 :: rs)) kw = spec_starmap f (r0 :: rs) kw.
Proof.
  intros Hu Hne. unfold spec_map. rewrite zipn_zipn by assumption.
  destruct (zipn d0 (r0 :: rs)) eqn:E; [|reflexivity].
  contradiction (zipn_nonempty d0 r0 rs Hu Hne).
Qed.

(* The fallback transposes the rows and maps over the columns: by map_spec_gen that is the builtin
   map over the columns, and zipping the columns again gives the rows back. *)
Lemma starmap_spec_gen q be perm f rows kw :
  covers perm (length rows) ->
  (backend_has_starmap be = false ->
     (v_starmap_kw_to_list q = true -> kw = []) /\ uniform rows = true /\
     (rows = [] \/ (hd [] rows <> [] /\
                    v_unpack q true (nparams f) (length (hd [] rows)) = true))) ->
  exec_starmap_gen q be perm f rows kw = spec_starmap f rows kw.
Proof.
  intros Hc H. unfold exec_starmap_gen, starmap_with.
  destruct (backend_has_starmap be) eqn:Hs.
  - destruct be; try discriminate; unfold be_starmap.
    + reflexivity.
    + rewrite pool_eval_spec by exact Hc. reflexivity.
  - destruct (H eq_refl) as [Hkw [Hu Hr]]. unfold zip_strict. rewrite Hu.
    assert (Hbe : be <> MPPool) by (intros ->; discriminate).
    assert (E : forall kw', exec_map_gen q be perm f (zipn d0 rows) kw' = spec_starmap f rows kw').
    { intros kw'. destruct Hr as [-> | [Hhd Hd]].
      - destruct be; try discriminate; unfold exec_map_gen, native_map_gen;
          destruct (v_unpack _ _ _ _); reflexivity.
      - destruct rows as [|r0 rs]; [contradiction|]. cbn [hd] in Hhd, Hd.
        rewrite <- spec_map_zipn by assumption. apply map_spec_gen.
        + apply zipn_nonempty; assumption.
        + rewrite minlen_zipn by assumption. exact Hc.
        + intros _. rewrite zipn_length, minlen_uniform, map_unpack_native by assumption. exact Hd.
        + contradiction. }
    rewrite !E.
    destruct (v_starmap_kw_to_list q); [rewrite (Hkw eq_refl); destruct (spec_starmap f rows [])|];
      reflexivity.
Qed.

Lemma starmap_spec_pinned be perm f rows kw :
  covers perm (length rows) ->
  (backend_has_starmap be = false ->
     kw = [] /\ uniform rows = true /\ (rows = [] \/ (hd [] rows <> [] /\ 1 < nparams f))) ->
  exec_starmap_gen pinned be perm f rows kw = spec_starmap f rows kw.
Proof.
  intros Hc H. apply starmap_spec_gen; [exact Hc|].
  intros Hs. destruct (H Hs) as [Hk [Hu Hr]]. split; [intros _; exact Hk|]. split; [exact Hu|].
  destruct Hr as [Hr|[Hh Hnp]]; [left; exact Hr|right]. split; [exact Hh|].
  cbn. apply Z.ltb_lt. exact Hnp.
Qed.

Lemma starmap_spec_fixed_all be perm f rows kw :
  covers perm (length rows) ->
  (backend_has_starmap be = false -> uniform rows = true /\ (rows = [] \/ hd [] rows <> [])) ->
  exec_starmap_gen fixed_all be perm f rows kw = spec_starmap f rows kw.
Proof.
  intros Hc H. apply starmap_spec_gen; [exact Hc|].
  intros Hs. destruct (H Hs) as [Hu Hr]. split; [intros K; cbn in K; discriminate|]. split; [exact Hu|].
  destruct Hr as [Hr|Hh]; [left; exact Hr|right]. split; [exact Hh|reflexivity].
Qed.

Definition g1 : fn := {| fid := 100; nreq := 1; ndef := 0; fvar := false; farith := false |}.
Definition g11 : fn := {| fid := 110; nreq := 1; ndef := 1; fvar := false; farith := false |}.
Definition g2 : fn := {| fid := 200; nreq := 2; ndef := 0; fvar := false; farith := false |}.
Definition it123 : list arg := [AInt 1; AInt 2; AInt 3].

Lemma map_one_param_witness : forall be,
  nparams g1 = 1 /\ covers [2; 0; 1]%nat (minlen [it123]) /\
  spec_map g1 [it123] [] = Some [RApp 100 [AInt 1] [] []; RApp 100 [AInt 2] [] []; RApp 100 [AInt 3] [] []] /\
  exec_map_gen pinned be [2; 0; 1]%nat g1 [it123] [] = Some [RApp 100 [ASeq it123] [] []].
Proof.
  intros be. split; [reflexivity|]. split; [apply coversb_covers; reflexivity|].
  split; [reflexivity|]. destruct be; vm_compute; reflexivity.
Qed.

Lemma starmap_kwargs_witness :
  spec_starmap g11 [[AInt 7]; [AInt 1]] [(0%nat, AInt 4)]
    = Some [RApp 110 [AInt 7] [Some (AInt 4)] []; RApp 110 [AInt 1] [Some (AInt 4)] []] /\
  exec_starmap_gen pinned Thread [0; 1]%nat g11 [[AInt 7]; [AInt 1]] [(0%nat, AInt 4)] = None /\
  exec_starmap_gen pinned Proc [0; 1]%nat g11 [[AInt 7]; [AInt 1]] [(0%nat, AInt 4)] = None.
Proof. repeat split; vm_compute; reflexivity. Qed.

Lemma submit_mp_kwargs_witness :
  spec_submit g11 [AInt 7] [(0%nat, AInt 4)] = Some (RApp 110 [AInt 7] [Some (AInt 4)] []) /\
  exec_submit_gen pinned MPPool g11 [AInt 7] [(0%nat, AInt 4)] = None.
Proof. split; vm_compute; reflexivity. Qed.
