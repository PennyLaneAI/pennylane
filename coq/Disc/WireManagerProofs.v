(* Proofs for Disc/WireManagerModel.v (property C22).  Inside Section Inv, over the initial registers z0, a0
   and min_int mi0: an invariant `inv` of the state of _new_ops (manager registers and loans duplicate free and
   of known origin, ghost flags of the zeroed register and of the labels from min_int on are Zero, wire_map
   injective into the lent wires, the allocation log consistent), preserved by get_wire, return_wire and a gate
   on wires the allocator never owned.  After the section: the initial state of a configuration meeting pre_ok
   satisfies it, and the `_lemma` statements used by Props/C22.v are read off it at a reachable state. *)
From Coq Require Import List ZArith Bool Lia ZifyBool Permutation.
From PLV Require Import Alg.ListFacts Disc.WireManagerModel.
Import ListNotations.
Open Scope Z_scope.

Notation keys l := (map fst l).
Notation vals l := (map snd l).

Section AssocFacts.
  Context {V : Type}.
  Implicit Types l : list (Z * V).

  Lemma aget_In : forall l k v, aget k l = Some v -> In k (keys l).
  Proof.
    induction l as [|[k' v'] r IH]; cbn; intros k v H; [discriminate|].
    destruct (k =? k') eqn:E; [left; lia | right; eapply IH; exact H].
  Qed.

  Lemma aget_val_In : forall l k v, aget k l = Some v -> In v (vals l).
  Proof.
    induction l as [|[k' v'] r IH]; cbn; intros k v H; [discriminate|].
    destruct (k =? k') eqn:E; [left; congruence | right; eapply IH; exact H].
  Qed.

  Lemma aget_notin : forall l k, ~ In k (keys l) -> aget k l = None.
  Proof.
    induction l as [|[k' v'] r IH]; cbn; intros k H; [reflexivity|].
    destruct (k =? k') eqn:E; [exfalso; apply H; left; lia | apply IH; tauto].
  Qed.

  Lemma aremove_notin : forall l k, ~ In k (keys l) -> aremove k l = l.
  Proof.
    induction l as [|[k' v'] r IH]; cbn; intros k H; [reflexivity|].
    destruct (k =? k') eqn:E; [exfalso; apply H; left; lia | f_equal; apply IH; tauto].
  Qed.

  Lemma keys_aremove : forall l k x, In x (keys (aremove k l)) <-> In x (keys l) /\ x <> k.
  Proof.
    induction l as [|[k' v'] r IH]; cbn; intros k x; [tauto|].
    destruct (k =? k') eqn:E; cbn; rewrite IH; intuition lia.
  Qed.

  Lemma NoDup_keys_aremove : forall l k, NoDup (keys l) -> NoDup (keys (aremove k l)).
  Proof.
    induction l as [|[k' v'] r IH]; cbn; intros k H; [constructor|].
    inversion H as [|? ? Hn Hr]; subst.
    destruct (k =? k') eqn:E; [apply IH; assumption|].
    cbn. constructor; [|apply IH; assumption]. intro HI. apply keys_aremove in HI. tauto.
  Qed.

  Lemma keys_aremove_perm : forall l k v, NoDup (keys l) -> aget k l = Some v ->
    Permutation (k :: keys (aremove k l)) (keys l).
  Proof.
    induction l as [|[k' v'] r IH]; cbn; intros k v H G; [discriminate|].
    inversion H as [|? ? Hn Hr]; subst.
    destruct (k =? k') eqn:E.
    - apply Z.eqb_eq in E; subst. rewrite aremove_notin by exact Hn. reflexivity.
    - cbn. etransitivity; [apply perm_swap | apply perm_skip; eapply IH; eauto].
  Qed.

  Lemma vals_aremove_in : forall l k v, In v (vals (aremove k l)) -> In v (vals l).
  Proof.
    induction l as [|[k' v'] r IH]; cbn; intros k v H; [tauto|].
    destruct (k =? k') eqn:E; [right; eapply IH; exact H|].
    cbn in H. destruct H as [H|H]; [left; exact H | right; eapply IH; exact H].
  Qed.

  Lemma NoDup_vals_aremove : forall l k, NoDup (vals l) -> NoDup (vals (aremove k l)).
  Proof.
    induction l as [|[k' v'] r IH]; cbn; intros k H; [constructor|].
    inversion H as [|? ? Hn Hr]; subst.
    destruct (k =? k') eqn:E; [apply IH; assumption|].
    cbn. constructor; [|apply IH; assumption]. intro HI. apply vals_aremove_in in HI. tauto.
  Qed.

  Lemma vals_aremove_notin : forall l k c, NoDup (vals l) -> aget k l = Some c -> ~ In c (vals (aremove k l)).
  Proof.
    induction l as [|[k' v'] r IH]; cbn; intros k c H G; [discriminate|].
    inversion H as [|? ? Hn Hr]; subst.
    destruct (k =? k') eqn:E.
    - inversion G; subst. intro HI. apply vals_aremove_in in HI. tauto.
    - cbn. intros [HI|HI].
      + subst. apply aget_val_In in G. tauto.
      + eapply IH; eauto.
  Qed.

  Lemma aget_aremove_neq : forall l k k', k <> k' -> aget k (aremove k' l) = aget k l.
  Proof.
    induction l as [|[k0 v0] r IH]; cbn; intros k k' N; [reflexivity|].
    destruct (k' =? k0) eqn:E.
    - rewrite IH by exact N. destruct (k =? k0) eqn:E2; [exfalso; lia | reflexivity].
    - cbn. rewrite IH by exact N. reflexivity.
  Qed.

  Lemma aget_aset_eq : forall l k v, aget k (aset k v l) = Some v.
  Proof. intros; unfold aset; cbn. rewrite Z.eqb_refl. reflexivity. Qed.

  Lemma aget_aset_neq : forall l k k' v, k <> k' -> aget k (aset k' v l) = aget k l.
  Proof.
    intros; unfold aset; cbn. destruct (k =? k') eqn:E; [exfalso; lia|]. apply aget_aremove_neq; exact H.
  Qed.

  Lemma aget_inj : forall l k1 k2 v, NoDup (vals l) -> aget k1 l = Some v -> aget k2 l = Some v -> k1 = k2.
  Proof.
    induction l as [|[k v'] r IH]; cbn; intros k1 k2 v ND H1 H2; [discriminate|]. inversion ND; subst.
    destruct (k1 =? k) eqn:E1, (k2 =? k) eqn:E2.
    - lia.
    - inversion H1; subst. apply aget_val_In in H2. tauto.
    - inversion H2; subst. apply aget_val_In in H1. tauto.
    - eauto.
  Qed.
End AssocFacts.

Lemma memZ_In : forall l k, memZ k l = true <-> In k l.
Proof.
  induction l as [|x r IH]; cbn; intros k; [split; [discriminate | tauto]|].
  rewrite orb_true_iff, IH. split; intros [H|H]; auto; [left; lia | left; lia].
Qed.

Lemma nodupZ_NoDup : forall l, nodupZ l = true <-> NoDup l.
Proof.
  induction l as [|x r IH]; cbn; [split; [constructor | reflexivity]|].
  rewrite andb_true_iff, negb_true_iff, <- not_true_iff_false, memZ_In, IH.
  split; [intros [H1 H2]; constructor; assumption | intros H; inversion H; auto].
Qed.

Lemma gget_cons_eq : forall gd g c f, gget gd ((c, f) :: g) c = f.
Proof. intros; unfold gget; cbn. rewrite Z.eqb_refl. reflexivity. Qed.

Lemma gget_cons_neq : forall gd g c f w, w <> c -> gget gd ((c, f) :: g) w = gget gd g w.
Proof. intros; unfold gget; cbn. destruct (w =? c) eqn:E; [exfalso; lia | reflexivity]. Qed.

Lemma gget_cons_zero : forall gd g c w, gget gd g w = FZero -> gget gd ((c, FZero) :: g) w = FZero.
Proof.
  intros. destruct (Z.eq_dec w c) as [->|N]; [apply gget_cons_eq | rewrite gget_cons_neq; auto].
Qed.

Lemma touch_gget : forall gd ws g w, ~ In (St w) ws -> gget gd (touch ws g) w = gget gd g w.
Proof.
  induction ws as [|[c|d] r IH]; cbn [touch]; intros g w H; [reflexivity | |].
  - rewrite gget_cons_neq; [apply IH; intro; apply H; right; assumption |].
    intro; subst; apply H; left; reflexivity.
  - apply IH. intro; apply H; right; assumption.
Qed.

Section Inv.
  Variables (z0 a0 : list Z) (mi0 : option Z).

  (* where a concrete wire handed out by the allocator may come from *)
  Definition origin (w : Z) : Prop := In w (z0 ++ a0) \/ (exists m0, mi0 = Some m0 /\ m0 <= w).

  Definition inR (m : mgr) (w : Z) : Prop :=
    In w (zeroed m) \/ In w (anyst m) \/ In w (keys (loaned m)).

  Record minv (g : list (Z * flag)) (gl : list (Z * (flag * bool))) (m : mgr) : Prop := {
    nd_z : NoDup (zeroed m);
    nd_a : NoDup (anyst m);
    nd_l : NoDup (keys (loaned m));
    dj_za : forall w, In w (zeroed m) -> ~ In w (anyst m);
    dj_zl : forall w, In w (zeroed m) -> ~ In w (keys (loaned m));
    dj_al : forall w, In w (anyst m) -> ~ In w (keys (loaned m));
    m_orig : forall w, inR m w -> origin w;
    m_below : forall k, min_int m = Some k -> forall w, inR m w -> w < k;
    m_min : forall k, min_int m = Some k -> exists m0, mi0 = Some m0 /\ m0 <= k;
    m_zero : forall w, In w (zeroed m) -> gget mi0 g w = FZero;
    m_fresh : forall k, min_int m = Some k -> forall w, k <= w -> gget mi0 g w = FZero;
    m_loanz : forall w, aget w (loaned m) = Some RZero -> aget w gl = Some (FZero, true) }.

  (* Every wire the manager holds or has lent.  Taking a wire and returning one only permute this
     list, so the proofs use minv in the form winv below: what it says of the registers alone (shape),
     which any permutation of the pool keeps, and what ties the ghost flags to them (flags). *)
  Definition pool (m : mgr) : list Z := zeroed m ++ anyst m ++ keys (loaned m).

  Lemma in_pool : forall m w, In w (pool m) <-> inR m w.
  Proof. intros; unfold pool, inR. rewrite !in_app_iff. reflexivity. Qed.

  Record shape (m : mgr) : Prop := {
    s_nd : NoDup (pool m);
    s_orig : forall w, In w (pool m) -> origin w;
    s_below : forall k, min_int m = Some k -> forall w, In w (pool m) -> w < k;
    s_min : forall k, min_int m = Some k -> exists m0, mi0 = Some m0 /\ m0 <= k }.

  (* f_loanz: a wire is booked for return to the zeroed register only if its flag at hand-out is Zero and the
     allocation promised restored=True; dealloc_one then puts that flag back, which keeps f_zero *)
  Record flags (g : list (Z * flag)) (gl : list (Z * (flag * bool))) (m : mgr) : Prop := {
    f_zero : forall w, In w (zeroed m) -> gget mi0 g w = FZero;
    f_fresh : forall k, min_int m = Some k -> forall w, k <= w -> gget mi0 g w = FZero;
    f_loanz : forall w, aget w (loaned m) = Some RZero -> aget w gl = Some (FZero, true) }.

  Definition winv g gl m : Prop := shape m /\ flags g gl m.

  Lemma minv_iff : forall g gl m, minv g gl m <-> winv g gl m.
  Proof.
    intros g gl m. split.
    - intros [ndz nda ndl za zl al ori bel mn zer fre lz]. split; constructor; auto.
      + apply NoDup_app_iff. split; [exact ndz|]. split; [apply NoDup_app_iff; auto|].
        intros w Hw HI. apply in_app_or in HI as [HI|HI]; [eapply za | eapply zl]; eauto.
      + intros w Hw. apply ori, in_pool, Hw.
      + intros k E w Hw. apply (bel k E), in_pool, Hw.
    - intros [[nd ori bel mn] [zer fre lz]].
      apply NoDup_app_iff in nd as (ndz & nd & dz). apply NoDup_app_iff in nd as (nda & ndl & al).
      constructor; auto.
      + intros w Hw HI. apply (dz w Hw), in_or_app. left; exact HI.
      + intros w Hw HI. apply (dz w Hw), in_or_app. right; exact HI.
      + intros w Hw. apply ori, in_pool, Hw.
      + intros k E w Hw. apply (bel k E), in_pool, Hw.
  Qed.

  Lemma shape_perm : forall m m', shape m -> Permutation (pool m') (pool m) -> min_int m' = min_int m ->
    shape m'.
  Proof.
    intros m m' [nd ori bel mn] P E. constructor; rewrite ?E; auto.
    - exact (Permutation_NoDup (Permutation_sym P) nd).
    - intros w Hw. apply ori, (Permutation_in w P Hw).
    - intros k Ek w Hw. apply (bel k Ek), (Permutation_in w P Hw).
  Qed.

  Lemma add_new_wire_winv : forall g gl m m', winv g gl m -> add_new_wire m = Some m' ->
    winv g gl m' /\ loaned m' = loaned m.
  Proof.
    intros g gl m m' [[nd ori bel mn] [zer fre lz]] H. unfold add_new_wire in H.
    destruct (min_int m) as [k|]; [|discriminate]. inversion H; subst; clear H.
    specialize (bel k eq_refl). specialize (fre k eq_refl). destruct (mn k eq_refl) as (m0 & E0 & L).
    split; [|reflexivity]. split; constructor; unfold pool; cbn.
    - constructor; [intro HI; apply bel in HI; lia | exact nd].
    - intros w [<-|Hw]; [right; exists m0; split; [exact E0 | lia] | auto].
    - intros k' E w Hw. inversion E; subst. destruct Hw as [<-|Hw]; [|apply bel in Hw]; lia.
    - intros k' E. inversion E; subst. exists m0. split; [exact E0 | lia].
    - intros w [<-|Hw]; [apply fre; lia | auto].
    - intros k' E w Hw. inversion E; subst. apply fre; lia.
    - exact lz.
  Qed.

  Lemma add_new_wire_inv : forall g gl m m', minv g gl m -> add_new_wire m = Some m' ->
    minv g gl m' /\ loaned m' = loaned m.
  Proof.
    intros g gl m m' I H. rewrite !minv_iff in *. exact (add_new_wire_winv g gl m m' I H).
  Qed.

  (* what handing out the wire c, not among the lent wires l, guarantees; rs: a reset on c is emitted first *)
  Definition handed g gl (l : list (Z * reg)) (rst : bool) (c : Z) (m' : mgr) (rs : bool) : Prop :=
    let g' := if rs then (c, FZero) :: g else g in
    origin c /\ ~ In c (keys l) /\ keys (loaned m') = c :: keys l /\
    winv g' (aset c (gget mi0 g' c, rst) gl) m'.

  (* c leaves the two registers, of which z' and a' remain, and is booked as lent for register rg *)
  Lemma hand_out : forall g gl m rg rst c z' a' (rs : bool),
    winv g gl m -> Permutation (c :: z' ++ a' ++ keys (loaned m)) (pool m) -> incl z' (zeroed m) ->
    (rg = RZero -> rst = true /\ gget mi0 (if rs then (c, FZero) :: g else g) c = FZero) ->
    handed g gl (loaned m) rst c (mkMgr z' a' (aset c rg (loaned m)) (min_int m) (allow_resets m)) rs.
  Proof.
    intros g gl m rg rst c z' a' rs [S [zer fre lz]] P Iz R.
    assert (Nl : ~ In c (keys (loaned m))).
    { pose proof (Permutation_NoDup (Permutation_sym P) (s_nd m S)) as N. inversion N as [|? ? Nc _].
      intro HI. apply Nc. rewrite !in_app_iff. tauto. }
    unfold handed, aset. rewrite (aremove_notin _ c Nl).
    set (g' := if rs then (c, FZero) :: g else g) in *.
    assert (Mono : forall w, gget mi0 g w = FZero -> gget mi0 g' w = FZero).
    { intros w Hw. subst g'. destruct rs; [apply gget_cons_zero|]; exact Hw. }
    split; [apply (s_orig m S), (Permutation_in c P); left; reflexivity|].
    split; [exact Nl|]. split; [reflexivity|]. split.
    - apply (shape_perm m); [exact S | | reflexivity]. etransitivity; [|exact P].
      unfold pool; cbn. rewrite !app_assoc. symmetry; apply Permutation_middle.
    - constructor; cbn.
      + intros w Hw. apply Mono, zer, Iz, Hw.
      + intros k E w Hw. apply Mono, (fre k E w Hw).
      + intros w. destruct (w =? c) eqn:E; intros Hw.
        * inversion Hw; subst. destruct (R eq_refl) as [-> ->]. reflexivity.
        * rewrite aget_aremove_neq by lia. auto.
  Qed.

  Lemma reg_of_zero : forall r, reg_of r = RZero -> r = true.
  Proof. destruct r; [reflexivity | discriminate]. Qed.

  (* taking the top of the zeroed register: no reset, and the wire is |0> *)
  Lemma take_zeroed_inv : forall g gl m rst c m' rs,
    winv g gl m -> take_zeroed (reg_of rst) m = Some (c, m', rs) ->
    handed g gl (loaned m) rst c m' rs /\ gget mi0 (if rs then (c, FZero) :: g else g) c = FZero.
  Proof.
    intros g gl m rst c m' rs I H. unfold take_zeroed in H.
    destruct (zeroed m) as [|w z'] eqn:Ez; [discriminate|]. inversion H; subst; clear H.
    assert (Zc : gget mi0 g c = FZero) by (apply (f_zero g gl m (proj2 I)); rewrite Ez; left; reflexivity).
    split; [|exact Zc]. apply hand_out; unfold pool; rewrite ?Ez; auto using reg_of_zero.
    apply incl_tl, incl_refl.
  Qed.

  (* taking the top of the any-state register, possibly with an emitted reset *)
  Lemma take_any_inv : forall g gl m rg rst (rs : bool) c m' rs',
    winv g gl m -> take_any rg rs m = Some (c, m', rs') -> (rg = RZero -> rst = true /\ rs = true) ->
    handed g gl (loaned m) rst c m' rs' /\ rs' = rs.
  Proof.
    intros g gl m rg rst rs c m' rs' I H R. unfold take_any in H.
    destruct (anyst m) as [|w a'] eqn:Ea; [discriminate|]. inversion H; subst; clear H.
    split; [|reflexivity]. apply hand_out; unfold pool; rewrite ?Ea; auto.
    - apply Permutation_middle.
    - apply incl_refl.
    - intros E. destruct (R E) as [-> ->]. split; [reflexivity | apply gget_cons_eq].
  Qed.

  Lemma get_wire_inv : forall g gl m s rst c m' rs,
    winv g gl m -> get_wire s rst m = Some (c, m', rs) ->
    handed g gl (loaned m) rst c m' rs /\ (s = AZero -> gget mi0 (if rs then (c, FZero) :: g else g) c = FZero).
  Proof.
    intros g gl m s rst c m' rs I H. unfold get_wire in H.
    assert (exists m1, winv g gl m1 /\ loaned m1 = loaned m /\
              match s with AZero => get_zeroed rst m1 | AAny => get_any rst m1 | AMagic => None end = Some (c, m', rs))
      as (m1 & I1 & L1 & H1).
    { destruct (is_nil (zeroed m) && is_nil (anyst m)).
      - destruct (add_new_wire m) as [m1|] eqn:A; [|discriminate].
        destruct (add_new_wire_winv g gl m m1 I A). exists m1; auto.
      - exists m; auto. }
    clear H I. rewrite <- L1. clear L1 m. rename m1 into m, I1 into I.
    destruct s; [| |discriminate].
    - (* zero requested *)
      unfold get_zeroed in H1. destruct (zeroed m) as [|w0 zr] eqn:EZ.
      + destruct (allow_resets m).
        * destruct (take_any_inv g gl m (reg_of rst) rst true c m' rs I H1) as (Hd & ->).
          { intro E; split; [apply reg_of_zero; exact E | reflexivity]. }
          split; [exact Hd|]. intros _. apply gget_cons_eq.
        * destruct (add_new_wire m) as [m1|] eqn:A; [|discriminate].
          destruct (add_new_wire_winv g gl m m1 I A) as [I1 L1]. rewrite <- L1.
          destruct (take_zeroed_inv g gl m1 rst c m' rs I1 H1); auto.
      + destruct (take_zeroed_inv g gl m rst c m' rs I H1); auto.
    - (* any state requested *)
      unfold get_any in H1. destruct (anyst m) as [|w0 ar] eqn:EA.
      + destruct (take_zeroed_inv g gl m rst c m' rs I H1); auto.
      + destruct (take_any_inv g gl m RAny rst false c m' rs I H1) as (Hd & _); [discriminate|].
        split; [exact Hd | discriminate].
  Qed.

  Record inv (x : st) : Prop := {
    i_mgr : winv (ghost x) (gloan x) (mg x);
    i_gdef : gdef x = mi0;
    i_wm_keys : NoDup (keys (wmap x));
    i_wm_vals : NoDup (vals (wmap x));
    i_wm_loaned : forall c, In c (vals (wmap x)) -> In c (keys (loaned (mg x)));
    i_ev_zero : Forall (fun e => ev_zero_ok e = true) (events x);
    i_ev_origin : Forall (fun e => match e with EvAlloc _ c _ _ => origin c end) (events x) }.

  Lemma alloc_one_inv : forall s rst d x x', inv x -> alloc_one s rst d x = Some x' -> inv x'.
  Proof.
    intros s rst d x x' I H. unfold alloc_one in H.
    destruct (get_wire s rst (mg x)) as [[[c m'] rs]|] eqn:G; [|discriminate].
    inversion H; subst; clear H.
    destruct I as [IM GD WK WV WL EZ EO].
    destruct (get_wire_inv _ _ _ _ _ _ _ _ IM G) as ((O & N & K & MI) & Z).
    rewrite GD in *.
    constructor; cbn; auto.
    - unfold aset; cbn. constructor; [|apply NoDup_keys_aremove; exact WK].
      intro HI. apply keys_aremove in HI. tauto.
    - unfold aset; cbn. constructor; [|apply NoDup_vals_aremove; exact WV].
      intro HI. apply vals_aremove_in in HI. apply WL in HI. tauto.
    - rewrite K. unfold aset; cbn. intros c' [<-|HI]; [left; reflexivity|].
      right. apply WL. eapply vals_aremove_in; eauto.
    - constructor; [|exact EZ]. cbn. destruct s; try reflexivity. rewrite (Z eq_refl). reflexivity.
  Qed.

  Lemma return_wire_inv : forall g gl m c m', winv g gl m -> return_wire c m = Some m' ->
    In c (keys (loaned m)) /\ loaned m' = aremove c (loaned m) /\
    winv (match aget c gl with Some (f, true) => (c, f) :: g | _ => g end) (aremove c gl) m'.
  Proof.
    intros g gl m c m' I H. unfold return_wire, apop in H.
    destruct (aget c (loaned m)) as [rg|] eqn:G; [|discriminate].
    assert (Hc : In c (keys (loaned m))) by (eapply aget_In; eauto).
    destruct (proj2 (minv_iff g gl m) I) as [_ _ ndl _ zl al _ bel _ zer fre lz]. destruct I as [S _].
    set (g' := match aget c gl with Some (f, true) => (c, f) :: g | _ => g end).
    assert (Keep : forall w, w <> c -> gget mi0 g' w = gget mi0 g w).
    { intros w Nw. subst g'. destruct (aget c gl) as [[f [|]]|]; try reflexivity. apply gget_cons_neq; exact Nw. }
    assert (Zr : forall w, In w (zeroed m) -> gget mi0 g' w = FZero).
    { intros w Hw. rewrite Keep; [auto | intro; subst; exact (zl c Hw Hc)]. }
    assert (Fr : forall k, min_int m = Some k -> forall w, k <= w -> gget mi0 g' w = FZero).
    { intros k E w Hw. rewrite Keep; [eauto|]. assert (c < k) by (apply (bel k E); unfold inR; tauto). lia. }
    assert (LZ : forall w, aget w (aremove c (loaned m)) = Some RZero -> aget w (aremove c gl) = Some (FZero, true)).
    { intros w Hw. assert (w <> c).
      { intro; subst. apply aget_In in Hw. apply keys_aremove in Hw. tauto. }
      rewrite aget_aremove_neq in Hw by assumption. rewrite aget_aremove_neq by assumption. auto. }
    (* c goes from the lent wires to the top of one of the two registers *)
    assert (P : Permutation (zeroed m ++ anyst m ++ c :: keys (aremove c (loaned m))) (pool m)).
    { apply Permutation_app_head, Permutation_app_head, keys_aremove_perm with rg; assumption. }
    split; [exact Hc|].
    destruct rg; inversion H; subst; clear H; (split; [reflexivity|]); split.
    - apply (shape_perm m); [exact S | | reflexivity]. etransitivity; [|exact P].
      unfold pool; cbn. rewrite !app_assoc. apply Permutation_middle.
    - constructor; cbn; auto. intros w [<-|Hw]; [|auto]. subst g'. rewrite (lz c G). apply gget_cons_eq.
    - apply (shape_perm m); [exact S | | reflexivity]. etransitivity; [|exact P].
      unfold pool; cbn. apply Permutation_app_head, Permutation_middle.
    - constructor; cbn; auto.
  Qed.

  Lemma dealloc_one_inv : forall d x x', inv x -> dealloc_one d x = Some x' -> inv x'.
  Proof.
    intros d x x' I H. unfold dealloc_one, apop in H.
    destruct (aget d (wmap x)) as [c|] eqn:G; [|discriminate].
    destruct (return_wire c (mg x)) as [m'|] eqn:Rw; [|discriminate].
    inversion H; subst; clear H.
    destruct I as [IM GD WK WV WL EZ EO].
    destruct (return_wire_inv _ _ _ _ _ IM Rw) as (Hc & L & MI).
    constructor; cbn; auto.
    - apply NoDup_keys_aremove; exact WK.
    - apply NoDup_vals_aremove; exact WV.
    - intros c' HI. rewrite L. apply keys_aremove. split.
      + apply WL. eapply vals_aremove_in; eauto.
      + intro; subst. eapply vals_aremove_notin; eauto.
  Qed.

  Lemma fold_opt_inv : forall {A} (f : A -> st -> option st) l,
    (forall a x x', In a l -> inv x -> f a x = Some x' -> inv x') ->
    forall x x', inv x -> fold_opt f l x = Some x' -> inv x'.
  Proof.
    intros A f. induction l as [|a r IH]; cbn; intros Hf x x' I H.
    - inversion H; subst; exact I.
    - destruct (f a x) as [x1|] eqn:E; [|discriminate].
      apply (IH (fun b y y' Hb => Hf b y y' (or_intror Hb)) x1 x' (Hf a x x1 (or_introl eq_refl) I E) H).
  Qed.

  (* hypothesis on the static part of the circuit: its labels were not handed to the allocator *)
  Definition static_fine (w : Z) : Prop := ~ origin w.
  Definition op_fine (o : op) : Prop := Forall static_fine (statics_op o).

  Lemma mapped_wire_cases : forall wm ws c, In (St c) (map (map_wire wm) ws) ->
    In c (statics_ws ws) \/ In c (vals wm).
  Proof.
    induction ws as [|[s|d] r IH]; cbn; intros c H; [tauto | |].
    - destruct H as [H|H]; [inversion H; auto | destruct (IH _ H); auto].
    - destruct H as [H|H]; [|destruct (IH _ H); auto].
      destruct (aget d wm) as [c'|] eqn:G; [|discriminate]. inversion H; subst.
      right. eapply aget_val_In; eauto.
  Qed.

  Lemma step_inv : forall o x x', op_fine o -> inv x -> step o x = Some x' -> inv x'.
  Proof.
    intros [ds s r|ds|code ws] x x' F I H; cbn in H.
    - destruct s; try discriminate;
        (eapply fold_opt_inv; [|exact I|exact H]); intros; eapply alloc_one_inv; eauto.
    - (eapply fold_opt_inv; [|exact I|exact H]); intros; eapply dealloc_one_inv; eauto.
    - destruct (map_gate (wmap x) (dealloc x) ws) as [ws'|] eqn:M; [|discriminate].
      inversion H; subst; clear H.
      assert (W : ws' = map (map_wire (wmap x)) ws).
      { unfold map_gate in M. destruct (_ && _); [discriminate|]. destruct (uses_dealloc _ _); [discriminate|].
        inversion M; reflexivity. }
      destruct I as [IM GD WK WV WL EZ EO]. constructor; cbn; auto.
      destruct (proj2 (minv_iff _ _ _) IM) as [_ _ _ _ zl _ ori bel mn zer fre lz]. destruct IM as [S _].
      assert (T : forall c, In (St c) ws' -> ~ origin c \/ In c (keys (loaned (mg x)))).
      { intros c HI. rewrite W in HI. apply mapped_wire_cases in HI as [HI|HI]; [left | right; auto].
        unfold op_fine in F; cbn in F. rewrite Forall_forall in F. apply F; exact HI. }
      split; [exact S|]. constructor; auto.
      + intros w Hw. rewrite touch_gget; [auto|]. intro HI. apply T in HI as [HI|HI].
        * apply HI. apply ori. unfold inR; tauto.
        * eapply zl; eauto.
      + intros k E w Hw. rewrite touch_gget; [eauto|]. intro HI. apply T in HI as [HI|HI].
        * apply HI. right. destruct (mn k E) as (m0 & E0 & L). exists m0; split; [exact E0 | lia].
        * assert (w < k) by (apply (bel k E); unfold inR; tauto). lia.
  Qed.

  Lemma steps_inv : forall prog x x', Forall op_fine prog -> inv x -> steps prog x = Some x' -> inv x'.
  Proof.
    intros prog x x' F I H. rewrite Forall_forall in F. eapply (fold_opt_inv step); eauto using step_inv.
  Qed.

  Lemma steps_app : forall p q x x', steps (p ++ q) x = Some x' ->
    exists y, steps p x = Some y /\ steps q y = Some x'.
  Proof.
    unfold steps. induction p as [|o r IH]; cbn; intros q x x' H; [eauto|].
    destruct (step o x) as [x1|]; [eauto | discriminate].
  Qed.
End Inv.

Lemma pre_ok_iff : forall z a mi prog meas, pre_ok z a mi prog meas = true <->
  NoDup (z ++ a) /\ (forall w, In w (z ++ a) -> below mi w = true) /\
  (forall w, In w (statics prog meas) -> ~ In w (z ++ a) /\ below mi w = true).
Proof.
  intros z a mi prog meas. unfold pre_ok. rewrite !andb_true_iff, !forallb_forall, nodupZ_NoDup.
  assert (S : forall w, static_ok z a mi w = true <-> ~ In w (z ++ a) /\ below mi w = true).
  { intros w. unfold static_ok. rewrite andb_true_iff, negb_true_iff, <- not_true_iff_false, memZ_In. reflexivity. }
  setoid_rewrite S. tauto.
Qed.

Lemma pre_ok_facts : forall z a mi prog meas, pre_ok z a mi prog meas = true ->
  NoDup (z ++ a) /\ (forall w, In w (z ++ a) -> below mi w = true) /\
  (forall w, In w (statics prog meas) -> ~ origin z a mi w).
Proof.
  intros z a mi prog meas H. apply pre_ok_iff in H as (ND & B & S). repeat split; auto.
  intros w Hw O. destruct (S w Hw) as [N Bw]. destruct O as [O|(m0 & -> & L)]; [tauto | cbn in Bw; lia].
Qed.

Lemma aget_init : forall z w, aget w (map (fun w => (w, FZero)) z) = if memZ w z then Some FZero else None.
Proof.
  induction z as [|x r IH]; cbn; intros w; [reflexivity|]. rewrite IH. destruct (w =? x); reflexivity.
Qed.

(* initially the zeroed register and the labels from min_int on are flagged |0> *)
Lemma gget_init : forall mi z w, In w z \/ (exists m0, mi = Some m0 /\ m0 <= w) ->
  gget mi (map (fun w => (w, FZero)) z) w = FZero.
Proof.
  intros mi z w H. unfold gget. rewrite aget_init. destruct (memZ w z) eqn:E; [reflexivity|].
  destruct H as [H|(m0 & -> & L)]; [apply memZ_In in H; congruence|].
  destruct (m0 <=? w) eqn:E2; [reflexivity | lia].
Qed.

Lemma init_inv : forall z a mi ar, NoDup (z ++ a) -> (forall w, In w (z ++ a) -> below mi w = true) ->
  inv z a mi (init z a mi ar).
Proof.
  intros z a mi ar ND B.
  assert (P : Permutation (pool (mg (init z a mi ar))) (z ++ a)).
  { unfold pool; cbn. rewrite app_nil_r. apply Permutation_app; symmetry; apply Permutation_rev. }
  constructor; cbn; [split; constructor; cbn | auto; constructor ..].
  - exact (Permutation_NoDup (Permutation_sym P) ND).
  - intros w Hw. left. exact (Permutation_in w P Hw).
  - intros k -> w Hw. apply (Permutation_in w P), B in Hw. cbn in Hw. lia.
  - intros k ->. exists k. split; [reflexivity | lia].
  - intros w Hw. apply gget_init. left. apply in_rev; exact Hw.
  - intros k E w L. apply gget_init. right. exists k. split; assumption.
  - intros; discriminate.
Qed.

(* every state reachable from a configuration meeting the precondition satisfies the invariant *)
Lemma reach_inv : forall z a mi ar prog meas x, pre_ok z a mi prog meas = true ->
  steps prog (init z a mi ar) = Some x -> inv z a mi x.
Proof.
  intros z a mi ar prog meas x P H. destruct (pre_ok_facts _ _ _ _ _ P) as (ND & B & SF).
  eapply steps_inv; [|apply init_inv; assumption | exact H].
  apply Forall_forall. intros o Ho. apply Forall_forall. intros w Hw. apply SF.
  apply in_or_app. left. apply in_flat_map. eauto.
Qed.

Lemma inv_disjoint_lemma : forall z a mi ar prog meas x, pre_ok z a mi prog meas = true ->
  steps prog (init z a mi ar) = Some x ->
  NoDup (zeroed (mg x) ++ anyst (mg x) ++ map fst (loaned (mg x))) /\
  Forall (fun s => ~ In s (zeroed (mg x) ++ anyst (mg x) ++ map fst (loaned (mg x)))) (statics prog meas).
Proof.
  intros z a mi ar prog meas x P H. destruct (reach_inv _ _ _ _ _ _ _ P H) as [[[nd ori _ _] _] _ _ _ _ _ _].
  split; [exact nd|]. apply Forall_forall. intros s Hs HI.
  exact (proj2 (proj2 (pre_ok_facts _ _ _ _ _ P)) s Hs (ori s HI)).
Qed.

Lemma no_alias_lemma : forall z a mi ar prog meas x, pre_ok z a mi prog meas = true ->
  steps prog (init z a mi ar) = Some x ->
  forall d1 d2 c, aget d1 (wmap x) = Some c -> aget d2 (wmap x) = Some c -> d1 = d2.
Proof.
  intros z a mi ar prog meas x P H. pose proof (reach_inv _ _ _ _ _ _ _ P H) as I.
  intros d1 d2 c. apply aget_inj, (i_wm_vals _ _ _ _ I).
Qed.

Lemma never_on_static_lemma : forall z a mi ar prog meas x, pre_ok z a mi prog meas = true ->
  steps prog (init z a mi ar) = Some x ->
  (forall d c, aget d (wmap x) = Some c ->
     (In c (z ++ a) \/ exists m0, mi = Some m0 /\ m0 <= c) /\ ~ In c (statics prog meas)) /\
  Forall (fun e => match e with EvAlloc _ c _ _ =>
     (In c (z ++ a) \/ exists m0, mi = Some m0 /\ m0 <= c) /\ ~ In c (statics prog meas) end) (events x).
Proof.
  intros z a mi ar prog meas x P H. pose proof (reach_inv _ _ _ _ _ _ _ P H) as I.
  assert (NS : forall c, origin z a mi c -> ~ In c (statics prog meas)).
  { intros c O Hs. exact (proj2 (proj2 (pre_ok_facts _ _ _ _ _ P)) c Hs O). }
  destruct I as [IM _ _ _ WL _ EO]. split.
  - intros d c G. assert (O : origin z a mi c).
    { apply (s_orig _ _ _ _ (proj1 IM)), in_pool. right; right. apply WL. eapply aget_val_In; eauto. }
    split; [exact O | auto].
  - eapply Forall_impl; [|exact EO]. intros [d c s f] O. split; [exact O | auto].
Qed.

Lemma zero_on_request_lemma : forall z a mi ar prog meas x, pre_ok z a mi prog meas = true ->
  steps prog (init z a mi ar) = Some x ->
  forall d c f, In (EvAlloc d c AZero f) (events x) -> f = FZero.
Proof.
  intros z a mi ar prog meas x P H d c f HI. pose proof (reach_inv _ _ _ _ _ _ _ P H) as I.
  destruct I as [_ _ _ _ _ EZ _]. rewrite Forall_forall in EZ. specialize (EZ _ HI).
  destruct f; [reflexivity | discriminate].
Qed.

(* a single-wire allocation made in any reachable state: the wire handed out, what is emitted, its flag *)
Lemma alloc_step_lemma : forall z a mi ar prog meas x s rst d x', pre_ok z a mi prog meas = true ->
  steps prog (init z a mi ar) = Some x -> alloc_one s rst d x = Some x' ->
  exists c, aget d (wmap x') = Some c /\
    ~ In c (map snd (wmap x)) /\                                  (* not the wire of any live dynamic wire *)
    (s = AZero -> gget (gdef x') (ghost x') c = FZero) /\          (* |0> when zero was requested *)
    (out x' = out x \/ out x' = (RESET, [St c]) :: out x).
Proof.
  intros z a mi ar prog meas x s rst d x' P H A. pose proof (reach_inv _ _ _ _ _ _ _ P H) as I.
  unfold alloc_one in A. destruct (get_wire s rst (mg x)) as [[[c m'] rs]|] eqn:G; [|discriminate].
  inversion A; subst; clear A. cbn [wmap gdef ghost out].
  destruct I as [IM GD _ _ WL _ _].
  destruct (get_wire_inv _ _ _ _ _ _ _ _ _ _ _ IM G) as ((O & N & K & MI) & Z).
  exists c. rewrite aget_aset_eq. split; [reflexivity|].
  split; [intro HI; apply WL in HI; tauto|]. split; [rewrite GD; exact Z|]. destruct rs; auto.
Qed.

Lemma fold_max_ge : forall l x, In x l -> x <= fold_right Z.max (-1) l.
Proof.
  induction l as [|y r IH]; cbn; intros x H; [tauto|].
  destruct H as [->|H]; [lia | specialize (IH _ H); lia].
Qed.

(* device_resolve_dynamic_wires builds its registers from the device wires minus the static labels, or takes
   min_int = 1 + the largest static label: either way the precondition holds *)
Lemma device_pre_lemma : forall dw prog meas z mi, NoDup (match dw with Some l => l | None => [] end) ->
  dev_registers dw prog meas = (z, mi) -> pre_ok z [] mi prog meas = true.
Proof.
  intros dw prog meas z mi ND H. unfold dev_registers in H. apply pre_ok_iff. rewrite app_nil_r.
  assert (Else : ([] : list Z, Some (fold_right Z.max (-1) (statics prog meas) + 1)) = (z, mi) ->
                 NoDup z /\ (forall w, In w z -> below mi w = true) /\
                 (forall w, In w (statics prog meas) -> ~ In w z /\ below mi w = true)).
  { intros E; inversion E; subst. split; [constructor|]. split; [intros w []|].
    intros x Hx. split; [tauto|]. pose proof (fold_max_ge _ _ Hx). cbn. lia. }
  destruct dw as [[|w r]|]; auto. clear Else. cbn in ND. remember (w :: r) as l eqn:EL. clear EL.
  inversion H; subst; clear H.
  split; [apply NoDup_rev, NoDup_filter; exact ND|]. split; [reflexivity|].
  intros x Hx. split; [|reflexivity]. intro E. apply in_rev, filter_In in E as [_ E].
  apply memZ_In in Hx. rewrite Hx in E. discriminate.
Qed.

(* the precondition of a program is inherited by every prefix: the statements hold after every step *)
Lemma pre_ok_prefix : forall z a mi p q meas, pre_ok z a mi (p ++ q) meas = true -> pre_ok z a mi p meas = true.
Proof.
  intros z a mi p q meas H. rewrite pre_ok_iff in *. destruct H as (ND & B & S). repeat split; auto; apply S;
    unfold statics in *; rewrite flat_map_app, !in_app_iff in *; tauto.
Qed.

Lemma every_step_lemma : forall z a mi ar p q meas x', pre_ok z a mi (p ++ q) meas = true ->
  steps (p ++ q) (init z a mi ar) = Some x' ->
  exists y, steps p (init z a mi ar) = Some y /\ steps q y = Some x' /\ pre_ok z a mi p meas = true.
Proof.
  intros z a mi ar p q meas x' P H. apply steps_app in H as (y & H1 & H2).
  exists y. repeat split; auto. eapply pre_ok_prefix; eauto.
Qed.

Lemma resolve_runs_steps : forall z a mi ar prog meas r, resolve z a mi ar prog meas = Some r ->
  exists x, steps prog (init z a mi ar) = Some x.
Proof.
  intros z a mi ar prog meas r H. unfold resolve in H.
  destruct (steps prog (init z a mi ar)) as [x|]; [eauto | discriminate].
Qed.
