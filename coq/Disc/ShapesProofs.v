(* Lemmas about the result-structure model (property C32).
   result_shape is all_some over the shot copies of all_some over the measurements, with the two "unwrap a
   1-tuple" steps; each clause of the property is that definition read at one of its branches: one copy
   (result_single_copy), one measurement, several copies.  Broadcasting is pushed through the two levels as the
   tree map add_batch (struct_batch, per_shot_batch, broadcast_l).  Jacobians: jac_tree is a tree map, so it
   commutes with taking the subtree at a path (get_jac), which gives the nesting statement; the in-repo
   _jac_shape_dtype_struct is compared with it on P scalar parameters (nils P). *)
From Coq Require Import List ZArith Bool Lia.
From PLV Require Import Disc.ShapesModel.
Import ListNotations.
Open Scope Z_scope.

(* subtree at a path of tuple indices *)
Fixpoint get (t : tree) (p : list nat) : option tree :=
  match p with
  | [] => Some t
  | i :: q => match t with
              | Tup l => match nth_error l i with Some c => get c q | None => None end
              | _ => None
              end
  end.

(* what broadcasting does to a structure: one leading axis per array leaf; a counts dictionary
   becomes a tuple of b dictionaries *)
Fixpoint add_batch (b : Z) (t : tree) : tree :=
  match t with
  | Leaf d => Leaf (b :: d)
  | Opaque => Tup (repeat_t Opaque (Z.to_nat b))
  | Tup l => Tup (map (add_batch b) l)
  end.

Definition differentiable (m : mkind) : Prop := m <> KCounts.

(* induction principle with the Forall hypothesis for the nested list *)
Fixpoint tree_ind' (P : tree -> Prop) (HL : forall d, P (Leaf d)) (HO : P Opaque)
         (HT : forall l, Forall P l -> P (Tup l)) (t : tree) : P t :=
  match t with
  | Leaf d => HL d
  | Opaque => HO
  | Tup l => HT l ((fix go (l : list tree) : Forall P l :=
                      match l with
                      | [] => Forall_nil P
                      | x :: r => Forall_cons x (tree_ind' P HL HO HT x) (go r)
                      end) l)
  end.

Lemma all_some_map_spec : forall A B (f : A -> option B) l r,
  all_some (map f l) = Some r -> length r = length l /\ Forall2 (fun x y => f x = Some y) l r.
Proof.
  induction l as [|x l IH]; intros r H; cbn in H.
  - inversion H; split; [reflexivity | constructor].
  - destruct (f x) eqn:Ex; [|discriminate]. destruct (all_some (map f l)) eqn:E; [|discriminate].
    inversion H; subst. destruct (IH _ eq_refl) as [L F]. split; [cbn; now rewrite L | now constructor].
Qed.

Lemma all_some_map_opt : forall A B C (g : A -> option B) (f : B -> C) l,
  all_some (map (fun x => option_map f (g x)) l) = option_map (map f) (all_some (map g l)).
Proof.
  induction l as [|x l IH]; cbn; [reflexivity|].
  destruct (g x); cbn; [|reflexivity]. rewrite IH. destruct (all_some (map g l)); reflexivity.
Qed.

Lemma shots_iter_single_not_partitioned : forall sp s, shots_iter sp = [s] -> partitioned sp = false.
Proof.
  intros [|l] s H; cbn in *; [reflexivity|].
  destruct l as [|a [|b r]]; cbn in H; try discriminate. reflexivity.
Qed.

Lemma result_single_copy : forall sp n B ms s, shots_iter sp = [s] ->
  result_shape (mkReq sp n B ms) = per_shot n B ms s.
Proof.
  intros sp n B ms s H. unfold result_shape; cbn [r_wires r_batch r_mps r_shots].
  rewrite H, (shots_iter_single_not_partitioned _ _ H). cbn.
  destruct (per_shot n B ms s); reflexivity.
Qed.

Lemma unwrap_single_l : forall sp n B m s, shots_iter sp = [s] ->
  result_shape (mkReq sp n B [m]) = struct n B s m.
Proof.
  intros. rewrite (result_single_copy _ _ _ _ _ H). unfold per_shot; cbn.
  destruct (struct n B s m); reflexivity.
Qed.

Lemma tuple_multi_l : forall sp n B ms s, shots_iter sp = [s] -> length ms <> 1%nat ->
  (forall ts, all_some (map (struct n B s) ms) = Some ts ->
     result_shape (mkReq sp n B ms) = Some (Tup ts) /\ length ts = length ms /\
     Forall2 (fun m t => struct n B s m = Some t) ms ts) /\
  (all_some (map (struct n B s) ms) = None -> result_shape (mkReq sp n B ms) = None).
Proof.
  intros sp n B ms s H Hl. rewrite (result_single_copy _ _ _ _ _ H). unfold per_shot. split.
  - intros ts E. rewrite E. destruct (all_some_map_spec _ _ _ _ _ E) as [L F]. repeat split; auto.
    destruct ts as [|a [|b r]]; try reflexivity. cbn in L. congruence.
  - intros E; rewrite E; reflexivity.
Qed.

Lemma shot_vector_outer_l : forall l n B ms, (1 < length l)%nat ->
  result_shape (mkReq (ShotList l) n B ms) =
  match all_some (map (fun s => result_shape (mkReq (ShotList [s]) n B ms)) l) with
  | None => None
  | Some cs => Some (Tup cs)
  end.
Proof.
  intros l n B ms H. unfold result_shape at 1; cbn [r_wires r_batch r_mps r_shots shots_iter partitioned].
  rewrite map_map, (map_ext (fun s => result_shape (mkReq (ShotList [s]) n B ms)) (fun s => per_shot n B ms (Some s)))
    by (intros s; now apply result_single_copy).
  replace (1 <? Z.of_nat (length l)) with true by (symmetry; apply Z.ltb_lt; lia).
  reflexivity.
Qed.

Lemma shot_vector_len : forall l n B ms cs,
  all_some (map (fun s => result_shape (mkReq (ShotList [s]) n B ms)) l) = Some cs ->
  length cs = length l /\ Forall2 (fun s c => result_shape (mkReq (ShotList [s]) n B ms) = Some c) l cs.
Proof.
  intros l n B ms cs. apply (all_some_map_spec _ _ (fun s => result_shape (mkReq (ShotList [s]) n B ms))).
Qed.

Lemma struct_batch : forall n b s m, b <> 0 ->
  struct n (Some b) s m = option_map (add_batch b) (struct n None s m).
Proof.
  intros n b s m Hb. assert (E : (b =? 0) = false) by (apply Z.eqb_neq; assumption).
  destruct m; cbn [struct]; rewrite ?E; try reflexivity;
    destruct (mp_shape s n _); reflexivity.
Qed.

Lemma unwrap_map : forall (f : tree -> tree) ts, (forall l, f (Tup l) = Tup (map f l)) ->
  match map f ts with [t] => t | _ => Tup (map f ts) end = f (match ts with [t] => t | _ => Tup ts end).
Proof.
  intros f ts Hf. destruct ts as [|a [|b r]]; cbn; try reflexivity; rewrite Hf; reflexivity.
Qed.

Lemma per_shot_batch : forall n b ms s, b <> 0 ->
  per_shot n (Some b) ms s = option_map (add_batch b) (per_shot n None ms s).
Proof.
  intros n b ms s Hb. unfold per_shot.
  rewrite (map_ext (struct n (Some b) s) (fun m => option_map (add_batch b) (struct n None s m)))
    by (intros; now apply struct_batch).
  rewrite all_some_map_opt. destruct (all_some (map (struct n None s) ms)) as [ts|]; cbn; [|reflexivity].
  f_equal. apply unwrap_map. reflexivity.
Qed.

Lemma broadcast_l : forall sp n b ms, b <> 0 ->
  result_shape (mkReq sp n (Some b) ms) = option_map (add_batch b) (result_shape (mkReq sp n None ms)).
Proof.
  intros sp n b ms Hb. unfold result_shape; cbn [r_wires r_batch r_mps r_shots].
  rewrite (map_ext (per_shot n (Some b) ms) (fun s => option_map (add_batch b) (per_shot n None ms s)))
    by (intros; now apply per_shot_batch).
  rewrite all_some_map_opt.
  destruct (all_some (map (per_shot n None ms) (shots_iter sp))) as [cs|]; cbn; [|reflexivity].
  destruct (partitioned sp); cbn; [reflexivity|]. destruct cs; reflexivity.
Qed.

Lemma no_broadcast_zero : forall sp n ms,
  result_shape (mkReq sp n (Some 0) ms) = result_shape (mkReq sp n None ms).
Proof.
  intros. unfold result_shape; cbn [r_wires r_batch r_mps r_shots].
  rewrite (map_ext (per_shot n (Some 0) ms) (per_shot n None ms)); [reflexivity|].
  intros s. unfold per_shot. rewrite (map_ext (struct n (Some 0) s) (struct n None s)); [reflexivity|].
  intros m; destruct m; reflexivity.
Qed.

Lemma batch_outer_l : forall rs ts, batch_shape rs = Some (Tup ts) ->
  length ts = length rs /\ Forall2 (fun r t => result_shape r = Some t) rs ts.
Proof.
  intros rs ts H. unfold batch_shape in H. destruct (all_some (map result_shape rs)) as [l|] eqn:E; [|discriminate].
  inversion H; subst. now apply all_some_map_spec.
Qed.

Lemma get_jac : forall ps p t u, get t p = Some u -> get (jac_tree ps t) p = Some (jac_tree ps u).
Proof.
  induction p as [|i q IH]; intros t u H; cbn in *.
  - inversion H; reflexivity.
  - destruct t as [d| |l]; try discriminate. cbn [jac_tree get].
    destruct (nth_error l i) as [c|] eqn:E; [|discriminate].
    rewrite (map_nth_error (jac_tree ps) _ _ E). apply IH; assumption.
Qed.

Lemma get_app : forall p q t, get t (p ++ q) = match get t p with Some u => get u q | None => None end.
Proof.
  induction p as [|i p IH]; intros q t; cbn; [reflexivity|].
  destruct t as [d| |l]; try reflexivity. destruct (nth_error l i); [apply IH|reflexivity].
Qed.

Lemma jac_shape_is_map : forall r ps, jac_shape r ps = option_map (jac_tree ps) (result_shape r).
Proof. intros; unfold jac_shape; destruct (result_shape r); reflexivity. Qed.

Lemma jac_leaf_multi : forall d ps, length ps <> 1%nat -> jac_leaf d ps = Tup (map (fun p => Leaf (d ++ p)) ps).
Proof. intros d ps H. unfold jac_leaf. destruct ps as [|a [|b r]]; try reflexivity. cbn in H; congruence. Qed.

Lemma jac_nesting_l : forall ps t path,
  (forall d, get t path = Some (Leaf d) ->
     (forall p, ps = [p] -> get (jac_tree ps t) path = Some (Leaf (d ++ p))) /\
     (length ps <> 1%nat ->
        (exists l', get (jac_tree ps t) path = Some (Tup l') /\ length l' = length ps) /\
        forall i p, nth_error ps i = Some p -> get (jac_tree ps t) (path ++ [i]) = Some (Leaf (d ++ p)))) /\
  (forall l, get t path = Some (Tup l) ->
     exists l', get (jac_tree ps t) path = Some (Tup l') /\ length l' = length l) /\
  (get t path = Some Opaque -> get (jac_tree ps t) path = Some Opaque).
Proof.
  intros ps t path. repeat split.
  - intros p Hp. rewrite (get_jac ps _ _ _ H). subst; reflexivity.
  - rewrite (get_jac ps _ _ _ H). cbn [jac_tree]. rewrite jac_leaf_multi by assumption.
    eexists; split; [reflexivity | apply map_length].
  - intros i p Hi. rewrite get_app, (get_jac ps _ _ _ H). cbn [jac_tree get].
    rewrite jac_leaf_multi by assumption. rewrite (map_nth_error _ _ _ Hi). reflexivity.
  - intros l H. rewrite (get_jac ps _ _ _ H). cbn [jac_tree]. eexists; split; [reflexivity|apply map_length].
  - intros H. rewrite (get_jac ps _ _ _ H). reflexivity.
Qed.

(* one scalar parameter: the Jacobian has exactly the structure of the result *)
Lemma jac_tree_one_scalar : forall t, jac_tree [[]] t = t.
Proof.
  apply tree_ind'; cbn; intros.
  - rewrite app_nil_r; reflexivity.
  - reflexivity.
  - f_equal. induction H; cbn; [reflexivity|]. rewrite H, IHForall; reflexivity.
Qed.

Fixpoint nils (P : nat) : list (list Z) := match P with O => [] | S k => [] :: nils k end.

Lemma map_nils : forall d P, map (fun p : list Z => Leaf (d ++ p)) (nils P) = repeat_t (Leaf d) P.
Proof. induction P; cbn; [reflexivity|]. rewrite app_nil_r, IHP; reflexivity. Qed.

Lemma jac_leaf_nils : forall d P, P <> 1%nat -> jac_leaf d (nils P) = Tup (repeat_t (Leaf d) P).
Proof.
  intros d P HP. rewrite jac_leaf_multi, map_nils; [reflexivity|]. destruct P as [|[|k]]; cbn; congruence.
Qed.

Lemma struct_leaf : forall n B s m t, differentiable m -> struct n B s m = Some t -> exists d, t = Leaf d.
Proof.
  intros n B s m t Hm H. destruct m; try (exfalso; apply Hm; reflexivity);
    cbn [struct] in H; destruct (mp_shape s n _); inversion H; eexists; reflexivity.
Qed.

(* _jac_shape_dtype_struct agrees with the convention whenever it can be reached (no shot vector) *)
Lemma jac_struct_agrees_l : forall sp n B ms s P, shots_iter sp = [s] -> Forall differentiable ms ->
  result_shape (mkReq sp n B ms) <> None ->
  jac_struct (mkReq sp n B ms) P = jac_shape (mkReq sp n B ms) (nils P).
Proof.
  intros sp n B ms s P Hs Hd Hne. unfold jac_struct, jac_shape. cbn [r_mps].
  rewrite (result_single_copy _ _ _ _ _ Hs) in *. unfold per_shot in *.
  destruct (all_some (map (struct n B s) ms)) as [ts|] eqn:E; [|congruence].
  destruct (all_some_map_spec _ _ _ _ _ E) as [L F2].
  assert (Hleaf : Forall (fun t => exists d, t = Leaf d) ts).
  { clear - F2 Hd. induction F2; constructor.
    - inversion Hd; subst. eapply struct_leaf; eauto.
    - apply IHF2. inversion Hd; assumption. }
  destruct (Nat.eqb P 1) eqn:EP.
  - apply Nat.eqb_eq in EP; subst P. cbn [nils]. rewrite jac_tree_one_scalar. reflexivity.
  - apply Nat.eqb_neq in EP. destruct (Nat.eqb (length ms) 1) eqn:EL.
    + apply Nat.eqb_eq in EL. destruct ts as [|a [|b r]]; cbn in L; try congruence.
      inversion Hleaf as [|? ? [d Hd'] _]; subst. cbn [jac_tree]. rewrite jac_leaf_nils by assumption. reflexivity.
    + apply Nat.eqb_neq in EL. destruct ts as [|a [|b r]].
      * reflexivity.
      * cbn in L; congruence.
      * cbn [jac_tree]. do 2 f_equal. apply map_ext_Forall.
        eapply Forall_impl; [|exact Hleaf]. intros t [d ->]. cbn [jac_tree].
        rewrite jac_leaf_nils by assumption. reflexivity.
Qed.

Lemma expected_config_free : forall c1 c2 r rs ps,
  expected (CRes c1 r) = expected (CRes c2 r) /\
  expected (CBatch c1 rs) = expected (CBatch c2 rs) /\
  expected (CJac c1 r ps) = expected (CJac c2 r ps) /\
  expected (CRes c1 r) = expected (CStruct r).
Proof. intros; repeat split; reflexivity. Qed.
