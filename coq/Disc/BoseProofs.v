(* Lemmas about Disc/BoseModel.v (property C54).  The per-truncation statements are finite (truncations 2..8,
   bounded word length: the bounds are written in every statement) and are decided by evaluation on the exact
   model, one pass per mapping and truncation in which the image of every word is computed once; the linearity
   statements hold for all sentences. *)
From Coq Require Import List ZArith Bool QArith Qabs Lia.
From PLV Require Import Alg.ListFacts Disc.PauliAlgModel Disc.BoseModel.
Import ListNotations.
Open Scope Z_scope.

Lemma in_zrange d z : 0 <= z < d -> In z (zrange d).
Proof.
  intros H. unfold zrange. apply in_map_iff. exists (Z.to_nat z). split; [lia|].
  apply in_seq. lia.
Qed.

Lemma zrange_in d z : In z (zrange d) -> 0 <= z < d.
Proof.
  unfold zrange. intros H. apply in_map_iff in H. destruct H as [k [E I]]. apply in_seq in I. lia.
Qed.

Definition valid_levels (d : Z) (modes : nat) (ls : list Z) : Prop :=
  length ls = modes /\ forall l, In l ls -> 0 <= l < d.

Lemma all_levels_in d : forall modes ls, valid_levels d modes ls -> In ls (all_levels d modes).
Proof.
  induction modes as [|k IH]; intros ls [L V].
  - destruct ls; [left; reflexivity | discriminate].
  - destruct ls as [|l r]; [discriminate|]. cbn [all_levels]. apply in_flat_map.
    exists l. split.
    + apply in_zrange. apply V. left; reflexivity.
    + apply in_map. apply IH. split; [simpl in L; lia | intros x Hx; apply V; right; exact Hx].
Qed.

Lemma in_2_8 d : 2 <= d <= 8 -> In d [2; 3; 4; 5; 6; 7; 8].
Proof. intros H. simpl. lia. Qed.
Lemma in_2_4 d : 2 <= d <= 4 -> In d [2; 3; 4].
Proof. intros H. simpl. lia. Qed.

Lemma kind_in kd : kd <> MChr -> In kd [MBin; MUna].
Proof. destruct kd; simpl; intros H; auto. Qed.

Lemma sqrt_table : forall n, 1 <= n <= 7 -> keqb (kmul (sqrtK n) (sqrtK n)) (kofZ n) = true.
Proof.
  intros n H.
  assert (E : n = 1 \/ n = 2 \/ n = 3 \/ n = 4 \/ n = 5 \/ n = 6 \/ n = 7) by lia.
  destruct E as [E|[E|[E|[E|[E|[E|E]]]]]]; subst n; vm_compute; reflexivity.
Qed.

Lemma approx_sq :
  (Qabs (a2 * a2 - 2) < 1 # 100000000000000000000000000000)%Q /\
  (Qabs (a3 * a3 - 3) < 1 # 100000000000000000000000000000)%Q /\
  (Qabs (a5 * a5 - 5) < 1 # 100000000000000000000000000000)%Q /\
  (Qabs (a7 * a7 - 7) < 1 # 100000000000000000000000000000)%Q.
Proof. repeat split; vm_compute; reflexivity. Qed.

Lemma forallb2_in {A B} (f : A -> B -> bool) la lb :
  forallb (fun a => forallb (f a) lb) la = true -> forall a b, In a la -> In b lb -> f a b = true.
Proof.
  intros H a b Ia Ib. rewrite forallb_forall in H. specialize (H a Ia).
  rewrite forallb_forall in H. exact (H b Ib).
Qed.

Lemma forallb_map {A B} (g : A -> B) (f : B -> bool) l : forallb f (map g l) = forallb (fun a => f (g a)) l.
Proof. induction l as [|a r IH]; [reflexivity|]. cbn [map forallb]. rewrite IH. reflexivity. Qed.

Lemma words_upto_length L : forall n w, In w (words_upto L n) -> (length w <= n)%nat.
Proof.
  induction n as [|n IH]; intros w H; cbn [words_upto] in H.
  - destruct H as [<-|[]]. apply Nat.le_refl.
  - destruct H as [<-|H]; [apply Nat.le_0_l|].
    apply in_flat_map in H. destruct H as [v [Hv H]]. apply in_map_iff in H. destruct H as [l [<- _]].
    cbn [length]. apply le_n_S. exact (IH v Hv).
Qed.

Lemma words_upto_S L : forall n w, In w (words_upto L n) -> In w (words_upto L (S n)).
Proof.
  induction n as [|n IH]; intros w H.
  - destruct H as [<-|[]]. left; reflexivity.
  - cbn [words_upto] in H. destruct H as [<-|H]; [left; reflexivity|]. right.
    apply in_flat_map in H. destruct H as [v [Hv H]]. apply in_flat_map. exists v. split; [exact (IH v Hv) | exact H].
Qed.

Fixpoint bweqb (a b : bword) : bool :=
  match a, b with
  | [], [] => true
  | (i, s) :: a', (j, t) :: b' => (i =? j) && Bool.eqb s t && bweqb a' b'
  | _, _ => false
  end.

Lemma bweqb_eq : forall a b, bweqb a b = true -> a = b.
Proof.
  induction a as [|[i s] a IH]; intros [|[j t] b] H; try discriminate; [reflexivity|].
  cbn [bweqb] in H. apply andb_true_iff in H. destruct H as [H Hr]. apply andb_true_iff in H. destruct H as [Hi Hs].
  apply Z.eqb_eq in Hi. apply eqb_prop in Hs. rewrite (IH b Hr). subst. reflexivity.
Qed.

(* `kselem` expands every Pauli word over the wire order and takes the bits of x and y again for every pair (x, y),
   and multiplies the coefficient of a term by zero whenever the term does not connect x to y.  `elem` takes the
   expansions and the bit lists as arguments and skips such terms after a boolean test. *)
Fixpoint connects (l : list P1) (r c : list bool) : bool :=
  match l, r, c with
  | p :: l', a :: r', b :: c' =>
      (match p with PI | PZ => Bool.eqb a b | PX | PY => xorb a b end) && connects l' r' c'
  | _, _, _ => true
  end.

Lemma kmat_not_connected : forall l r c, connects l r c = false -> kmat l r c = c0.
Proof.
  induction l as [|p l IH]; intros [|a r] [|b c] H; try discriminate H; try reflexivity.
  cbn [connects] in H. cbn [kmat]. apply andb_false_iff in H. destruct H as [H|H].
  - destruct p, a, b; try discriminate H; reflexivity.
  - rewrite (IH r c H). unfold cmul, c0. cbn [fst snd]. rewrite !Z.mul_0_r. reflexivity.
Qed.

Lemma kmul_k0_r : forall a, kmul a k0 = k0.
Proof. induction a as [|e a IH]; [reflexivity|]. exact IH. Qed.

Definition expansions (nq : Z) (s : ksent) : list (list P1 * K) := map (fun e => (expand (zrange nq) (fst e), snd e)) s.
Definition zbits (nq x : Z) : list bool := map (Z.testbit x) (zrange nq).

Definition elem (es : list (list P1 * K)) (xb yb : list bool) : K :=
  fold_right (fun e acc => if connects (fst e) xb yb
                           then kadd (kmul (snd e) (kofGZ (kmat (fst e) xb yb))) acc else acc) k0 es.

Lemma kselem_elem nq s x y : kselem nq s x y = elem (expansions nq s) (zbits nq x) (zbits nq y).
Proof.
  unfold kselem, elem, expansions, zbits, wmat. induction s as [|e s IH]; [reflexivity|].
  cbn [map fold_right fst snd]. rewrite <- IH.
  destruct (connects (expand (zrange nq) (fst e)) (map (Z.testbit x) (zrange nq)) (map (Z.testbit y) (zrange nq))) eqn:C;
    [reflexivity|].
  rewrite (kmat_not_connected _ _ _ C). change (kofGZ c0) with k0. rewrite kmul_k0_r. reflexivity.
Qed.

(* the checkers of the model on a given image `s` of the word, through `elem` *)
Definition image_with (kd : mapkind) (modes : nat) (d : Z) (w : bword) (s : ksent) : bool :=
  let nq := nqubits kd d (Z.of_nat modes) in
  let es := expansions nq s in
  let code := map (fun ms => (ms, zbits nq (enc kd d ms))) (all_levels d modes) in
  forallb (fun m => forallb (fun n =>
     keqb (elem es (snd m) (snd n)) (ladder_elem d w (fst m) (fst n))) code) code.

Definition closed_with (kd : mapkind) (modes : nat) (d : Z) (s : ksent) : bool :=
  let nq := nqubits kd d (Z.of_nat modes) in
  let es := expansions nq s in
  let code := map (enc kd d) (all_levels d modes) in
  let cbits := map (zbits nq) code in
  forallb (fun x => zmem_l x code ||
     let xb := zbits nq x in forallb (fun yb => k_is0 (elem es xb yb)) cbits) (zrange (Z.shiftl 1 nq)).

Lemma image_with_eq kd modes d w : image_with kd modes d w (get_word kd d w) = image_ok kd modes d w.
Proof.
  unfold image_with, image_ok. cbv zeta. rewrite forallb_map. apply forallb_ext. intros ms.
  rewrite forallb_map. apply forallb_ext. intros ns. cbn [fst snd]. rewrite kselem_elem. reflexivity.
Qed.

Lemma closed_with_eq kd modes d w : closed_with kd modes d (get_word kd d w) = closed_ok kd modes d w.
Proof.
  unfold closed_with, closed_ok. cbv zeta. apply forallb_ext. intros x. f_equal.
  rewrite forallb_map. apply forallb_ext. intros y. rewrite kselem_elem. reflexivity.
Qed.

(* The binary and the Christiansen image of a word is a product over its letters, so the images of all words up to
   a length are computed along the tree of words: every word extends the unpruned product of its prefix by one
   letter, and the image of a letter is computed once. *)
Fixpoint prod_table (imgs : list ((Z * bool) * ksent)) (n : nat) (w : bword) (acc : ksent) : list (bword * ksent) :=
  (w, acc) :: match n with
              | O => []
              | S k => flat_map (fun li => prod_table imgs k (w ++ [fst li]) (ksmatmul acc (snd li))) imgs
              end.

Lemma prod_table_spec (op : Z * bool -> ksent) letters : forall n w acc e,
  In e (prod_table (map (fun l => (l, op l)) letters) n w acc) ->
  exists v, fst e = w ++ v /\ snd e = fold_left (fun a l => ksmatmul a (op l)) v acc.
Proof.
  induction n as [|n IH]; intros w acc e H; cbn [prod_table] in H; destruct H as [<-|H];
    try (exists []; split; [symmetry; apply app_nil_r | reflexivity]).
  - destruct H.
  - apply in_flat_map in H. destruct H as [li [Hl H]]. apply in_map_iff in Hl. destruct Hl as [l [<- _]].
    cbn [fst snd] in H. destruct (IH _ _ _ H) as [v [Ew Es]].
    exists (l :: v). split; [rewrite Ew, <- app_assoc; reflexivity | exact Es].
Qed.

Definition pruned (t : list (bword * ksent)) : list (bword * ksent) := map (fun e => (fst e, ksprune (snd e))) t.

Definition images (kd : mapkind) (d : Z) (letters : list (Z * bool)) (n : nat) : list (bword * ksent) :=
  match kd with
  | MBin => if (d <? 2) || (8 <? d) then []
            else pruned (prod_table (map (fun l => (l, bin_op d l)) letters) n [] ksid)
  | MUna => map (fun w => (w, get_word MUna d w)) (words_upto letters n)
  | MChr => pruned (prod_table (map (fun l => (l, chr_op l)) letters) n [] ksid)
  end.

Lemma images_sound kd d letters n : forall e, In e (images kd d letters n) -> snd e = get_word kd d (fst e).
Proof.
  intros e H. unfold get_word, map_word. destruct kd; unfold images in H.
  - destruct ((d <? 2) || (8 <? d)); [destruct H|].
    apply in_map_iff in H. destruct H as [e' [<- H]]. apply prod_table_spec in H. destruct H as [v [-> ->]]. reflexivity.
  - apply in_map_iff in H. destruct H as [w [<- _]]. reflexivity.
  - apply in_map_iff in H. destruct H as [e' [<- H]]. apply prod_table_spec in H. destruct H as [v [-> ->]]. reflexivity.
Qed.

(* `P` holds of the image that the table gives for `w` *)
Definition image_in (tbl : list (bword * ksent)) (w : bword) (P : ksent -> bool) : bool :=
  existsb (fun e => if bweqb (fst e) w then P (snd e) else false) tbl.

Lemma image_in_elim kd d letters n w P : image_in (images kd d letters n) w P = true -> P (get_word kd d w) = true.
Proof.
  unfold image_in. intros H. apply existsb_exists in H. destruct H as [e [I H]].
  destruct (bweqb (fst e) w) eqn:E; [|discriminate H]. apply bweqb_eq in E. subst w.
  rewrite <- (images_sound _ _ _ _ e I). exact H.
Qed.

(* One pass per mapping and truncation: the three checks of a word share its image, and the image of the adjoint
   word is looked up as well.  The code space check is made for the words of length <= nclosed. *)
Definition sweep (kd : mapkind) (modes : nat) (d : Z) (nclosed : nat) (letters : list (Z * bool)) (n : nat) : bool :=
  let tbl := images kd d letters n in
  forallb (fun w => image_in tbl w (fun s =>
     image_with kd modes d w s &&
     (if (nclosed <? length w)%nat then true else closed_with kd modes d s) &&
     image_in tbl (badj w) (fun s' => ks_eqb s' (ksconj s)))) (words_upto letters n).

Lemma sweep_elim kd modes d nclosed letters n : sweep kd modes d nclosed letters n = true ->
  forall w, In w (words_upto letters n) ->
  image_ok kd modes d w = true /\
  ((length w <= nclosed)%nat -> closed_ok kd modes d w = true) /\
  adjoint_ok kd d w = true.
Proof.
  unfold sweep. cbv zeta. intros H w Hw. rewrite forallb_forall in H.
  specialize (H w Hw). apply image_in_elim in H.
  apply andb_true_iff in H. destruct H as [H Ha]. apply andb_true_iff in H. destruct H as [Hi Hc].
  rewrite image_with_eq in Hi. split; [exact Hi|]. split.
  - intros L. destruct (Nat.ltb_spec nclosed (length w)) as [L'|_]; [lia|].
    rewrite closed_with_eq in Hc. exact Hc.
  - exact (image_in_elim _ _ _ _ _ _ Ha).
Qed.

Definition ds28 : list Z := [2; 3; 4; 5; 6; 7; 8].

(* `vm_cast_no_check` hands the term to the kernel without a check by the tactic, so each sweep is evaluated once,
   at Qed, where the kernel checks it like any other proof term. *)
Lemma one_mode_all :
  forallb (fun kd => forallb (fun d => sweep kd 1 d 2 letters1 3) ds28) [MBin; MUna] = true.
Proof. vm_cast_no_check (eq_refl true). Qed.

Lemma two_modes_all :
  forallb (fun kd => forallb (fun d => sweep kd 2 d 0 letters2 2) [2; 3; 4]) [MBin; MUna] = true.
Proof. vm_cast_no_check (eq_refl true). Qed.

Lemma chr_all : sweep MChr 2 2 3 letters2 3 = true.
Proof. vm_cast_no_check (eq_refl true). Qed.

Lemma matprod_all :
  forallb (fun d => forallb (matprod_ok d)
     (map (map snd) (words_upto letters1 3))) ds28 = true.
Proof. vm_cast_no_check (eq_refl true). Qed.

Lemma one_mode kd d w : kd <> MChr -> 2 <= d <= 8 -> In w (words_upto letters1 3) ->
  image_ok kd 1 d w = true /\ ((length w <= 2)%nat -> closed_ok kd 1 d w = true) /\ adjoint_ok kd d w = true.
Proof.
  intros Hk Hd Hw. exact (sweep_elim _ _ _ _ _ _ (forallb2_in _ _ _ one_mode_all kd d (kind_in kd Hk) (in_2_8 d Hd)) w Hw).
Qed.

Lemma two_modes kd d w : kd <> MChr -> 2 <= d <= 4 -> In w (words_upto letters2 2) ->
  image_ok kd 2 d w = true /\ adjoint_ok kd d w = true.
Proof.
  intros Hk Hd Hw.
  destruct (sweep_elim _ _ _ _ _ _ (forallb2_in _ _ _ two_modes_all kd d (kind_in kd Hk) (in_2_4 d Hd)) w Hw) as [Hi [_ Ha]].
  split; assumption.
Qed.

Lemma image_ok_elim kd modes d w : image_ok kd modes d w = true ->
  forall ms ns, valid_levels d modes ms -> valid_levels d modes ns ->
  keqb (kselem (nqubits kd d (Z.of_nat modes)) (get_word kd d w) (enc kd d ms) (enc kd d ns))
       (ladder_elem d w ms ns) = true.
Proof.
  intros H ms ns Hm Hn.
  exact (forallb2_in _ _ _ H ms ns (all_levels_in d modes ms Hm) (all_levels_in d modes ns Hn)).
Qed.

Lemma zmem_l_in x l : zmem_l x l = true -> In x l.
Proof.
  unfold zmem_l. intros H. apply existsb_exists in H. destruct H as [y [I E]].
  apply Z.eqb_eq in E. subst; exact I.
Qed.

Lemma all_levels_valid d : forall modes ls, In ls (all_levels d modes) -> valid_levels d modes ls.
Proof.
  induction modes as [|k IH]; intros ls I.
  - destruct I as [<-|[]]. split; [reflexivity | intros l []].
  - cbn [all_levels] in I. apply in_flat_map in I. destruct I as [l [Il I]].
    apply in_map_iff in I. destruct I as [r [<- Ir]]. destruct (IH r Ir) as [L V].
    split; [simpl; lia|]. intros y [<-|Hy]; [apply zrange_in; exact Il | apply V; exact Hy].
Qed.

Lemma closed_ok_elim kd modes d w : closed_ok kd modes d w = true ->
  forall x ns, 0 <= x < Z.shiftl 1 (nqubits kd d (Z.of_nat modes)) ->
  (forall ms, valid_levels d modes ms -> x <> enc kd d ms) ->
  valid_levels d modes ns ->
  kselem (nqubits kd d (Z.of_nat modes)) (get_word kd d w) x (enc kd d ns) = k0.
Proof.
  unfold closed_ok. intros H x ns Hx Hout Hn.
  rewrite forallb_forall in H. specialize (H x (in_zrange _ _ Hx)).
  apply orb_true_iff in H. destruct H as [H|H].
  - exfalso. apply zmem_l_in in H. apply in_map_iff in H. destruct H as [ms [E I]].
    exact (Hout ms (all_levels_valid d modes ms I) (eq_sym E)).
  - rewrite forallb_forall in H.
    specialize (H (enc kd d ns) (in_map _ _ _ (all_levels_in d modes ns Hn))).
    unfold k_is0 in H. unfold k0.
    destruct (kselem (nqubits kd d (Z.of_nat modes)) (get_word kd d w) x (enc kd d ns)); [reflexivity|discriminate].
Qed.

Lemma image_one_mode : forall kd d w ms ns,
  kd <> MChr -> 2 <= d <= 8 -> In w (words_upto letters1 3) ->
  valid_levels d 1 ms -> valid_levels d 1 ns ->
  keqb (kselem (nqubits kd d 1) (get_word kd d w) (enc kd d ms) (enc kd d ns)) (ladder_elem d w ms ns) = true.
Proof.
  intros kd d w ms ns Hk Hd Hw Hm Hn.
  exact (image_ok_elim kd 1 d w (proj1 (one_mode kd d w Hk Hd Hw)) ms ns Hm Hn).
Qed.

Lemma image_two_modes : forall kd d w ms ns,
  kd <> MChr -> 2 <= d <= 4 -> In w (words_upto letters2 2) ->
  valid_levels d 2 ms -> valid_levels d 2 ns ->
  keqb (kselem (nqubits kd d 2) (get_word kd d w) (enc kd d ms) (enc kd d ns)) (ladder_elem d w ms ns) = true.
Proof.
  intros kd d w ms ns Hk Hd Hw Hm Hn.
  exact (image_ok_elim kd 2 d w (proj1 (two_modes kd d w Hk Hd Hw)) ms ns Hm Hn).
Qed.

Lemma closed_one_mode : forall kd d w x ns,
  kd <> MChr -> 2 <= d <= 8 -> In w (words_upto letters1 2) ->
  0 <= x < Z.shiftl 1 (nqubits kd d 1) ->
  (forall ms, valid_levels d 1 ms -> x <> enc kd d ms) -> valid_levels d 1 ns ->
  kselem (nqubits kd d 1) (get_word kd d w) x (enc kd d ns) = k0.
Proof.
  intros kd d w x ns Hk Hd Hw Hx Ho Hn.
  destruct (one_mode kd d w Hk Hd (words_upto_S _ _ _ Hw)) as [_ [Hc _]].
  exact (closed_ok_elim kd 1 d w (Hc (words_upto_length _ _ _ Hw)) x ns Hx Ho Hn).
Qed.

Lemma adjoint_one_mode : forall kd d w,
  kd <> MChr -> 2 <= d <= 8 -> In w (words_upto letters1 3) ->
  ks_eqb (get_word kd d (badj w)) (ksconj (get_word kd d w)) = true.
Proof. intros kd d w Hk Hd Hw. exact (proj2 (proj2 (one_mode kd d w Hk Hd Hw))). Qed.

Lemma adjoint_two_modes : forall kd d w,
  kd <> MChr -> 2 <= d <= 4 -> In w (words_upto letters2 2) ->
  ks_eqb (get_word kd d (badj w)) (ksconj (get_word kd d w)) = true.
Proof. intros kd d w Hk Hd Hw. exact (proj2 (two_modes kd d w Hk Hd Hw)). Qed.

Lemma christiansen_two_modes : forall w, In w (words_upto letters2 3) ->
  (forall ms ns, valid_levels 2 2 ms -> valid_levels 2 2 ns ->
     keqb (kselem 2 (chr_word w) (enc MChr 2 ms) (enc MChr 2 ns)) (ladder_elem 2 w ms ns) = true) /\
  ks_eqb (chr_word (badj w)) (ksconj (chr_word w)) = true.
Proof.
  intros w Hw. destruct (sweep_elim _ _ _ _ _ _ chr_all w Hw) as [Hi [_ Ha]].
  split; [exact (image_ok_elim MChr 2 2 w Hi) | exact Ha].
Qed.

Lemma ladder_elem_is_matrix_product : forall d signs m n,
  2 <= d <= 8 -> (length signs <= 3)%nat -> 0 <= m < d -> 0 <= n < d ->
  keqb (mentry (ladder_matprod d signs) m n) (ladder_elem d (map (fun s => (0, s)) signs) [m] [n]) = true.
Proof.
  intros d signs m n Hd Hl Hm Hn.
  assert (I : In signs (map (map snd) (words_upto letters1 3))).
  { destruct signs as [|a [|b [|c [|e r]]]]; try (exfalso; simpl in Hl; lia);
      repeat match goal with x : bool |- _ => destruct x end; vm_compute; tauto. }
  pose proof (forallb2_in _ _ _ matprod_all d signs (in_2_8 d Hd) I) as A.
  exact (forallb2_in _ _ _ A m n (in_zrange _ _ Hm) (in_zrange _ _ Hn)).
Qed.

Lemma map_sent_app kd d : forall s1 s2,
  map_sent kd d (s1 ++ s2) =
  match map_sent kd d s1, map_sent kd d s2 with Some a, Some b => Some (a ++ b) | _, _ => None end.
Proof.
  induction s1 as [|[c w] r IH]; intros s2.
  - cbn [app map_sent]. destruct (map_sent kd d s2); reflexivity.
  - cbn [app map_sent]. rewrite IH.
    destruct (map_word kd d w); [|reflexivity].
    destruct (map_sent kd d r); [|reflexivity].
    destruct (map_sent kd d s2); [|reflexivity].
    rewrite app_assoc. reflexivity.
Qed.

Lemma map_sent_terms kd d : forall s t,
  map_sent kd d s = Some t ->
  forall u, In u t -> exists c w a x, In (c, w) s /\ map_word kd d w = Some a /\ In (fst u, x) a /\
                                     snd u = kmul (kofCQ c) x.
Proof.
  induction s as [|[c w] r IH]; intros t H u Hu.
  - cbn [map_sent] in H. injection H as <-. destruct Hu.
  - cbn [map_sent] in H. destruct (map_word kd d w) as [a|] eqn:Ew; [|discriminate].
    destruct (map_sent kd d r) as [b|] eqn:Er; [|discriminate]. injection H as <-.
    apply in_app_or in Hu. destruct Hu as [Hu|Hu].
    + unfold ksscale in Hu. apply in_map_iff in Hu. destruct Hu as [[w' x] [E I]]. subst u.
      exists c, w, a, x. cbn [fst snd]. repeat split; auto. left; reflexivity.
    + destruct (IH b eq_refl u Hu) as [c' [w' [a' [x [I [E [Ia Es]]]]]]].
      exists c', w', a', x. repeat split; auto. right; exact I.
Qed.
