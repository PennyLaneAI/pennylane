(* Proofs about the C42 model (Disc/CaptureModel.v).

   Both main results compare two runs of the same program combinator by combinator: the interpreter
   on the captured program against the tidy direct tape (interp_capture_all), and the direct tape
   with the qp.ctrl quirk against the tidy one (quirk_all).  The runs fail alike and carry the same
   variables; only the recorded op lists differ, up to a relation P: "expanding the subroutine nodes
   of the first gives the second" (flat_to) in one case, "same denotation" (same_den) in the other.
   Section REL proves once, for any P that holds of [] and is kept by ++, that sequencing, for_ops,
   while_ops and the result wrappers preserve `rrel P`; each mutual induction then only has to look
   at the adjoint, ctrl and subroutine cases. *)
From Coq Require Import List ZArith Bool Lia.
From PLV Require Import Disc.ControlFlowModel Disc.CaptureModel.
Import ListNotations.
Open Scope Z_scope.

Scheme qstmt_mind := Induction for qstmt Sort Prop
  with qblock_mind := Induction for qblock Sort Prop
  with qbranches_mind := Induction for qbranches Sort Prop.
Combined Scheme q_mutind from qstmt_mind, qblock_mind, qbranches_mind.

Lemma op_ctrl_resolve : forall cw cv x, op_ctrl cw (Some (cv_resolve cw cv)) x = op_ctrl cw cv x.
Proof. intros. destruct x; reflexivity. Qed.

Lemma op_ctrl_comp : forall cw cv cw2 cv2 x,
  op_ctrl cw cv (op_ctrl cw2 (Some cv2) x) = op_ctrl (cw ++ cw2) (Some (cv_resolve cw cv ++ cv2)) x.
Proof. intros. destruct x; cbn; try reflexivity. now rewrite !app_assoc. Qed.

Lemma flat_list_app : forall a b, flat_list (a ++ b) = flat_list a ++ flat_list b.
Proof. intros. unfold flat_list. apply flat_map_app. Qed.

Lemma flat_sub : forall n l, flat (OSub n l) = flat_list l.
Proof. intros. cbn [flat]. induction l; cbn; [reflexivity | now rewrite IHl]. Qed.

Lemma flat_op_ctrl : forall cw cv o, flat (op_ctrl cw cv o) = map (op_ctrl cw cv) (flat o).
Proof.
  intros. destruct o.
  - reflexivity.
  - unfold op_ctrl. cbn [flat]. apply map_ext. intros. apply op_ctrl_resolve.
  - unfold op_ctrl at 1. cbn [flat]. rewrite map_map. apply map_ext. intros. now rewrite op_ctrl_comp.
  - unfold op_ctrl at 1. cbn [flat]. apply map_ext. intros. apply op_ctrl_resolve.
Qed.

Lemma flat_list_ctrl : forall cw cv l, flat_list (map (op_ctrl cw cv) l) = map (op_ctrl cw cv) (flat_list l).
Proof.
  induction l; cbn; [reflexivity|]. fold (flat_list (map (op_ctrl cw cv) l)). fold (flat_list l).
  now rewrite IHl, flat_op_ctrl, map_app.
Qed.

Lemma flat_list_adj : forall l, flat_list (map op_adj (rev l)) = map op_adj (rev (flat_list l)).
Proof.
  induction l; cbn; [reflexivity|]. fold (flat_list l).
  rewrite map_app, flat_list_app, IHl. cbn. rewrite app_nil_r, rev_app_distr, map_app. unfold op_adj. now rewrite !map_rev.
Qed.

Lemma flat_mk_gate : forall c w p, flat (mk_gate c w p) = [mk_gate c w p].
Proof.
  intros. unfold mk_gate. destruct w as [|a [|b [|? ?]]]; try reflexivity.
  destruct (c =? 10); [reflexivity|]. destruct (c =? 11); [reflexivity|]. destruct (c =? 15); reflexivity.
Qed.

(* r1 and r2 fail alike, or succeed with the same value and with op lists related by P *)
Definition rrel {A} (P : list op -> list op -> Prop) (r1 r2 : res (list op * A)) : Prop :=
  match r1, r2 with
  | Ok (o1, a1), Ok (o2, a2) => P o1 o2 /\ a1 = a2
  | Err, Err => True
  | Fuel, Fuel => True
  | _, _ => False
  end.

Section REL.
  Variable P : list op -> list op -> Prop.
  Hypothesis P_nil : P [] [].
  Hypothesis P_app : forall a b a' b', P a b -> P a' b' -> P (a ++ a') (b ++ b').

  Lemma rrel_refl : (forall o, P o o) -> forall A (r : res (list op * A)), rrel P r r.
  Proof. intros H A r. destruct r as [[o v]| |]; cbn; auto. Qed.

  (* the recorded ops are transformed by related functions, the value by the same function *)
  Lemma rrel_map : forall A B (g g' : list op -> list op) (h : A -> B),
    (forall o o', P o o' -> P (g o) (g' o')) -> forall r1 r2, rrel P r1 r2 ->
    rrel P (rbind r1 (fun p => Ok (g (fst p), h (snd p)))) (rbind r2 (fun p => Ok (g' (fst p), h (snd p)))).
  Proof.
    intros A B g g' h Hg r1 r2 H. destruct r1 as [[o v]| |], r2 as [[o' v']| |]; cbn in *; try tauto.
    destruct H as [Ho <-]. auto.
  Qed.

  Lemma rrel_push : forall env r1 r2, rrel P r1 r2 -> rrel P (push env r1) (push env r2).
  Proof. intros env. exact (rrel_map _ _ (fun o => o) (fun o => o) (fun v => v :: env) (fun _ _ H => H)). Qed.
  Lemma rrel_start : forall upd env (r1 r2 : R), rrel P r1 r2 -> rrel P (start_res upd env r1) (start_res upd env r2).
  Proof. intros upd env. exact (rrel_map _ _ (fun o => o) (fun o => o) (fun _ => eval upd env) (fun _ _ H => H)). Qed.
  Lemma rrel_only : forall env (r1 r2 : R), rrel P r1 r2 -> rrel P (ops_only env r1) (ops_only env r2).
  Proof. intros env. exact (rrel_map _ _ (fun o => o) (fun o => o) (fun _ => env) (fun _ _ H => H)). Qed.

  Lemma rrel_seq : forall A B (r1 r2 : res (list op * A)) (k k' : A -> res (list op * B)),
    rrel P r1 r2 -> (forall e, rrel P (k e) (k' e)) ->
    rrel P (rbind r1 (fun p => rbind (k (snd p)) (fun q => Ok (fst p ++ fst q, snd q))))
           (rbind r2 (fun p => rbind (k' (snd p)) (fun q => Ok (fst p ++ fst q, snd q)))).
  Proof.
    intros A B r1 r2 k k' H Hk. destruct r1 as [[o v]| |], r2 as [[o' v']| |]; cbn in *; try tauto.
    destruct H as [Ho <-]. specialize (Hk v).
    destruct (k v) as [[p w]| |], (k' v) as [[p' w']| |]; cbn in *; try tauto.
    destruct Hk as [Hp <-]. auto.
  Qed.

  Lemma rrel_for : forall (b1 b2 : Z -> Z -> res (list op * Z)),
    (forall i a, rrel P (b1 i a) (b2 i a)) -> forall l a, rrel P (for_ops b1 l a) (for_ops b2 l a).
  Proof. intros b1 b2 H. induction l; intros; cbn [for_ops]; [cbn; auto | apply rrel_seq; auto]. Qed.

  Lemma rrel_while : forall cnd (b1 b2 : Z -> res (list op * Z)),
    (forall k, rrel P (b1 k) (b2 k)) -> forall fuel k, rrel P (while_ops fuel cnd b1 k) (while_ops fuel cnd b2 k).
  Proof.
    intros cnd b1 b2 H. induction fuel; intros; cbn [while_ops]; [exact I|].
    destruct (cnd k); [apply rrel_seq; auto | cbn; auto].
  Qed.
End REL.

Lemma cond_len : forall c E (env : list Z),
  length (map (fun p => eval_pred p env) (capture_preds c) ++ [true])
  = jb_len (jb_app (capture_branches c) (JBCons E JBNil)).
Proof. induction c; intros; cbn; [reflexivity|]. f_equal. apply IHc. Qed.

Definition flat_to (a b : list op) : Prop := flat_list a = b.

Lemma flat_to_app : forall a b a' b', flat_to a b -> flat_to a' b' -> flat_to (a ++ a') (b ++ b').
Proof. unfold flat_to. intros. subst. apply flat_list_app. Qed.

Lemma flat_R_rrel : forall r1 r2, rrel flat_to r1 r2 -> flat_R r1 = r2.
Proof. intros r1 r2 H. destruct r1 as [[o v]| |], r2 as [[o' v']| |]; cbn in *; try tauto. destruct H as [<- <-]. reflexivity. Qed.

Lemma interp_capture_all :
  (forall s fuel xs env, rrel flat_to (i_eqn fuel xs (capture s) env) (d_stmt fuel false xs s env)) /\
  (forall b fuel xs env, rrel flat_to (i_jaxpr fuel xs (capture_block b) env) (d_block fuel false xs b env)) /\
  (forall c fuel xs env E r0, rrel flat_to (i_jaxpr fuel xs E env) r0 ->
     exists r, i_branches fuel xs (map (fun p => eval_pred p env) (capture_preds c) ++ [true])
                          (jb_app (capture_branches c) (JBCons E JBNil)) env = Some r /\
               rrel flat_to r (match d_branches fuel false xs c env with Some r' => r' | None => r0 end)).
Proof.
  pose proof flat_to_app as Happ. assert (Hnil : flat_to [] []) by reflexivity.
  apply q_mutind.
  - (* POp *) intros. cbn. split; [|reflexivity]. unfold flat_to. cbn. now rewrite flat_mk_gate.
  - (* PFor *) intros lo hi step init upd body IH fuel xs env. cbn [capture i_eqn d_stmt].
    destruct (py_range (eval lo env) (eval hi env) (eval step env)); [|exact I].
    apply rrel_push, rrel_for; auto. intros. apply rrel_start, IH.
  - (* PWhile *) intros c init upd body IH fuel xs env. cbn [capture i_eqn d_stmt].
    apply rrel_push, rrel_while; auto. intros. apply rrel_start, IH.
  - (* PCond *) intros brs IHb has_else els IHe fuel xs env. cbn [capture i_eqn d_stmt].
    destruct (IHb fuel xs env (if has_else then capture_block els else JNil)
                (if has_else then d_block fuel false xs els env else Ok ([], env))) as (r & -> & Hr).
    + destruct has_else; [apply IHe | cbn; auto].
    + apply (rrel_only flat_to env) in Hr. destruct (d_branches fuel false xs brs env), has_else; exact Hr.
  - (* PAdj *) intros body IH fuel xs env. cbn [capture i_eqn d_stmt].
    apply (rrel_map flat_to _ _ (fun o => map op_adj (rev o)) (fun o => map op_adj (rev o)) (fun _ => env)); [|apply IH].
    unfold flat_to. intros o o' <-. apply flat_list_adj.
  - (* PCtrl *) intros cw cv body IH fuel xs env. cbn [capture i_eqn d_stmt].
    apply (rrel_map flat_to _ _ (map (op_ctrl cw cv)) (direct_ctrl false cw cv) (fun _ => env)); [|apply IH].
    unfold flat_to. intros o o' <-. rewrite flat_list_ctrl. destruct cv; reflexivity.
  - (* PCall *) intros captured name body IH fuel xs env. cbn [capture d_stmt].
    destruct captured; cbn [i_eqn]; [|apply rrel_only, IH].
    apply (rrel_map flat_to _ _ (fun o => [OSub name o]) (fun o => o) (fun _ => env)); [|apply IH].
    unfold flat_to. intros o o' <-. cbn. fold (flat_list o). now rewrite app_nil_r.
  - (* QNil *) intros. cbn. auto.
  - (* QCons *) intros s IHs b IHb fuel xs env. cbn [capture_block i_jaxpr d_block]. apply rrel_seq; auto.
  - (* QBNil *) intros fuel xs env E r0 H. cbn. eauto.
  - (* QBCons *) intros p b IHb r IHr fuel xs env E r0 H.
    cbn [capture_preds capture_branches jb_app map app i_branches d_branches].
    destruct (eval_pred p env).
    + rewrite (cond_len r E env), Nat.eqb_refl. eauto.
    + apply IHr, H.
Qed.

Lemma interp_capture_block : forall b fuel xs env,
  flat_R (i_jaxpr fuel xs (capture_block b) env) = d_block fuel false xs b env.
Proof. intros. apply flat_R_rrel, interp_capture_all. Qed.

(* programs without captured subroutines: nothing to expand, the captured tape IS the tidy tape *)
Fixpoint sub_free (o : op) : bool :=
  match o with
  | Gate _ _ _ => true
  | OAdj o' => sub_free o'
  | OCtrl _ _ o' => match o' with OCtrl _ _ _ => false | _ => sub_free o' end
  | OSub _ _ => false
  end.
Lemma flat_sub_free : forall o, sub_free o = true -> flat o = [o].
Proof.
  induction o; cbn [sub_free flat]; intros H.
  - reflexivity.
  - now rewrite IHo.
  - destruct o; try discriminate; rewrite IHo by assumption; reflexivity.
  - discriminate.
Qed.

Lemma adj_rule : forall fuel xs body env ops env',
  i_jaxpr fuel xs body env = Ok (ops, env') ->
  i_eqn fuel xs (JAdj body) env = Ok (map op_adj (rev ops), env).
Proof. intros. cbn [i_eqn]. rewrite H. reflexivity. Qed.

Lemma adj_rule_nth : forall (ops : list op) k d, (k < length ops)%nat ->
  nth k (map op_adj (rev ops)) d = op_adj (nth (length ops - 1 - k) ops d) /\
  length (map op_adj (rev ops)) = length ops.
Proof.
  intros. split; [|now rewrite map_length, rev_length].
  rewrite nth_indep with (d' := op_adj d) by (now rewrite map_length, rev_length).
  rewrite map_nth. f_equal. rewrite rev_nth by assumption. f_equal. lia.
Qed.

Lemma adj_rule_nested : forall fuel xs body env ops env',
  i_jaxpr fuel xs body env = Ok (ops, env') ->
  i_eqn fuel xs (JAdj (JCons (JAdj body) JNil)) env = Ok (map (fun o => op_adj (op_adj o)) ops, env).
Proof.
  intros. cbn [i_eqn i_jaxpr]. rewrite H. cbn. rewrite app_nil_r, <- map_rev, rev_involutive, map_map. reflexivity.
Qed.

Lemma ctrl_rule : forall fuel xs cw cv body env ops env',
  i_jaxpr fuel xs body env = Ok (ops, env') ->
  i_eqn fuel xs (JCtrl cw cv body) env = Ok (map (op_ctrl cw cv) ops, env).
Proof. intros. cbn [i_eqn]. rewrite H. reflexivity. Qed.

Lemma ctrl_rule_nth : forall cw cv (ops : list op) k d, (k < length ops)%nat ->
  length (map (op_ctrl cw cv) ops) = length ops /\
  exists cw' cv' base, nth k (map (op_ctrl cw cv) ops) d = OCtrl (cw ++ cw') (cv_resolve cw cv ++ cv') base /\
    (nth k ops d = base /\ cw' = [] /\ cv' = [] \/ nth k ops d = OCtrl cw' cv' base).
Proof.
  intros. split; [apply map_length|].
  rewrite nth_indep with (d' := op_ctrl cw cv d) by (now rewrite map_length).
  rewrite map_nth. destruct (nth k ops d) eqn:E.
  - exists [], [], (Gate code wires params). cbn. rewrite !app_nil_r. auto.
  - exists [], [], (OAdj o). cbn. rewrite !app_nil_r. auto.
  - exists cw0, cv0, o. cbn. auto.
  - exists [], [], (OSub name body). cbn. rewrite !app_nil_r. auto.
Qed.

Lemma for_ops_stateless : forall (body : Z -> Z -> res (list op * Z)) (g : Z -> list op) (u : Z -> Z -> Z),
  (forall i a, body i a = Ok (g i, u i a)) ->
  forall l a, for_ops body l a = Ok (flat_map g l, fold_left (fun a i => u i a) l a).
Proof.
  intros body g u H. induction l; intros; cbn; [reflexivity|]. rewrite H. cbn. rewrite IHl. reflexivity.
Qed.

Lemma for_rule : forall fuel xs lo hi step init upd body env l (g : Z -> list op),
  py_range (eval lo env) (eval hi env) (eval step env) = Some l ->
  (forall i a, exists e', i_jaxpr fuel xs body (i :: a :: env) = Ok (g i, e')) ->
  i_eqn fuel xs (JFor lo hi step init upd body) env
  = Ok (flat_map g l, fold_left (fun a i => eval upd (i :: a :: env)) l (eval init env) :: env).
Proof.
  intros. cbn [i_eqn]. rewrite H.
  rewrite for_ops_stateless with (g := g) (u := fun i a => eval upd (i :: a :: env)); [reflexivity|].
  intros. destruct (H0 i a) as [e' He]. rewrite He. reflexivity.
Qed.

Lemma for_rule_step0 : forall fuel xs lo hi step init upd body env,
  eval step env = 0 -> i_eqn fuel xs (JFor lo hi step init upd body) env = Err.
Proof. intros. cbn [i_eqn]. rewrite H. reflexivity. Qed.

Section SEM.
  Variable G : Type.
  Variable mul : G -> G -> G.
  Variable one : G.
  Variable inv : G -> G.
  Variable C : list Z -> G -> G.
  Variable den : op -> G.
  Definition den_list (l : list op) : G := fold_right (fun o g => mul (den o) g) one l.
  Definition F (cw : list Z) (v : list bool) : G := den_list (flips cw v).
  Hypothesis mul_assoc : forall a b c, mul a (mul b c) = mul (mul a b) c.
  Hypothesis one_l : forall a, mul one a = a.
  Hypothesis one_r : forall a, mul a one = a.
  Hypothesis inv_mul : forall a b, inv (mul a b) = mul (inv b) (inv a).
  Hypothesis inv_one : inv one = one.
  Hypothesis C_mul : forall cw a b, C cw (mul a b) = mul (C cw a) (C cw b).
  Hypothesis C_one : forall cw, C cw one = one.
  Hypothesis den_adj : forall o, den (op_adj o) = inv (den o).
  Hypothesis den_ctrl_none : forall cw o, den (op_ctrl cw None o) = C cw (den o).
  (* the control-value law: controlling on value 0 = conjugating the all-ones control by X on that wire *)
  Hypothesis den_ctrl_some : forall cw v o,
    den (op_ctrl cw (Some v) o) = mul (F cw v) (mul (C cw (den o)) (F cw v)).
  Hypothesis F_invol : forall cw v, mul (F cw v) (F cw v) = one.

  Lemma den_list_cons : forall o l, den_list (o :: l) = mul (den o) (den_list l).
  Proof. reflexivity. Qed.
  Lemma den_list_nil : den_list [] = one.
  Proof. reflexivity. Qed.
  Lemma den_list_app : forall a b, den_list (a ++ b) = mul (den_list a) (den_list b).
  Proof.
    induction a; intros; cbn [app]; [now rewrite den_list_nil, one_l|].
    now rewrite !den_list_cons, IHa, mul_assoc.
  Qed.

  Lemma den_adj_list : forall l, den_list (map op_adj (rev l)) = inv (den_list l).
  Proof.
    induction l; cbn [rev map]; [now rewrite den_list_nil, inv_one|].
    rewrite map_app, den_list_app, IHl. cbn [map]. now rewrite !den_list_cons, den_list_nil, one_r, den_adj, inv_mul.
  Qed.

  Lemma den_ctrl_none_list : forall cw l, den_list (map (op_ctrl cw None) l) = C cw (den_list l).
  Proof.
    induction l; cbn [map]; [now rewrite den_list_nil, C_one|].
    now rewrite !den_list_cons, IHl, den_ctrl_none, C_mul.
  Qed.

  Lemma den_ctrl_some_list : forall cw v l,
    den_list (map (op_ctrl cw (Some v)) l) = mul (F cw v) (mul (C cw (den_list l)) (F cw v)).
  Proof.
    induction l; cbn [map].
    - now rewrite den_list_nil, C_one, one_l, F_invol.
    - rewrite !den_list_cons, IHl, den_ctrl_some, C_mul.
      rewrite <- !mul_assoc. f_equal. f_equal.
      rewrite (mul_assoc (F cw v) (F cw v)), F_invol, one_l. reflexivity.
  Qed.

  Lemma den_direct_ctrl : forall q cw cv l1 l2, den_list l1 = den_list l2 ->
    den_list (direct_ctrl q cw cv l1) = den_list (direct_ctrl false cw cv l2).
  Proof.
    intros. unfold direct_ctrl. destruct cv as [v|].
    - cbn [andb]. rewrite (den_ctrl_some_list cw v l2).
      destruct (q && (1 <? Z.of_nat (length l1))).
      + rewrite !den_list_app, den_ctrl_none_list, H. reflexivity.
      + rewrite den_ctrl_some_list, H. reflexivity.
    - now rewrite !den_ctrl_none_list, H.
  Qed.

  Definition req {A} (r1 r2 : res (list op * A)) : Prop :=
    match r1, r2 with
    | Ok (o1, a1), Ok (o2, a2) => den_list o1 = den_list o2 /\ a1 = a2
    | Err, Err => True
    | Fuel, Fuel => True
    | _, _ => False
    end.

  (* req r1 r2 unfolds to rrel same_den r1 r2, the form the lemmas of section REL apply to *)
  Definition same_den (a b : list op) : Prop := den_list a = den_list b.

  Definition oreq (a b : option R) : Prop :=
    match a, b with Some r1, Some r2 => rrel same_den r1 r2 | None, None => True | _, _ => False end.

  Lemma quirk_all :
    (forall s fuel xs env, rrel same_den (d_stmt fuel true xs s env) (d_stmt fuel false xs s env)) /\
    (forall b fuel xs env, rrel same_den (d_block fuel true xs b env) (d_block fuel false xs b env)) /\
    (forall c fuel xs env, oreq (d_branches fuel true xs c env) (d_branches fuel false xs c env)).
  Proof.
    assert (Hnil : same_den [] []) by reflexivity.
    assert (Happ : forall a b a' b', same_den a b -> same_den a' b' -> same_den (a ++ a') (b ++ b')).
    { unfold same_den. intros a b a' b' H H'. now rewrite !den_list_app, H, H'. }
    apply q_mutind.
    - intros. apply rrel_refl. reflexivity.
    - intros lo hi step init upd body IH fuel xs env. cbn [d_stmt].
      destruct (py_range (eval lo env) (eval hi env) (eval step env)); [|exact I].
      apply rrel_push, rrel_for; auto. intros. apply rrel_start, IH.
    - intros c init upd body IH fuel xs env. cbn [d_stmt].
      apply rrel_push, rrel_while; auto. intros. apply rrel_start, IH.
    - intros brs IHb has_else els IHe fuel xs env. cbn [d_stmt].
      specialize (IHb fuel xs env).
      destruct (d_branches fuel true xs brs env), (d_branches fuel false xs brs env); cbn in IHb; try tauto.
      + now apply rrel_only.
      + destruct has_else; [apply rrel_only, IHe | cbn; auto].
    - intros body IH fuel xs env. cbn [d_stmt].
      apply (rrel_map same_den _ _ (fun o => map op_adj (rev o)) (fun o => map op_adj (rev o)) (fun _ => env)); [|apply IH].
      unfold same_den. intros o o' H. now rewrite !den_adj_list, H.
    - intros cw cv body IH fuel xs env. cbn [d_stmt].
      apply (rrel_map same_den _ _ (direct_ctrl true cw cv) (direct_ctrl false cw cv) (fun _ => env)); [|apply IH].
      intros o o'. apply den_direct_ctrl.
    - intros captured name body IH fuel xs env. cbn [d_stmt]. apply rrel_only, IH.
    - intros. cbn. auto.
    - intros s IHs b IHb fuel xs env. cbn [d_block]. apply rrel_seq; auto.
    - intros. exact I.
    - intros p b IHb r IHr fuel xs env. cbn [d_branches]. destruct (eval_pred p env); [apply IHb | apply IHr].
  Qed.

  (* the round trip against the code as written: same denotation, same final variables, same failure *)
  Lemma roundtrip_sem : forall b fuel xs env,
    req (d_block fuel true xs b env) (flat_R (i_jaxpr fuel xs (capture_block b) env)).
  Proof. intros. rewrite interp_capture_block. exact (proj1 (proj2 quirk_all) b fuel xs env). Qed.
End SEM.

(* a non-trivial instance of the semantic hypotheses: G = (Z, +), den = signed count of non-X leaf gates *)
Fixpoint cnt (o : op) : Z :=
  match o with
  | Gate c _ _ => if c =? 4 then 0 else 1
  | OAdj o' => - cnt o'
  | OCtrl _ _ o' => cnt o'
  | OSub _ _ => 0
  end.
Lemma cnt_flips : forall cw v, den_list Z Z.add 0 cnt (flips cw v) = 0.
Proof. induction cw; intros; destruct v; cbn; try reflexivity. destruct b; cbn; apply IHcw. Qed.
Lemma flat_list_sub_free : forall l, forallb sub_free l = true -> flat_list l = l.
Proof.
  induction l; cbn; intros; [reflexivity|]. apply andb_prop in H. destruct H.
  fold (flat_list l). rewrite IHl by assumption. now rewrite flat_sub_free.
Qed.

Lemma interp_capture_exact : forall b fuel xs env ops e,
  i_jaxpr fuel xs (capture_block b) env = Ok (ops, e) -> forallb sub_free ops = true ->
  d_block fuel false xs b env = Ok (ops, e).
Proof.
  intros. rewrite <- interp_capture_block, H. cbn. now rewrite flat_list_sub_free.
Qed.

(* the semantic hypotheses bundled: a monoid with an anti-homomorphic inverse (adjoint), a multiplicative
   control functor C, den compatible with op_adj / op_ctrl, and the control-value law with involutive flips *)
Definition sem_laws (G : Type) (mul : G -> G -> G) (one : G) (inv : G -> G) (C : list Z -> G -> G)
                    (den : op -> G) : Prop :=
  (forall a b c, mul a (mul b c) = mul (mul a b) c) /\ (forall a, mul one a = a) /\ (forall a, mul a one = a) /\
  (forall a b, inv (mul a b) = mul (inv b) (inv a)) /\ inv one = one /\
  (forall cw a b, C cw (mul a b) = mul (C cw a) (C cw b)) /\ (forall cw, C cw one = one) /\
  (forall o, den (op_adj o) = inv (den o)) /\
  (forall cw o, den (op_ctrl cw None o) = C cw (den o)) /\
  (forall cw v o, den (op_ctrl cw (Some v) o)
                  = mul (F G mul one den cw v) (mul (C cw (den o)) (F G mul one den cw v))) /\
  (forall cw v, mul (F G mul one den cw v) (F G mul one den cw v) = one).

Lemma roundtrip_sem_laws : forall G mul one inv C den, sem_laws G mul one inv C den ->
  forall b fuel xs env,
  req G mul one den (d_block fuel true xs b env) (flat_R (i_jaxpr fuel xs (capture_block b) env)).
Proof.
  intros G mul one inv C den (H1 & H2 & H3 & H4 & H5 & H6 & H7 & H8 & H9 & H10 & H11).
  now apply roundtrip_sem with (inv := inv) (C := C).
Qed.

Lemma quirk_sem_laws : forall G mul one inv C den, sem_laws G mul one inv C den ->
  forall b fuel xs env,
  req G mul one den (d_block fuel true xs b env) (d_block fuel false xs b env).
Proof.
  intros G mul one inv C den (H1 & H2 & H3 & H4 & H5 & H6 & H7 & H8 & H9 & H10 & H11).
  now apply (quirk_all G mul one inv C den).
Qed.

Lemma cnt_laws : sem_laws Z Z.add 0 Z.opp (fun _ g => g) cnt.
Proof.
  unfold sem_laws, F. repeat split; intros; rewrite ?cnt_flips; try lia; auto; destruct o; cbn; lia.
Qed.
