(* C05: the cache transform is transparent when equal keys imply equal device results.
   Between the two phases the cache holds a placeholder exactly for the keys whose first tape was sent to the device
   (cache_ok_pending); phase 2 replaces each placeholder by that tape's result, which by key_sound is the result of every
   tape with the same key, before any later hit of the key reads it (wf). *)
From Coq Require Import List ZArith Bool Lia.
From PLV Require Import Disc.CacheModel.
Import ListNotations.
Open Scope Z_scope.

Section Transparent.
  Variables key run : Z -> Z.
  (* the cache key identifies the result: equal keys => equal results *)
  Hypothesis key_sound : forall t u, key t = key u -> run t = run u.

  (* a cache is consistent with the device when every stored result is the result of every tape with that key,
     and there is no dangling placeholder *)
  Definition cache_ok (c : cache) : Prop :=
    forall k v, lookup c k = Some v -> exists r, v = Some r /\ forall t, key t = k -> run t = r.
  (* during phase 2: placeholders exactly for the keys of pending misses *)
  Definition cache_ok_pending (c : cache) (pending : list Z) : Prop :=
    forall k v, lookup c k = Some v ->
      (exists r, v = Some r /\ forall t, key t = k -> run t = r) \/ (v = None /\ In k pending).

  Lemma lookup_set c k v k2 : lookup (set c k v) k2 = if k =? k2 then Some v else lookup c k2.
  Proof.
    induction c as [|[k' v'] c IH]; cbn; [reflexivity|].
    destruct (Z.eqb_spec k' k) as [->|N]; cbn.
    - destruct (k =? k2); reflexivity.
    - rewrite IH. destruct (Z.eqb_spec k' k2) as [->|N2]; [|reflexivity]. destruct (Z.eqb_spec k k2); [congruence|reflexivity].
  Qed.

  Definition plan_key (p : plan) : Z := match p with Hit k | Miss k => k end.
  Definition miss_keys (pl : list plan) : list Z := flat_map (fun p => match p with Miss k => [k] | Hit _ => [] end) pl.
  (* no key is looked up or stored before a later miss of the same key *)
  Fixpoint wf (pl : list plan) : Prop :=
    match pl with
    | [] => True
    | p :: r => ~ In (plan_key p) (miss_keys r) /\ wf r
    end.

  (* phase 1 emits exactly the first tape of every key not yet cached, and marks it pending *)
  Lemma phase1_spec batch : forall c pend em pl c',
    cache_ok_pending c pend -> phase1 key batch c = (em, pl, c') ->
    map key em = miss_keys pl /\ incl em batch /\
    cache_ok_pending c' (pend ++ miss_keys pl) /\
    (forall k, In k (miss_keys pl) -> lookup c k = None) /\
    (forall k, lookup c k <> None -> lookup c' k = lookup c k) /\
    Forall2 (fun t p => plan_key p = key t) batch pl /\
    (forall k, In (Hit k) pl -> lookup c' k <> None) /\ wf pl.
  Proof.
    induction batch as [|t r IH]; intros c pend em pl c' Hc H.
    - cbn in H. inversion H; subst. cbn. rewrite app_nil_r. repeat split; auto using incl_nil_l; try constructor; intros k [].
    - cbn [phase1] in H. destruct (lookup c (key t)) as [v|] eqn:L.
      + destruct (phase1 key r c) as [[em1 pl1] c1] eqn:P. inversion H; subst.
        destruct (IH c pend em pl1 c' Hc P) as (A & I & C & F & K & G & P3 & W).
        cbn [miss_keys flat_map app wf plan_key]. fold (miss_keys pl1). repeat split; auto using incl_tl.
        * intros k [E|H']; [|exact (P3 k H')]. injection E as <-. rewrite K; congruence.
        * intros I'. specialize (F _ I'). congruence.
      + destruct (phase1 key r (set c (key t) None)) as [[em1 pl1] c1] eqn:P. inversion H; subst.
        assert (Hc' : cache_ok_pending (set c (key t) None) (pend ++ [key t])).
        { intros k v Hk. rewrite lookup_set in Hk. destruct (Z.eqb_spec (key t) k) as [<-|N].
          - injection Hk as <-. right. split; [reflexivity|]. apply in_or_app; right; left; reflexivity.
          - destruct (Hc k v Hk) as [X|[X Y]]; [left; exact X|]. right. split; [exact X|]. apply in_or_app; left; exact Y. }
        destruct (IH _ _ _ _ _ Hc' P) as (A & I & C & F & K & G & P3 & W).
        assert (S : forall k, k <> key t -> lookup (set c (key t) None) k = lookup c k).
        { intros k N. rewrite lookup_set. destruct (Z.eqb_spec (key t) k); congruence. }
        cbn [miss_keys flat_map app map wf plan_key]. fold (miss_keys pl1). repeat split.
        * f_equal. exact A.
        * apply incl_cons; [left; reflexivity | apply incl_tl, I].
        * rewrite <- app_assoc in C. exact C.
        * intros k [<-|I']; [exact L|]. destruct (Z.eq_dec k (key t)) as [->|N]; [exact L|]. rewrite <- S by exact N. exact (F k I').
        * intros k Hk. assert (N : k <> key t) by congruence. rewrite <- (S k N). apply K. rewrite S by exact N. exact Hk.
        * constructor; [reflexivity|exact G].
        * intros k [E|H']; [discriminate | exact (P3 k H')].
        * intros I'. specialize (F _ I'). rewrite lookup_set, Z.eqb_refl in F. discriminate.
        * exact W.
  Qed.

  Lemma phase2_spec batch pl : Forall2 (fun t p => plan_key p = key t) batch pl ->
    forall c em, wf pl -> map key em = miss_keys pl -> cache_ok_pending c (miss_keys pl) ->
    (forall k, In (Hit k) pl -> lookup c k <> None) ->
    exists c', phase2 pl (map run em) c = (map (fun t => Some (run t)) batch, c') /\ cache_ok c'.
  Proof.
    induction 1 as [|t p batch pl Hp HF IH]; intros c em W E Hc P3.
    - cbn. exists c. split; [reflexivity|]. intros k v L. destruct (Hc k v L) as [X|[_ []]]. exact X.
    - destruct p as [k|k]; cbn [plan_key] in Hp; subst k; cbn [wf miss_keys flat_map app plan_key] in *; fold (miss_keys pl) in *;
        destruct W as [NI W].
      + assert (L : lookup c (key t) <> None) by (apply P3; left; reflexivity).
        destruct (lookup c (key t)) as [v|] eqn:Lk; [|congruence].
        destruct (Hc _ _ Lk) as [(r & -> & Hr)|[_ I]]; [|contradiction].
        destruct (IH c em W E Hc (fun k I => P3 k (or_intror I))) as (c' & Hph & Hok).
        exists c'. cbn [phase2 map]. rewrite Lk, Hph. split; [|exact Hok]. rewrite (Hr t eq_refl). reflexivity.
      + destruct em as [|t0 em]; [discriminate|]. cbn [map] in E. injection E as Ek Em.
        assert (Hc' : cache_ok_pending (set c (key t) (Some (run t0))) (miss_keys pl)).
        { intros k v Hk. rewrite lookup_set in Hk. destruct (Z.eqb_spec (key t) k) as [<-|N].
          - injection Hk as <-. left. exists (run t0). split; [reflexivity|]. intros t' Ht'. apply key_sound. congruence.
          - destruct (Hc k v Hk) as [X|[X [Y|Y]]]; [left; exact X | congruence | right; split; assumption]. }
        assert (P3' : forall k, In (Hit k) pl -> lookup (set c (key t) (Some (run t0))) k <> None).
        { intros k I. rewrite lookup_set. destruct (key t =? k); [discriminate | apply P3; right; exact I]. }
        destruct (IH _ em W Em Hc' P3') as (c' & Hph & Hok).
        exists c'. cbn [phase2 map]. rewrite Hph. split; [|exact Hok]. f_equal. f_equal. f_equal. apply key_sound. exact Ek.
  Qed.

  Theorem cache_exec_transparent batch c : cache_ok c ->
    exists em c', cache_exec key run batch c = (em, map (fun t => Some (run t)) batch, c') /\ cache_ok c' /\ incl em batch.
  Proof.
    intros Hc. unfold cache_exec. destruct (phase1 key batch c) as [[em pl] c1] eqn:P.
    assert (Hc0 : cache_ok_pending c []) by (intros k v L; left; exact (Hc k v L)).
    destruct (phase1_spec batch c [] em pl c1 Hc0 P) as (A & I & C & _ & _ & G & P3 & W).
    destruct (phase2_spec batch pl G c1 em W A C P3) as (c' & Hph & Hok).
    rewrite Hph. exists em, c'. auto.
  Qed.

  Theorem history_transparent batches : forall c, cache_ok c ->
    map snd (fst (history key run batches c)) = map (fun b => map (fun t => Some (run t)) b) batches.
  Proof.
    induction batches as [|b r IH]; intros c Hc; [reflexivity|]. cbn [history].
    destruct (cache_exec_transparent b c Hc) as (em & c' & E & Hok & _). rewrite E.
    specialize (IH c' Hok). destruct (history key run r c') as [rest c'']. cbn [fst map snd] in *. f_equal. exact IH.
  Qed.
End Transparent.

Lemma empty_cache_ok key run : cache_ok key run [].
Proof. intros k v L. discriminate. Qed.
