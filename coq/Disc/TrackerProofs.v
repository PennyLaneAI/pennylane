(* Lemmas about the model of Tracker / simulator_tracking (Disc/TrackerModel.v).
   Two facts hold of every program: totals are the sums of the numeric history entries (invariant Inv), and the
   history is, per key, the list of values of the update calls the program performs while active, in order
   (Ref: refinement to `arun`, which only keeps that list).  Together they reduce every total of
   `with Tracker(dev):` + device calls to a sum over the calls of `key_sum k (call_log c)` (tracked_run_total);
   the count formulas then evaluate that sum key by key.  The last part is about get_num_shots_and_executions
   (shots = total shots x executions unless a shadow measurement heads a group) and the callback log. *)
From Coq Require Import List ZArith Bool Lia ZifyBool.
From PLV Require Import Disc.ShotsModel Disc.ShotsProofs Disc.TrackerModel.
Import ListNotations.
Open Scope Z_scope.

(* totals.get(k, 0) and history.get(k, []) *)
Definition get_tot (t : list (Z * Z)) (k : Z) : Z := match lookup k t with Some z => z | None => 0 end.
Definition has_tot (t : list (Z * Z)) (k : Z) : bool := match lookup k t with Some _ => true | None => false end.
Definition get_hist (h : list (Z * list value)) (k : Z) : list value :=
  match lookup k h with Some l => l | None => [] end.

(* the values passed for keyword k in one update call *)
Fixpoint vals (k : Z) (kw : kwargs) : list value :=
  match kw with [] => [] | kv :: r => if k =? fst kv then snd kv :: vals k r else vals k r end.
Definition numval (v : value) : Z := match num_of v with Some z => z | None => 0 end.
Definition is_num (v : value) : bool := match num_of v with Some _ => true | None => false end.
Fixpoint sum_num (l : list value) : Z := match l with [] => 0 | v :: r => numval v + sum_num r end.
Definition has_num (l : list value) : bool := existsb is_num l.

(* the sequence of update calls an event list / a device call performs *)
Definition ev_kwargs (e : event) : list kwargs := match e with EUpdate kw => [kw] | ERecord => [] end.
Definition events_log (es : list event) : list kwargs := flat_map ev_kwargs es.
Definition call_log (c : call) : list kwargs := events_log (call_events c).
Definition key_vals (k : Z) (log : list kwargs) : list value := vals k (concat log).

(* abstract semantics of a program: is the tracker active, and the list of update calls since the
   last reset, in call order *)
Definition astep (persistent : bool) (a : bool * list kwargs) (o : op) : bool * list kwargs :=
  match o with
  | OEnter => (true, if persistent then snd a else [])
  | OExit => (false, snd a)
  | OReset => (fst a, [])
  | OUpdate kw => (fst a, snd a ++ [kw])
  | ORecord => a
  | OCall c => if fst a then (true, snd a ++ call_log c) else a
  end.
Definition arun (persistent : bool) (ops : list op) : bool * list kwargs :=
  fold_left (astep persistent) ops (false, []).

(* circuits of a batch that reach the tracker: all of them unless get_num_shots_and_executions raises *)
Fixpoint tracked (cs : list circuit) : list circuit :=
  match cs with [] => [] | c :: r => match nse c with None => [] | Some _ => c :: tracked r end end.
Definition nexec (c : circuit) : Z := match nse c with Some p => fst p | None => 0 end.
Definition nshots (c : circuit) : Z := match nse c with Some p => snd p | None => 0 end.

Definition call_executions (c : call) : Z :=
  match c with
  | CExecute a => sumZ (map nexec (tracked (batch_of a)))
  | CExecDeriv a | CExecJvp a | CExecVjp a => len (batch_of a)
  | _ => 0
  end.
Definition call_shots (c : call) : Z :=
  match c with
  | CExecute a => sumZ (map nshots (filter has_shots (tracked (batch_of a))))
  | _ => 0
  end.
Definition call_simulations (c : call) : Z :=
  match c with CExecute a => len (tracked (batch_of a)) | _ => 0 end.
Definition call_derivatives (c : call) : Z :=
  match c with CDeriv a | CExecDeriv a => len (batch_of a) | _ => 0 end.
Definition is_execute (c : call) : bool := match c with CExecute _ => true | _ => false end.
Definition is_deriv (c : call) : bool := match c with CDeriv _ => true | _ => false end.
Definition count {A} (f : A -> bool) (l : list A) : Z := len (filter f l).

(* `with Tracker(dev) as tracker:` followed by the device calls *)
Definition tracked_run (persistent has_cb : bool) (calls : list call) : tracker :=
  run_ops (init persistent has_cb) (OEnter :: map OCall calls).

Lemma lookup_upd_hist k k' v h :
  lookup k' (upd_hist k v h) = if k' =? k then Some (get_hist h k ++ [v]) else lookup k' h.
Proof.
  unfold get_hist. induction h as [|[k0 l] r IH]; cbn [upd_hist lookup].
  - destruct (k' =? k); reflexivity.
  - destruct (Z.eqb_spec k k0) as [<-|E]; cbn [lookup]; [|rewrite IH];
      destruct (Z.eqb_spec k' k) as [->|E']; rewrite ?Z.eqb_refl, ?(proj2 (Z.eqb_neq _ _) E); reflexivity.
Qed.

Lemma lookup_upd_tot k k' z t :
  lookup k' (upd_tot k z t) = if k' =? k then Some (z + get_tot t k) else lookup k' t.
Proof.
  unfold get_tot. induction t as [|[k0 x] r IH]; cbn [upd_tot lookup].
  - destruct (k' =? k); reflexivity.
  - destruct (Z.eqb_spec k k0) as [<-|E]; cbn [lookup]; [|rewrite IH];
      destruct (Z.eqb_spec k' k) as [->|E']; rewrite ?Z.eqb_refl, ?(proj2 (Z.eqb_neq _ _) E); reflexivity.
Qed.

Lemma vals_app k a b : vals k (a ++ b) = vals k a ++ vals k b.
Proof. induction a as [|kv r IH]; cbn [vals app]; [reflexivity|]. destruct (k =? fst kv); cbn [app]; rewrite IH; reflexivity. Qed.
Lemma sum_num_app a b : sum_num (a ++ b) = sum_num a + sum_num b.
Proof. induction a as [|v r IH]; cbn [sum_num app]; [reflexivity|]. rewrite IH. lia. Qed.
Lemma has_num_app a b : has_num (a ++ b) = has_num a || has_num b.
Proof. unfold has_num. apply existsb_app. Qed.
Lemma key_vals_app k a b : key_vals k (a ++ b) = key_vals k a ++ key_vals k b.
Proof. unfold key_vals. rewrite concat_app. apply vals_app. Qed.
Lemma sumZ_app a b : sumZ (a ++ b) = sumZ a + sumZ b.
Proof. apply ShotsProofs.sumZ_app. Qed.

(* an update call changes the two dictionaries and `latest`, nothing else *)
Lemma update_set_th st kw : exists t h, update st kw = set_th (set_latest st kw) t h.
Proof.
  unfold update. generalize (set_latest st kw). induction kw as [|kv r IH]; intro s; cbn [fold_left].
  - exists (t_totals s), (t_history s). destruct s; reflexivity.
  - assert (exists t h, update1 s kv = set_th s t h) as (t & h & ->)
      by (unfold update1; destruct (num_of (snd kv)); eauto).
    destruct (IH (set_th s t h)) as (t' & h' & ->). exists t', h'. reflexivity.
Qed.

Lemma update1_hist st kv k :
  get_hist (t_history (update1 st kv)) k = get_hist (t_history st) k ++ vals k [kv].
Proof.
  assert (H : t_history (update1 st kv) = upd_hist (fst kv) (snd kv) (t_history st)).
  { unfold update1. destruct (num_of (snd kv)); reflexivity. }
  rewrite H. unfold get_hist at 1. rewrite lookup_upd_hist. cbn [vals].
  destruct (Z.eqb_spec k (fst kv)) as [E|E].
  - subst k. reflexivity.
  - rewrite app_nil_r. reflexivity.
Qed.

Lemma update1_tot st kv k :
  get_tot (t_totals (update1 st kv)) k = get_tot (t_totals st) k + sum_num (vals k [kv]) /\
  has_tot (t_totals (update1 st kv)) k = has_tot (t_totals st) k || has_num (vals k [kv]).
Proof.
  unfold update1, has_num. cbn [vals].
  destruct (num_of (snd kv)) as [z|] eqn:N; cbn [t_totals set_th].
  - unfold get_tot at 1, has_tot at 1. rewrite lookup_upd_tot.
    destruct (k =? fst kv) eqn:E; cbn [sum_num existsb]; unfold numval, is_num; rewrite ?N.
    + apply Z.eqb_eq in E. subst k. split; [lia | symmetry; apply orb_true_r].
    + split; [unfold get_tot; lia | symmetry; apply orb_false_r].
  - destruct (k =? fst kv); cbn [sum_num existsb]; unfold numval, is_num; rewrite ?N;
      (split; [lia | symmetry; apply orb_false_r]).
Qed.

Lemma fold_update1_hist kw : forall st k,
  get_hist (t_history (fold_left update1 kw st)) k = get_hist (t_history st) k ++ vals k kw.
Proof.
  induction kw as [|kv r IH]; intros st k; cbn [fold_left].
  - cbn [vals]. rewrite app_nil_r. reflexivity.
  - rewrite IH, update1_hist. change (kv :: r) with ([kv] ++ r). rewrite vals_app, app_assoc. reflexivity.
Qed.

Lemma update_frame st kw :
  t_active (update st kw) = t_active st /\ t_persistent (update st kw) = t_persistent st /\
  t_has_cb (update st kw) = t_has_cb st /\ t_latest (update st kw) = kw /\ t_cblog (update st kw) = t_cblog st.
Proof. destruct (update_set_th st kw) as (t & h & ->). repeat split. Qed.

Lemma update_hist st kw k : get_hist (t_history (update st kw)) k = get_hist (t_history st) k ++ vals k kw.
Proof. unfold update. rewrite fold_update1_hist. reflexivity. Qed.

(* invariant: totals are the sums of the history *)
Definition Inv (st : tracker) : Prop :=
  forall k, get_tot (t_totals st) k = sum_num (get_hist (t_history st) k) /\
            has_tot (t_totals st) k = has_num (get_hist (t_history st) k).

Lemma fold_left_inv {S X} (P : S -> Prop) (f : S -> X -> S) :
  (forall s x, P s -> P (f s x)) -> forall l s, P s -> P (fold_left f l s).
Proof. intros H l. induction l; cbn [fold_left]; auto. Qed.

Lemma inv_update1 st kv : Inv st -> Inv (update1 st kv).
Proof.
  intros I k. destruct (I k) as [A B]. destruct (update1_tot st kv k) as [A' B'].
  rewrite update1_hist, sum_num_app, has_num_app. split; [lia | congruence].
Qed.
Lemma inv_update st kw : Inv st -> Inv (update st kw).
Proof. intros I. apply (fold_left_inv Inv update1 inv_update1), I. Qed.
Lemma inv_record st : Inv st -> Inv (record st).
Proof. unfold record. destruct (t_has_cb st); intros I; exact I. Qed.
Lemma inv_reset st : Inv (reset st).
Proof. intros k. split; reflexivity. Qed.
Lemma inv_step st o : Inv st -> Inv (step st o).
Proof.
  intros I. destruct o; cbn [step].
  - unfold enter. destruct (t_persistent st); [exact I | apply (inv_reset st)].
  - exact I.
  - apply inv_reset.
  - apply inv_update; exact I.
  - apply inv_record; exact I.
  - unfold device_call. destruct (t_active st); [|exact I].
    apply (fold_left_inv Inv apply_event); [|exact I]. intros s []; [apply inv_update | apply inv_record].
Qed.
Lemma inv_init p cb : Inv (init p cb).
Proof. intros k; split; reflexivity. Qed.

Lemma has_tot_iff t k : has_tot t k = true <-> lookup k t <> None.
Proof. unfold has_tot. destruct (lookup k t); split; congruence. Qed.

Lemma totals_are_sums_lemma p cb ops k :
  let st := run_ops (init p cb) ops in
  get_tot (t_totals st) k = sum_num (get_hist (t_history st) k) /\
  (lookup k (t_totals st) <> None <-> has_num (get_hist (t_history st) k) = true).
Proof.
  intros st. assert (I : Inv st) by apply (fold_left_inv Inv step inv_step), inv_init.
  destruct (I k) as [A B]. split; [exact A|].
  rewrite <- has_tot_iff, B. reflexivity.
Qed.

(* refinement: history = the log of updates, in order *)
Definition Ref (p : bool) (st : tracker) (a : bool * list kwargs) : Prop :=
  t_active st = fst a /\ t_persistent st = p /\
  (forall k, get_hist (t_history st) k = key_vals k (snd a)) /\
  t_latest st = last (snd a) [].

Lemma ref_update p st a kw : Ref p st a -> Ref p (update st kw) (fst a, snd a ++ [kw]).
Proof.
  intros (A & B & C & D). destruct (update_frame st kw) as (A' & B' & _ & D' & _).
  repeat split; cbn [fst snd]; try congruence.
  - intros k. rewrite update_hist, C, key_vals_app. unfold key_vals at 3. cbn [concat]. rewrite app_nil_r. reflexivity.
  - rewrite last_last. exact D'.
Qed.
Lemma ref_record p st a : Ref p st a -> Ref p (record st) a.
Proof. unfold record. destruct (t_has_cb st); intros R; exact R. Qed.

Lemma ref_events p es : forall st a, Ref p st a -> Ref p (run_events st es) (fst a, snd a ++ events_log es).
Proof.
  unfold run_events. induction es as [|e r IH]; intros st a R; cbn [fold_left events_log flat_map].
  - rewrite app_nil_r. destruct a; exact R.
  - destruct e as [kw|]; cbn [apply_event ev_kwargs app].
    + specialize (IH _ _ (ref_update p st a kw R)). cbn [fst snd] in IH.
      change (flat_map ev_kwargs r) with (events_log r). rewrite <- app_assoc in IH. exact IH.
    + apply IH. apply ref_record, R.
Qed.

Lemma ref_step p st a o : Ref p st a -> Ref p (step st o) (astep p a o).
Proof.
  intros R. pose proof R as (A & B & C & D). destruct o; cbn [step astep].
  - unfold enter. rewrite B. destruct p; repeat split; cbn; try assumption.
  - repeat split; cbn; assumption.
  - repeat split; cbn; assumption.
  - apply ref_update, R.
  - apply ref_record, R.
  - unfold device_call. rewrite A. destruct (fst a) eqn:F; [|exact R].
    pose proof (ref_events p (call_events c) st a R) as H. rewrite F in H. exact H.
Qed.

Lemma ref_run p ops : forall st a, Ref p st a -> Ref p (run_ops st ops) (fold_left (astep p) ops a).
Proof.
  unfold run_ops. induction ops as [|o r IH]; intros st a R; cbn [fold_left]; [exact R|].
  apply IH, ref_step, R.
Qed.

Lemma ref_init p cb : Ref p (init p cb) (false, []).
Proof. repeat split. Qed.

Lemma history_in_order_lemma p cb ops :
  let st := run_ops (init p cb) ops in
  t_active st = fst (arun p ops) /\
  (forall k, get_hist (t_history st) k = key_vals k (snd (arun p ops))) /\
  t_latest st = last (snd (arun p ops)) [].
Proof.
  intros st. destruct (ref_run p ops _ _ (ref_init p cb)) as (A & _ & C & D). repeat split; assumption.
Qed.

Lemma inactive_calls_lemma calls : forall st, t_active st = false -> run_ops st (map OCall calls) = st.
Proof.
  unfold run_ops. induction calls as [|c r IH]; intros st H; cbn [map fold_left]; [reflexivity|].
  cbn [step]. unfold device_call. rewrite H. apply IH, H.
Qed.

Lemma reset_clears_lemma st :
  t_totals (reset st) = [] /\ t_history (reset st) = [] /\ t_latest (reset st) = [] /\
  t_active (reset st) = t_active st /\
  (t_persistent st = false -> t_totals (enter st) = [] /\ t_history (enter st) = [] /\ t_latest (enter st) = []) /\
  (t_persistent st = true -> t_totals (enter st) = t_totals st /\ t_history (enter st) = t_history st) /\
  t_active (enter st) = true /\ t_active (exit st) = false /\
  t_totals (exit st) = t_totals st /\ t_history (exit st) = t_history st.
Proof.
  unfold enter. destruct (t_persistent st); repeat split; try reflexivity; congruence.
Qed.

Definition key_sum (k : Z) (log : list kwargs) : Z := sum_num (key_vals k log).
Lemma key_sum_app k a b : key_sum k (a ++ b) = key_sum k a + key_sum k b.
Proof. unfold key_sum. rewrite key_vals_app, sum_num_app. reflexivity. Qed.
Lemma key_sum_cons k kw r : key_sum k (kw :: r) = sum_num (vals k kw) + key_sum k r.
Proof. unfold key_sum, key_vals. cbn [concat]. rewrite vals_app, sum_num_app. reflexivity. Qed.
Lemma key_sum_nil k : key_sum k [] = 0.
Proof. reflexivity. Qed.

Lemma arun_calls p calls : forall log,
  fold_left (astep p) (map OCall calls) (true, log) = (true, log ++ flat_map call_log calls).
Proof.
  induction calls as [|c r IH]; intros log; cbn [map fold_left flat_map].
  - rewrite app_nil_r. reflexivity.
  - cbn [astep fst snd]. rewrite IH, <- app_assoc. reflexivity.
Qed.

Lemma key_sum_flat_map {A} k (f : A -> list kwargs) l :
  key_sum k (flat_map f l) = sumZ (map (fun x => key_sum k (f x)) l).
Proof. induction l as [|x r IH]; [reflexivity|]. cbn [flat_map map]. rewrite key_sum_app, IH. reflexivity. Qed.
Lemma key_sum_map {A} k (f : A -> kwargs) l : key_sum k (map f l) = sumZ (map (fun x => sum_num (vals k (f x))) l).
Proof. induction l as [|x r IH]; [reflexivity|]. cbn [map]. rewrite key_sum_cons, IH. reflexivity. Qed.

Lemma tracked_run_total p cb calls k :
  get_tot (t_totals (tracked_run p cb calls)) k = sumZ (map (fun c => key_sum k (call_log c)) calls).
Proof.
  unfold tracked_run.
  destruct (totals_are_sums_lemma p cb (OEnter :: map OCall calls) k) as [A _]. cbv zeta in A. rewrite A.
  destruct (history_in_order_lemma p cb (OEnter :: map OCall calls)) as (_ & C & _). cbv zeta in C. rewrite C.
  unfold arun. cbn [fold_left astep snd]. replace (if p then [] else []) with (@nil kwargs) by (destruct p; reflexivity).
  rewrite arun_calls. apply key_sum_flat_map.
Qed.

Lemma sumZ_map_ext {A} (f g : A -> Z) l : (forall x, f x = g x) -> sumZ (map f l) = sumZ (map g l).
Proof. intros H. induction l as [|x r IH]; [reflexivity|]. unfold sumZ in *. cbn [map fold_right]. rewrite H, IH. reflexivity. Qed.
Lemma sumZ_zeros {A} (l : list A) : sumZ (map (fun _ => 0) l) = 0.
Proof. induction l as [|x r IH]; [reflexivity|]. exact IH. Qed.
Lemma sumZ_filter {A} (p : A -> bool) (f : A -> Z) l :
  sumZ (map f (filter p l)) = sumZ (map (fun x => if p x then f x else 0) l).
Proof.
  unfold sumZ. induction l as [|x r IH]; [reflexivity|]. cbn [filter map fold_right]. rewrite <- IH.
  destruct (p x); reflexivity.
Qed.
Lemma sumZ_ones {A} (l : list A) : sumZ (map (fun _ => 1) l) = len l.
Proof. unfold sumZ, len. induction l as [|x r IH]; [reflexivity|]. cbn [map fold_right length]. rewrite IH. lia. Qed.
Lemma sumZ_indicator {A} (f : A -> bool) l : sumZ (map (fun c => if f c then 1 else 0) l) = count f l.
Proof. unfold count. rewrite <- sumZ_ones. symmetry. apply sumZ_filter. Qed.

(* the update calls of the execute loop and of the resource loop, one per circuit that reaches the tracker *)
Lemma exec_events_log cs :
  events_log (exec_events cs) = map (fun c => exec_kwargs c (nexec c) (nshots c)) (tracked cs).
Proof.
  induction cs as [|c r IH]; cbn [exec_events tracked]; [reflexivity|].
  destruct (nse c) as [[ex sh]|] eqn:N; [|reflexivity].
  cbn [events_log flat_map ev_kwargs app map]. fold (events_log (exec_events r)). rewrite IH.
  unfold nexec, nshots. rewrite N. reflexivity.
Qed.
Lemma res_events_log cs : events_log (res_events cs) = map (fun c => [(K_resources, VTok (c_res c))]) cs.
Proof. unfold res_events. induction cs as [|c r IH]; [reflexivity|]. cbn [map]. rewrite <- IH. reflexivity. Qed.

Lemma exec_events_key k cs : k <> K_simulations -> k <> K_executions -> k <> K_results -> k <> K_shots -> k <> K_resources ->
  key_sum k (events_log (exec_events cs)) = 0.
Proof.
  intros H2 H3 H4 H5 H6. rewrite exec_events_log, key_sum_map, <- (sumZ_zeros (tracked cs)).
  apply sumZ_map_ext. intro c. unfold exec_kwargs.
  destruct (has_shots c); cbn [vals fst snd]; rewrite !(proj2 (Z.eqb_neq k _)) by assumption; reflexivity.
Qed.
Lemma res_events_key k cs : k <> K_resources -> key_sum k (events_log (res_events cs)) = 0.
Proof.
  intros H. rewrite res_events_log, key_sum_map, <- (sumZ_zeros cs). apply sumZ_map_ext. intro c.
  cbn [vals fst snd]. rewrite (proj2 (Z.eqb_neq k _)) by assumption. reflexivity.
Qed.
Lemma exec_events_executions cs :
  key_sum K_executions (events_log (exec_events cs)) = sumZ (map nexec (tracked cs)).
Proof.
  rewrite exec_events_log, key_sum_map. apply sumZ_map_ext. intro c. unfold exec_kwargs.
  destruct (has_shots c); cbn; lia.
Qed.
Lemma exec_events_simulations cs :
  key_sum K_simulations (events_log (exec_events cs)) = len (tracked cs).
Proof.
  rewrite exec_events_log, key_sum_map, <- sumZ_ones. apply sumZ_map_ext. intro c. unfold exec_kwargs.
  destruct (has_shots c); reflexivity.
Qed.
Lemma exec_events_shots cs :
  key_sum K_shots (events_log (exec_events cs)) = sumZ (map nshots (filter has_shots (tracked cs))).
Proof.
  rewrite exec_events_log, key_sum_map, sumZ_filter. apply sumZ_map_ext. intro c. unfold exec_kwargs.
  destruct (has_shots c); cbn; lia.
Qed.

Lemma events_log_app a b : events_log (a ++ b) = events_log a ++ events_log b.
Proof. unfold events_log. apply flat_map_app. Qed.

(* one goal per entry point, with key_sum of its update calls split into the terms of the fixed calls (closed
   by computation) and those of the execute / resource loops (rewritten by the lemmas above) *)
Ltac call_cases c :=
  destruct c as [a| |a|a|a|a|a|a]; unfold call_log; cbn [call_events];
  rewrite ?events_log_app; cbn [events_log flat_map ev_kwargs app];
  repeat match goal with |- context [flat_map ev_kwargs ?l] => change (flat_map ev_kwargs l) with (events_log l) end;
  rewrite ?key_sum_app, ?key_sum_cons, ?key_sum_nil.

Lemma call_executions_ok c : key_sum K_executions (call_log c) = call_executions c.
Proof.
  call_cases c; cbn [call_executions];
    rewrite ?exec_events_executions, ?res_events_key by discriminate; cbn; lia.
Qed.

Lemma call_batches_ok c : key_sum K_batches (call_log c) = if is_execute c then 1 else 0.
Proof.
  call_cases c; cbn [is_execute];
    rewrite ?exec_events_key, ?res_events_key by discriminate; cbn; lia.
Qed.

Lemma call_deriv_batches_ok c : key_sum K_derivative_batches (call_log c) = if is_deriv c then 1 else 0.
Proof.
  call_cases c; cbn [is_deriv];
    rewrite ?exec_events_key, ?res_events_key by discriminate; cbn; lia.
Qed.

Lemma call_derivatives_ok c : key_sum K_derivatives (call_log c) = call_derivatives c.
Proof.
  call_cases c; cbn [call_derivatives];
    rewrite ?exec_events_key, ?res_events_key by discriminate; cbn; lia.
Qed.

Lemma call_shots_ok c : key_sum K_shots (call_log c) = call_shots c.
Proof.
  call_cases c; cbn [call_shots];
    rewrite ?exec_events_shots, ?res_events_key by discriminate; cbn; lia.
Qed.

Lemma call_simulations_ok c : key_sum K_simulations (call_log c) = call_simulations c.
Proof.
  call_cases c; cbn [call_simulations];
    rewrite ?exec_events_simulations, ?res_events_key by discriminate; cbn; lia.
Qed.

Lemma executions_lemma p cb calls :
  get_tot (t_totals (tracked_run p cb calls)) K_executions = sumZ (map call_executions calls).
Proof. rewrite tracked_run_total. apply sumZ_map_ext, call_executions_ok. Qed.
Lemma batches_lemma p cb calls :
  get_tot (t_totals (tracked_run p cb calls)) K_batches = count is_execute calls.
Proof. rewrite tracked_run_total, <- sumZ_indicator. apply sumZ_map_ext, call_batches_ok. Qed.
Lemma deriv_batches_lemma p cb calls :
  get_tot (t_totals (tracked_run p cb calls)) K_derivative_batches = count is_deriv calls /\
  get_tot (t_totals (tracked_run p cb calls)) K_derivatives = sumZ (map call_derivatives calls).
Proof.
  split.
  - rewrite tracked_run_total, <- sumZ_indicator. apply sumZ_map_ext, call_deriv_batches_ok.
  - rewrite tracked_run_total. apply sumZ_map_ext, call_derivatives_ok.
Qed.
Lemma shots_lemma p cb calls :
  get_tot (t_totals (tracked_run p cb calls)) K_shots = sumZ (map call_shots calls).
Proof. rewrite tracked_run_total. apply sumZ_map_ext, call_shots_ok. Qed.
Lemma simulations_lemma p cb calls :
  get_tot (t_totals (tracked_run p cb calls)) K_simulations = sumZ (map call_simulations calls).
Proof. rewrite tracked_run_total. apply sumZ_map_ext, call_simulations_ok. Qed.

(* without shadow groups every group contributes (e, total_shots * e): shots = total x executions *)
Definition no_shadow_head (g : option meas) : bool := match g with Some m => negb (m_shadow m) | None => true end.

Lemma group_exec_rule single shots g e s :
  no_shadow_head g = true -> group_exec single shots g = Some (e, s) ->
  s = match shots with Some t => t * e | None => 0 end.
Proof.
  unfold group_exec, no_shadow_head. destruct g as [m|]; [|discriminate]. intros NS.
  apply negb_true_iff in NS. rewrite NS.
  repeat destruct (m_exp m && _); intros H; inversion H; subst; destruct shots; reflexivity.
Qed.

Lemma sum_groups_rule single shots gs : forall acc e s,
  forallb no_shadow_head gs = true -> sum_groups single shots gs acc = Some (e, s) ->
  snd acc = match shots with Some t => t * fst acc | None => 0 end ->
  s = match shots with Some t => t * e | None => 0 end.
Proof.
  induction gs as [|g r IH]; intros acc e s NS H A; cbn [sum_groups] in H.
  - inversion H; subst. exact A.
  - cbn [forallb] in NS. apply andb_prop in NS. destruct NS as [NS1 NS2].
    destruct (group_exec single shots g) as [[e1 s1]|] eqn:G; [|discriminate].
    pose proof (group_exec_rule _ _ _ _ _ NS1 G) as R.
    apply (IH _ _ _ NS2 H). cbn [fst snd]. rewrite A, R. destruct shots; lia.
Qed.

Lemma shots_rule_lemma c e s :
  forallb no_shadow_head (group_heads (c_meas c) (c_part c)) = true -> nse c = Some (e, s) ->
  s = match tape_total c with Some t => t * e | None => 0 end.
Proof.
  unfold nse. intros NS.
  destruct (sum_groups _ _ _ _) as [[e0 s0]|] eqn:G; [|discriminate].
  pose proof (sum_groups_rule _ _ _ _ _ _ NS G) as R. cbn [fst snd] in R. specialize (R ltac:(destruct (tape_total c); lia)).
  destruct (c_batch c) as [b|].
  - destruct (b =? 0); intros H; inversion H; clear H; destruct (tape_total c); lia.
  - intros H; inversion H; clear H; destruct (tape_total c); lia.
Qed.

(* a shot vector enters only through its total (C44: total = sum of the expanded vector) *)
Lemma tape_total_vector c l sh : c_shots c = SSeq l -> mk (SSeq l) = Some sh -> tape_total c = Some (sumZ (iter sh)).
Proof. intros E M. unfold tape_total. rewrite E, M. exact (mk_total _ _ M). Qed.

Definition records (es : list event) : Z := count (fun e => match e with ERecord => true | _ => false end) es.

Lemma cblog_events es : forall st, t_has_cb st = true ->
  len (t_cblog (run_events st es)) = len (t_cblog st) + records es.
Proof.
  unfold run_events, records, count, len. induction es as [|e r IH]; intros st H; cbn [fold_left filter length]; [lia|].
  destruct e as [kw|]; cbn [apply_event].
  - destruct (update_frame st kw) as (_ & _ & C & _ & E). rewrite IH by congruence. rewrite E. reflexivity.
  - unfold record at 1. rewrite H. rewrite IH by reflexivity. cbn [t_cblog length]. rewrite app_length. cbn [length]. lia.
Qed.

Lemma cblog_last_sees_current st : t_has_cb st = true ->
  last (t_cblog (record st)) ([], []) = (t_totals st, t_latest st).
Proof. intros H. unfold record. rewrite H. cbn [t_cblog]. apply last_last. Qed.
