(* Facts about the model of Shots.  Everything is stated on the expanded list of shot counts `iter sh`
   (= expand_pairs (vec sh)): the merging loop of __all_tuple_init__ leaves it unchanged (ati_expand), so the
   constructor, + and * by a scalar are concatenation and map on that list; `wf` (positive shots and copies) and
   `canonical` (no two adjacent entries with equal shots) are what the constructor guarantees of the vector. *)
From Coq Require Import List ZArith Bool Lia.
From PLV Require Import Disc.ShotsModel.
Import ListNotations.
Open Scope Z_scope.

Definition sumZ (l : list Z) : Z := fold_right Z.add 0 l.
Definition item_expand (i : item) : list Z := let p := to_pair i in repeatZ (fst p) (Z.to_nat (snd p)).
Definition pos_pairs (l : list (Z * Z)) : Prop := Forall (fun p => 0 < fst p /\ 0 < snd p) l.
Definition wf (sh : shots) : Prop := pos_pairs (vec sh).

Lemma repeatZ_app x a b : repeatZ x (a + b) = repeatZ x a ++ repeatZ x b.
Proof. induction a as [|a IH]; simpl; [reflexivity | now rewrite IH]. Qed.
Lemma repeatZ_length x n : length (repeatZ x n) = n.
Proof. induction n; simpl; congruence. Qed.
Lemma sumZ_app a b : sumZ (a ++ b) = sumZ a + sumZ b.
Proof. induction a as [|x a IH]; simpl; [reflexivity | rewrite IH; lia]. Qed.
Lemma sumZ_repeat x n : sumZ (repeatZ x n) = x * Z.of_nat n.
Proof. induction n as [|n IH]; [simpl; lia|]. cbn [repeatZ sumZ fold_right]. fold (sumZ (repeatZ x n)). rewrite IH. lia. Qed.
Lemma expand_pairs_cons p l : expand_pairs (p :: l) = repeatZ (fst p) (Z.to_nat (snd p)) ++ expand_pairs l.
Proof. reflexivity. Qed.
Lemma expand_pairs_app a b : expand_pairs (a ++ b) = expand_pairs a ++ expand_pairs b.
Proof. unfold expand_pairs. now rewrite flat_map_app. Qed.

(* the merging loop preserves the expanded list and positivity, and yields a canonical vector *)
Lemma ati_expand r : forall c, 0 <= snd c -> Forall (fun p => 0 <= snd p) r ->
  expand_pairs (ati_loop c r) = expand_pairs (c :: r).
Proof.
  induction r as [|s r IH]; intros c Hc Hr; [reflexivity|].
  inversion Hr as [|? ? Hs Hr']; subst. cbn [ati_loop].
  destruct (fst s =? fst c) eqn:E.
  - rewrite IH; [|simpl; lia|assumption].
    rewrite !expand_pairs_cons. cbn [fst snd]. apply Z.eqb_eq in E. rewrite E.
    rewrite Z2Nat.inj_add by lia. rewrite repeatZ_app, app_assoc. reflexivity.
  - rewrite expand_pairs_cons, IH by assumption. reflexivity.
Qed.

Lemma ati_pos r : forall c, 0 < fst c /\ 0 < snd c -> pos_pairs r -> pos_pairs (ati_loop c r).
Proof.
  induction r as [|s r IH]; intros c Hc Hr; [constructor; [assumption|constructor]|].
  inversion Hr as [|? ? Hs Hr']; subst. cbn [ati_loop].
  destruct (fst s =? fst c); [apply IH; [simpl; lia|assumption]|].
  constructor; [assumption|]. apply IH; assumption.
Qed.

Fixpoint canonical (v : list (Z * Z)) : Prop :=
  match v with
  | a :: ((b :: _) as r) => fst a <> fst b /\ canonical r
  | _ => True
  end.

Lemma ati_head r : forall c, exists k r', ati_loop c r = (fst c, k) :: r'.
Proof.
  induction r as [|s r IH]; intros c; cbn [ati_loop].
  - exists (snd c), []. destruct c; reflexivity.
  - destruct (fst s =? fst c).
    + destruct (IH (fst c, snd c + snd s)) as (k & r' & E). exists k, r'. exact E.
    + exists (snd c), (ati_loop s r). destruct c; reflexivity.
Qed.

Lemma ati_canonical r : forall c, canonical (ati_loop c r).
Proof.
  induction r as [|s r IH]; intros c; cbn [ati_loop]; [exact I|].
  destruct (fst s =? fst c) eqn:E; [apply IH|].
  destruct (ati_head r s) as (k & r' & H). specialize (IH s). rewrite H in *.
  cbn [canonical]. split; [|exact IH]. cbn [fst]. apply Z.eqb_neq in E. congruence.
Qed.

Lemma sum_total_expand v : Forall (fun p => 0 <= snd p) v -> sum_total v = sumZ (expand_pairs v).
Proof.
  induction v as [|p v IH]; intros H; [reflexivity|]. inversion H; subst.
  rewrite expand_pairs_cons, sumZ_app, sumZ_repeat, <- IH by assumption.
  unfold sum_total; cbn [fold_right]. rewrite Z2Nat.id by assumption. reflexivity.
Qed.

Lemma pos_nonneg l : pos_pairs l -> Forall (fun p => 0 <= snd p) l.
Proof. apply Forall_impl. intros; lia. Qed.

Lemma valid_items_pos l : forallb valid_item l = true -> pos_pairs (map to_pair l).
Proof.
  rewrite forallb_forall. intros H. apply Forall_forall. intros p Hp. apply in_map_iff in Hp as (i & <- & Hi).
  apply H in Hi. destruct i; cbn in *; unfold valid_int in *; rewrite ?andb_true_iff, ?Z.ltb_lt in Hi;
    try discriminate; lia.
Qed.

Lemma expand_map_to_pair l : expand_pairs (map to_pair l) = flat_map item_expand l.
Proof. induction l as [|i l IH]; [reflexivity|]. cbn [map]. rewrite expand_pairs_cons, IH. reflexivity. Qed.

Lemma mk_seq_inv l sh : mk (SSeq l) = Some sh ->
  exists c r, map to_pair l = c :: r /\ pos_pairs (c :: r) /\
              vec sh = ati_loop c r /\ total sh = Some (sum_total (ati_loop c r)).
Proof.
  cbn [mk]. destruct (forallb valid_item l) eqn:V; [|discriminate]. apply valid_items_pos in V.
  destruct (map to_pair l) as [|c r]; [discriminate|]. intros [= <-]. exists c, r. auto.
Qed.

Lemma mk_wf s sh : mk s = Some sh -> wf sh.
Proof.
  destruct s as [|z|l|]; cbn [mk]; intros H; try discriminate.
  - inversion H; constructor.
  - destruct (z <? 1) eqn:E; inversion H; subst. apply Z.ltb_ge in E.
    constructor; [cbn; lia|constructor].
  - destruct (mk_seq_inv _ _ H) as (c & r & _ & V & E & _). unfold wf. rewrite E.
    inversion V; subst. apply ati_pos; assumption.
Qed.

Lemma mk_seq_iter l sh : mk (SSeq l) = Some sh -> iter sh = flat_map item_expand l.
Proof.
  intros H. destruct (mk_seq_inv _ _ H) as (c & r & M & V & E & _).
  rewrite <- expand_map_to_pair, M. unfold iter. rewrite E. inversion V; subst.
  apply (ati_expand r c); [lia|apply pos_nonneg; assumption].
Qed.

Lemma mk_total s sh : mk s = Some sh ->
  total sh = match s with SNone => None | _ => Some (sumZ (iter sh)) end.
Proof.
  intros H. pose proof (mk_wf _ _ H) as W. destruct s as [|z|l|]; try discriminate.
  - inversion H; reflexivity.
  - cbn [mk] in H. destruct (z <? 1); inversion H; subst. unfold iter. cbn [total vec flat_map fst snd].
    change (Z.to_nat 1) with 1%nat. cbn [repeatZ app sumZ fold_right]. f_equal; lia.
  - destruct (mk_seq_inv _ _ H) as (c & r & _ & _ & E & T). rewrite T, <- E. f_equal.
    apply sum_total_expand, pos_nonneg, W.
Qed.

Lemma mk_canonical s sh : mk s = Some sh -> canonical (vec sh).
Proof.
  destruct s as [|z|l|]; cbn [mk]; intros H; try discriminate.
  - inversion H; exact I.
  - destruct (z <? 1); inversion H; exact I.
  - destruct (mk_seq_inv _ _ H) as (c & r & _ & _ & -> & _). apply ati_canonical.
Qed.

Lemma num_copies_length sh : wf sh -> num_copies sh = Z.of_nat (length (iter sh)).
Proof.
  unfold wf, num_copies, iter. induction (vec sh) as [|p v IH]; intros W; [reflexivity|].
  inversion W; subst. cbn [fold_right flat_map]. rewrite app_length, repeatZ_length, IH by assumption. lia.
Qed.

Lemma iter_length_ge v : pos_pairs v -> (length v <= length (expand_pairs v))%nat.
Proof.
  induction v as [|p v IH]; intros W; [apply le_n|]. inversion W; subst.
  rewrite expand_pairs_cons, app_length, repeatZ_length. specialize (IH H2). cbn [length]. lia.
Qed.

Lemma partitioned_iff sh : wf sh -> total sh <> None ->
  has_partitioned sh = true <-> (1 < length (iter sh))%nat.
Proof.
  intros W T. unfold has_partitioned. destruct (total sh); [clear T|congruence].
  unfold wf, iter in *. fold (expand_pairs (vec sh)).
  destruct (vec sh) as [|p v]; [cbn; split; [discriminate|lia]|].
  inversion W as [|? ? Hp Hv]; subst. pose proof (iter_length_ge _ Hv) as L.
  rewrite expand_pairs_cons, app_length, repeatZ_length. cbn [length].
  rewrite orb_true_iff, !Z.ltb_lt. split.
  - intros [H|H]; lia.
  - intros H. destruct v; [right; cbn in *; lia|left; cbn [length]; lia].
Qed.

Lemma bins_from_spec l : forall lb i a b, nth_error (bins_from lb l) i = Some (a, b) ->
  a = lb + sumZ (firstn i l) /\ b = lb + sumZ (firstn (S i) l).
Proof.
  induction l as [|s l IH]; intros lb i a b H; [destruct i; discriminate|].
  destruct i as [|i]; cbn in H.
  - inversion H; subst. cbn. lia.
  - apply IH in H. cbn [firstn sumZ fold_right] in *. fold (sumZ (firstn i l)) in *.
    destruct l; cbn in *; lia.
Qed.
Lemma bins_from_length l : forall lb, length (bins_from lb l) = length l.
Proof. induction l; intros; simpl; congruence. Qed.

Lemma pairs_valid v : pos_pairs v -> forallb valid_item (map (fun p => IPair (fst p) (snd p)) v) = true.
Proof.
  induction 1 as [|p v [H1 H2] _ IH]; [reflexivity|]. cbn. unfold valid_int.
  rewrite IH. apply Z.ltb_lt in H1, H2. now rewrite H1, H2.
Qed.
Lemma pairs_expand v : flat_map item_expand (map (fun p => IPair (fst p) (snd p)) v) = expand_pairs v.
Proof. induction v as [|p v IH]; [reflexivity|]. cbn [map flat_map]. rewrite IH. reflexivity. Qed.

Lemma mk_seq_some l : forallb valid_item l = true -> l <> [] -> exists z, mk (SSeq l) = Some z.
Proof. intros V N. cbn [mk]. rewrite V. destruct l; [congruence|]. cbn. eexists; reflexivity. Qed.

Lemma add_concat x y : wf x -> wf y -> total x <> None -> total y <> None -> vec x <> [] ->
  exists z, add x y = Some z /\ iter z = iter x ++ iter y /\ total z = Some (sumZ (iter x) + sumZ (iter y)).
Proof.
  intros Wx Wy Tx Ty Nx. unfold add. destruct (total x); [|congruence]. destruct (total y); [|congruence].
  assert (W : pos_pairs (vec x ++ vec y)) by (apply Forall_app; split; assumption).
  destruct (mk_seq_some _ (pairs_valid _ W)) as [zz E]; [destruct (vec x); [congruence|discriminate]|].
  exists zz. split; [exact E|]. pose proof (mk_seq_iter _ _ E) as I. rewrite pairs_expand, expand_pairs_app in I.
  split; [exact I|]. rewrite (mk_total _ _ E), I, sumZ_app. reflexivity.
Qed.

Lemma add_none_l x y : total x = None -> add x y = Some y.
Proof. unfold add; intros ->; reflexivity. Qed.
Lemma add_none_r x y : total x <> None -> total y = None -> add x y = Some x.
Proof. unfold add; intros H ->. destruct (total x); congruence. Qed.

Lemma expand_scaled p q v : pos_pairs v ->
  flat_map item_expand (map (fun sc => IPair (scale p q (fst sc)) (snd sc)) v) = map (scale p q) (expand_pairs v).
Proof.
  induction 1 as [|a v _ _ IH]; [reflexivity|]. cbn [map flat_map]. rewrite IH, expand_pairs_cons, map_app.
  f_equal. unfold item_expand; cbn [to_pair fst snd]. induction (Z.to_nat (snd a)); simpl; congruence.
Qed.

Lemma forallb_false_Exists {A} (f : A -> bool) l : forallb f l = false <-> Exists (fun x => f x = false) l.
Proof.
  induction l as [|a l IH]; cbn [forallb]; [split; [discriminate | intros H; inversion H]|].
  rewrite andb_false_iff, IH, Exists_cons. reflexivity.
Qed.

Lemma forallb_repeatZ f x n : forallb f (repeatZ x (S n)) = f x.
Proof. induction n as [|n IH]; [apply andb_true_r|]. cbn [repeatZ forallb] in *. rewrite IH. apply andb_diag. Qed.

(* the scaled vector is a valid specification exactly when every scaled entry of the expanded list is positive *)
Lemma scaled_valid p q v : pos_pairs v ->
  forallb valid_item (map (fun sc => IPair (scale p q (fst sc)) (snd sc)) v) =
  forallb (fun s => 0 <? scale p q s) (expand_pairs v).
Proof.
  induction 1 as [|a v [H1 H2] _ IH]; [reflexivity|].
  rewrite expand_pairs_cons, forallb_app, <- IH. cbn [map forallb valid_item]. f_equal.
  destruct (Z.to_nat (snd a)) eqn:E; [lia|]. rewrite forallb_repeatZ. unfold valid_int.
  apply Z.ltb_lt in H2. rewrite H2. apply andb_true_r.
Qed.

Lemma mul_map x p q : wf x -> total x <> None -> vec x <> [] ->
  Forall (fun s => 0 < scale p q s) (iter x) ->
  exists z, mul x p q = Some z /\ iter z = map (scale p q) (iter x).
Proof.
  intros W T N A. unfold mul. destruct (total x); [|congruence].
  set (l := map (fun sc => IPair (scale p q (fst sc)) (snd sc)) (vec x)).
  assert (exists r, mk (SSeq l) = Some r) as [r E].
  { apply mk_seq_some; subst l; [|destruct (vec x); [congruence|discriminate]].
    rewrite (scaled_valid p q _ W). apply forallb_forall. intros s Hs. apply Z.ltb_lt.
    revert s Hs. apply Forall_forall. exact A. }
  exists r. split; [exact E|]. rewrite (mk_seq_iter _ _ E). subst l. now rewrite expand_scaled.
Qed.

Lemma mul_reject x p q : wf x -> total x <> None ->
  Exists (fun s => scale p q s <= 0) (iter x) -> mul x p q = None.
Proof.
  intros W T A. unfold mul. destruct (total x); [|congruence]. cbn [mk].
  rewrite (scaled_valid p q _ W), (proj2 (forallb_false_Exists _ _)); [reflexivity|].
  revert A. apply Exists_impl. intros s H. apply Z.ltb_ge. exact H.
Qed.

Definition invalid (s : spec) : Prop :=
  match s with
  | SNone => False
  | SInt z => z < 1
  | SSeq l => l = [] \/ Exists (fun i => valid_item i = false) l
  | SBad => True
  end.

Lemma reject_iff s : mk s = None <-> invalid s.
Proof.
  destruct s as [|z|l|]; cbn [mk invalid].
  - split; [discriminate|tauto].
  - destruct (z <? 1) eqn:E; [apply Z.ltb_lt in E|apply Z.ltb_ge in E]; split; intros; try discriminate; try lia; reflexivity.
  - rewrite <- forallb_false_Exists. destruct (forallb valid_item l); [|split; auto].
    destruct l; cbn; split; auto; try discriminate. intros [H|H]; discriminate.
  - split; auto.
Qed.
