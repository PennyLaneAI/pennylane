(* Facts about the model of sample post-processing.
   A bit row is identified with its big-endian value int2 (= samples @ powers_of_two, dot_int2; inverse bits_of),
   so eigenvalue lookup, frequencies and counts are all stated over `map int2` of the selected rows.
   Statistics: with the eigenvalue samples written directly (direct_vals over `selected`), expval / var of an
   unbatched array without bin_size are `stat` of that list (stat_ps_direct).
   Dictionaries: dget / dtotal of dupd, fill and of a dictionary listed in index order (Section Gen) give the
   contents and the total of CountsMP._samples_to_counts (s2c_raw_spec); the same total is followed through
   _map_counts and the eigenvalue relabelling. *)
From Coq Require Import List ZArith Bool Lia ZifyBool FinFun.
From PLV Require Import Disc.SamplesModel.
Import ListNotations.
Open Scope Z_scope.

Definition inrange (w : nat) (i : Z) : Prop := 0 <= i < 2 ^ Z.of_nat w.

Lemma b2z_range b : 0 <= b2z b <= 1.
Proof. destruct b; simpl; lia. Qed.

Lemma int2_acc : forall r a, fold_left (fun a x => 2 * a + b2z x) r a = a * 2 ^ lenZ r + int2 r.
Proof.
  unfold int2, lenZ. induction r as [|x r IH]; intros a; cbn [fold_left length].
  - simpl. lia.
  - rewrite IH, (IH (2 * 0 + b2z x)), Nat2Z.inj_succ, Z.pow_succ_r by lia. ring.
Qed.

Lemma int2_cons b r : int2 (b :: r) = b2z b * 2 ^ lenZ r + int2 r.
Proof. unfold int2 at 1. cbn [fold_left]. rewrite int2_acc. reflexivity. Qed.

Lemma int2_snoc l x : int2 (l ++ [x]) = 2 * int2 l + b2z x.
Proof. unfold int2. rewrite fold_left_app. reflexivity. Qed.

Lemma int2_range r : 0 <= int2 r < 2 ^ lenZ r.
Proof.
  induction r as [|b r IH]; [unfold int2, lenZ; simpl; lia|].
  rewrite int2_cons. unfold lenZ in *. cbn [length]. rewrite Nat2Z.inj_succ, Z.pow_succ_r by lia.
  pose proof (b2z_range b). nia.
Qed.

Lemma int2_inrange w r : length r = w -> inrange w (int2 r).
Proof. intros <-. apply int2_range. Qed.

Lemma powers_S w : powers_of_two (S w) = 2 ^ Z.of_nat w :: powers_of_two w.
Proof. unfold powers_of_two. rewrite seq_S, map_app, rev_app_distr. reflexivity. Qed.

(* samples @ powers_of_two  is the big-endian binary value of the row = int(str, 2) *)
Lemma dot_int2 row : index_row (length row) row = int2 row.
Proof.
  induction row as [|b r IH]; [reflexivity|].
  cbn [length]. unfold index_row. rewrite powers_S. cbn [dot]. fold (index_row (length r) r).
  rewrite IH, int2_cons. reflexivity.
Qed.

Lemma index_rows_int2 w rows : Forall (fun r => length r = w) rows -> map (index_row w) rows = map int2 rows.
Proof. intros H. apply map_ext_Forall. eapply Forall_impl; [|exact H]. intros r <-. apply dot_int2. Qed.

Lemma bits_of_S w i : bits_of (S w) i = bits_of w (Z.div2 i) ++ [Z.odd i].
Proof.
  unfold bits_of. cbn [seq]. rewrite <- seq_shift. cbn [rev]. rewrite map_app. cbn [map]. f_equal.
  rewrite <- map_rev, map_map. apply map_ext. intros k. rewrite Z.div2_div, Z.div2_bits by lia. f_equal. lia.
Qed.

Lemma length_bits_of w i : length (bits_of w i) = w.
Proof. unfold bits_of. now rewrite map_length, rev_length, seq_length. Qed.

(* the formatter f"{i:0wb}" inverts int(.,2) *)
Lemma bits_of_int2 : forall row, bits_of (length row) (int2 row) = row.
Proof.
  induction row as [|x l IH] using rev_ind; [reflexivity|].
  rewrite app_length, Nat.add_1_r, bits_of_S, int2_snoc. pose proof (b2z_range x).
  replace (Z.div2 (2 * int2 l + b2z x)) with (int2 l) by (rewrite Z.div2_div; Z.div_mod_to_equations; lia).
  rewrite IH, Z.add_comm, Z.odd_add_mul_2. now destruct x.
Qed.

Lemma int2_bits_of : forall w i, inrange w i -> int2 (bits_of w i) = i.
Proof.
  unfold inrange. induction w as [|w IH]; intros i H.
  - simpl in H. assert (i = 0) by lia. subst. reflexivity.
  - rewrite Nat2Z.inj_succ, Z.pow_succ_r in H by lia. rewrite bits_of_S, int2_snoc, IH.
    + pose proof (Z.div2_odd i) as E. destruct (Z.odd i); simpl in *; lia.
    + rewrite Z.div2_div. Z.div_mod_to_equations. lia.
Qed.

Lemma int2_inj a b : length a = length b -> int2 a = int2 b -> a = b.
Proof. intros L E. rewrite <- (bits_of_int2 a), <- (bits_of_int2 b), L, E. reflexivity. Qed.

Lemma bits_of_inj w i j : inrange w i -> inrange w j -> bits_of w i = bits_of w j -> i = j.
Proof. intros Hi Hj E. rewrite <- (int2_bits_of w i Hi), <- (int2_bits_of w j Hj), E. reflexivity. Qed.

Lemma in_all_indices w i : In i (all_indices w) <-> inrange w i.
Proof.
  unfold all_indices, inrange. rewrite in_map_iff. split.
  - intros (k & <- & Hk). apply in_seq in Hk. lia.
  - intros H. exists (Z.to_nat i). split; [lia|]. apply in_seq. lia.
Qed.

Lemma all_indices_range w : Forall (inrange w) (all_indices w).
Proof. apply Forall_forall. intros i H. now apply in_all_indices. Qed.

Lemma all_indices_nodup w : NoDup (all_indices w).
Proof. apply FinFun.Injective_map_NoDup; [intros a b; apply Nat2Z.inj | apply seq_NoDup]. Qed.

Lemma length_all_indices w : lenZ (all_indices w) = 2 ^ Z.of_nat w.
Proof. unfold lenZ, all_indices. rewrite map_length, seq_length. lia. Qed.

Lemma nth_all_indices {A} (g : Z -> A) w i : inrange w i ->
  nth_error (map g (all_indices w)) (Z.to_nat i) = Some (g i).
Proof.
  intros H. unfold inrange in H. apply map_nth_error. unfold all_indices.
  replace i with (Z.of_nat (Z.to_nat i)) at 2 by lia. apply map_nth_error.
  rewrite (nth_error_nth' _ 0%nat), seq_nth by (rewrite ?seq_length; lia). reflexivity.
Qed.

Lemma eq_lz_eq a : forall b, eq_lz a b = true -> a = b.
Proof. induction a as [|x a IH]; destruct b; simpl; try congruence. intros H. apply andb_prop in H as [H1 H2]. apply Z.eqb_eq in H1. f_equal; auto. Qed.

(* whichever path is taken, the sample value is eigvals[int(bits, 2)] *)
Lemma row_value_lookup one ev row :
  (eq_lz ev [one; - one] = true -> length row = 1%nat) ->
  row_value one ev (length row) row = nth_error ev (Z.to_nat (int2 row)).
Proof.
  intros H. unfold row_value. destruct (eq_lz ev [one; - one]) eqn:E; [|now rewrite dot_int2].
  apply eq_lz_eq in E. subst ev. specialize (H eq_refl).
  destruct row as [|b [|c r]]; try discriminate.
  destruct b; [change (Z.to_nat (int2 [true])) with 1%nat | change (Z.to_nat (int2 [false])) with 0%nat];
    cbn [nth_error b2z]; f_equal; lia.
Qed.

Lemma fastpath_lookup one b :
  row_value one [one; - one] 1 [b] = nth_error [one; - one] (Z.to_nat (index_row 1 [b])).
Proof.
  change (index_row 1 [b]) with (index_row (length [b]) [b]). rewrite dot_int2.
  now apply (row_value_lookup one _ [b]).
Qed.

Lemma mcm_direct one n e row : length row = n ->
  nth_error (mv_eigvals one n e) (Z.to_nat (int2 row)) = Some (one * meval e row).
Proof.
  intros L. unfold mv_eigvals. rewrite (nth_all_indices (fun i => one * meval e (bits_of n i))) by now apply int2_inrange.
  now rewrite <- L, bits_of_int2.
Qed.

Lemma sumZ_cons x r : sumZ (x :: r) = x + sumZ r.
Proof. reflexivity. Qed.
Lemma sumZ_app a b : sumZ (a ++ b) = sumZ a + sumZ b.
Proof. induction a as [|x a IH]; [reflexivity|]. cbn [app]. rewrite !sumZ_cons, IH. lia. Qed.
Lemma lenZ_cons {A} (x : A) r : lenZ (x :: r) = 1 + lenZ r.
Proof. unfold lenZ. cbn [length]. lia. Qed.

Lemma sum_sq_shift a s xs :
  sumZ (map (fun x => (a * x - s) * (a * x - s)) xs)
  = a * a * sumZ (map (fun x => x * x) xs) - 2 * a * s * sumZ xs + lenZ xs * s * s.
Proof.
  induction xs as [|x xs IH]; [unfold lenZ, sumZ; simpl; ring|].
  cbn [map]. rewrite !sumZ_cons, lenZ_cons, IH. ring.
Qed.

(* numpy var = mean(|x - mean x|^2); times n^3 it is n (n sum x^2 - (sum x)^2), i.e. var = mean(x^2) - mean(x)^2 *)
Lemma var_num_direct xs :
  var_num xs = lenZ xs * (lenZ xs * sumZ (map (fun x => x * x) xs) - sumZ xs * sumZ xs).
Proof. unfold var_num. cbv zeta. rewrite sum_sq_shift. ring. Qed.

Lemma map_opt_ext {A B} (f g : A -> option B) l : (forall x, In x l -> f x = g x) -> map_opt f l = map_opt g l.
Proof.
  induction l as [|x l IH]; intros H; [reflexivity|]. cbn [map_opt].
  rewrite (H x (or_introl eq_refl)), IH; [reflexivity|]. intros y Hy. apply H. now right.
Qed.

Lemma length_select idxs row : length (select idxs row) = length idxs.
Proof. unfold select. now rewrite map_length. Qed.

(* the direct statement: eigenvalue of every selected sample, looked up by its binary value *)
Definition direct_vals (ev : list Z) (rows : list (list bool)) : option (list Z) :=
  map_opt (fun row => nth_error ev (Z.to_nat (int2 row))) rows.
Definition selected (idxs : list nat) (r : option (Z * Z)) (rows : list (list bool)) : list (list bool) :=
  map (select idxs) (slice r rows).

Lemma eig_array_direct one o ev order r rows idxs vals :
  mapped_wires order (o_wires o) = Some idxs -> idxs <> [] ->
  (eq_lz ev [one; - one] = true -> length idxs = 1%nat) ->
  direct_vals ev (selected idxs r rows) = Some vals ->
  eig_array one o ev order r None [rows] = Some [vals].
Proof.
  intros Hm Hne Hfp Hd. unfold eig_array, prep. rewrite Hm.
  destruct idxs as [|i0 il]; [congruence|]. cbn [map].
  unfold eig_samples. cbn [map_opt].
  rewrite (map_opt_ext (row_value one ev (length (i0 :: il))) (fun row => nth_error ev (Z.to_nat (int2 row)))).
  - unfold direct_vals, selected in Hd. rewrite Hd. reflexivity.
  - intros row Hin. apply in_map_iff in Hin as (row0 & <- & _).
    rewrite <- (length_select (i0 :: il) row0) at 1. apply row_value_lookup.
    intros E. rewrite length_select. auto.
Qed.

Lemma stat_ps_direct stat one o ev order r rows idxs vals :
  o_eigvals one o = Some ev ->
  mapped_wires order (o_wires o) = Some idxs -> idxs <> [] ->
  (eq_lz ev [one; - one] = true -> length idxs = 1%nat) ->
  direct_vals ev (selected idxs r rows) = Some vals ->
  stat_ps stat one o false order r None [rows] = RQ (TZ (stat vals)) (lenZ vals).
Proof.
  intros He Hm Hne Hfp Hd. unfold stat_ps. rewrite He.
  destruct (o_wires o) as [|w0 wl] eqn:EW.
  - cbn in Hm. inversion Hm. congruence.
  - rewrite <- EW in Hm. rewrite (eig_array_direct one o ev order r rows idxs vals Hm Hne Hfp Hd).
    reflexivity.
Qed.

Lemma sumZ_map_add {A} (f g : A -> Z) l : sumZ (map (fun p => f p + g p) l) = sumZ (map f l) + sumZ (map g l).
Proof. induction l as [|x l IH]; [reflexivity|]. cbn [map]. rewrite !sumZ_cons, IH. lia. Qed.

Lemma sumZ_map_zero {A} (l : list A) : sumZ (map (fun _ => 0) l) = 0.
Proof. induction l as [|x l IH]; [reflexivity|]. cbn [map]. now rewrite sumZ_cons, IH. Qed.

Lemma indicator_notin x keys : ~ In x keys -> sumZ (map (fun i => if x =? i then 1 else 0) keys) = 0.
Proof.
  induction keys as [|k keys IH]; intros H; [reflexivity|].
  cbn [map]. rewrite sumZ_cons, IH by (intros Hx; apply H; now right).
  destruct (Z.eqb_spec x k); [exfalso; apply H; now left | reflexivity].
Qed.

Lemma indicator_in x keys : NoDup keys -> In x keys -> sumZ (map (fun i => if x =? i then 1 else 0) keys) = 1.
Proof.
  induction 1 as [|k keys Hk _ IH]; [intros [] | intros [->|Hx]]; cbn [map]; rewrite sumZ_cons.
  - now rewrite Z.eqb_refl, indicator_notin.
  - rewrite IH by assumption. destruct (Z.eqb_spec x k) as [->|]; [contradiction | reflexivity].
Qed.

Lemma count_eq_cons i x l : count_eq i (x :: l) = (if x =? i then 1 else 0) + count_eq i l.
Proof. reflexivity. Qed.
Lemma count_eq_nonneg i l : 0 <= count_eq i l.
Proof. induction l as [|x l IH]; [unfold count_eq, sumZ; simpl; lia|]. rewrite count_eq_cons. destruct (x =? i); lia. Qed.

(* over duplicate-free keys that contain every sample, the multiplicities add up to the number of samples *)
Lemma count_total_keys keys l : NoDup keys -> Forall (fun x => In x keys) l ->
  sumZ (map (fun p => count_eq p l) keys) = lenZ l.
Proof.
  intros ND. induction 1 as [|x l Hx _ IH]; [exact (sumZ_map_zero keys)|].
  rewrite (map_ext _ (fun p => (if x =? p then 1 else 0) + count_eq p l)) by (intros; apply count_eq_cons).
  rewrite sumZ_map_add, IH, indicator_in, lenZ_cons by assumption. reflexivity.
Qed.

(* the frequency vector has one entry per basis state and its entries add up to the number of shots *)
Lemma count_total w l : Forall (inrange w) l -> sumZ (map (fun p => count_eq p l) (all_indices w)) = lenZ l.
Proof.
  intros H. apply count_total_keys; [apply all_indices_nodup|].
  eapply Forall_impl; [|exact H]. intros x. apply in_all_indices.
Qed.

Lemma rows_in_range w rows : Forall (fun r => length r = w) rows -> Forall (inrange w) (map int2 rows).
Proof. intros H. apply Forall_map. eapply Forall_impl; [|exact H]. intros r. apply int2_inrange. Qed.

Lemma count_rows_total w rows : Forall (fun r => length r = w) rows ->
  sumZ (map (fun p => count_eq p (map int2 rows)) (all_indices w)) = lenZ rows.
Proof. intros H. rewrite count_total by now apply rows_in_range. unfold lenZ. now rewrite map_length. Qed.

Lemma eq_lb_eq a : forall b, eq_lb a b = true <-> a = b.
Proof.
  induction a as [|x a IH]; intros [|y b]; simpl; try (split; discriminate); [tauto|].
  rewrite andb_true_iff, IH, eqb_true_iff. split; [intros [-> ->]; reflexivity | intros H; inversion H; auto].
Qed.
Lemma key_eqb_eq a b : key_eqb a b = true <-> a = b.
Proof.
  destruct a, b; simpl; rewrite ?eq_lb_eq, ?Z.eqb_eq; split; congruence.
Qed.
Lemma key_eqb_refl k : key_eqb k k = true.
Proof. now apply key_eqb_eq. Qed.
Lemma key_eqb_neq a b : key_eqb a b = false <-> a <> b.
Proof. rewrite <- key_eqb_eq. destruct (key_eqb a b); split; congruence. Qed.

(* bit-string keys of in-range indices compare as the indices do *)
Lemma key_bits_eqb w i j : inrange w i -> inrange w j -> key_eqb (inl (bits_of w i)) (inl (bits_of w j)) = (i =? j).
Proof.
  intros Hi Hj. apply eq_true_iff_eq. rewrite key_eqb_eq, Z.eqb_eq.
  split; [intros E; injection E as E; now apply (bits_of_inj w) | now intros ->].
Qed.

Lemma dget_dupd_same f k v d :
  dget k (dupd f k v d) = Some (match dget k d with Some o => f o v | None => v end).
Proof.
  induction d as [|[k' v'] d IH]; cbn [dupd dget]; [now rewrite key_eqb_refl|].
  destruct (key_eqb k' k) eqn:E; cbn [dget]; rewrite E; [reflexivity | exact IH].
Qed.
Lemma dget_dupd_other f k k' v d : k' <> k -> dget k (dupd f k' v d) = dget k d.
Proof.
  intros N. apply key_eqb_neq in N. induction d as [|[k2 v2] d IH]; cbn [dupd dget]; [now rewrite N|].
  destruct (key_eqb k2 k') eqn:E; cbn [dget]; [|now rewrite IH].
  apply key_eqb_eq in E. subst k2. now rewrite N.
Qed.
Lemma dget_notin k d : ~ In k (map fst d) -> dget k d = None.
Proof.
  induction d as [|[k' v'] d IH]; intros H; [reflexivity|]. cbn [dget].
  destruct (key_eqb k' k) eqn:E; [apply key_eqb_eq in E; subst; exfalso; apply H; now left|].
  apply IH. intros X. apply H. now right.
Qed.
Lemma dget_app k a b : dget k (a ++ b) = match dget k a with Some v => Some v | None => dget k b end.
Proof. induction a as [|[k' v'] a IH]; [reflexivity|]. cbn [app dget]. destruct (key_eqb k' k); auto. Qed.

Lemma dtotal_cons k v d : dtotal ((k, v) :: d) = v + dtotal d.
Proof. reflexivity. Qed.
Lemma dtotal_app a b : dtotal (a ++ b) = dtotal a + dtotal b.
Proof. unfold dtotal. rewrite map_app. apply sumZ_app. Qed.
Lemma dtotal_dupd f k v d :
  dtotal (dupd f k v d) = dtotal d + match dget k d with Some o => f o v - o | None => v end.
Proof.
  induction d as [|[k' v'] d IH]; cbn [dupd dget].
  - unfold dtotal, sumZ. simpl. lia.
  - destruct (key_eqb k' k) eqn:E; rewrite !dtotal_cons; [lia | rewrite IH; lia].
Qed.
Lemma dtotal_dadd k v d : dtotal (dadd k v d) = dtotal d + v.
Proof. unfold dadd. rewrite dtotal_dupd. destruct (dget k d); lia. Qed.

(* _map_counts keeps the number of shots, whatever the wire subset / order *)
Lemma map_counts_total order ws c d : map_counts order ws c = Some d -> dtotal d = sumZ (map snd c).
Proof.
  unfold map_counts. destruct (mapped_wires order ws) as [idxs|]; [|discriminate]. intros H. injection H as <-.
  change (sumZ (map snd c)) with (dtotal [] + sumZ (map snd c)). generalize ([] : dict).
  induction c as [|oc c IH]; intros acc; cbn [fold_left map].
  - unfold sumZ. simpl. lia.
  - rewrite IH, dtotal_dadd, sumZ_cons. lia.
Qed.

(* eigenvalue relabelling that SUMS repeated keys keeps the number of shots for ANY eigenvalues *)
Lemma remap_sum_total ev : forall d acc r, remap_with Z.add ev d acc = Some r -> dtotal r = dtotal acc + dtotal d.
Proof.
  induction d as [|[k c] d IH]; intros acc r H; cbn [remap_with] in H.
  - inversion H. unfold dtotal, sumZ. simpl. lia.
  - destruct k as [b|z]; [|discriminate].
    destruct (nth_error ev (Z.to_nat (int2 b))) as [e|]; [|discriminate].
    apply IH in H. rewrite H. fold (dadd (inr e) c acc). rewrite dtotal_dadd, dtotal_cons. lia.
Qed.

Lemma flat_map_single {A B} (f : A -> B) l : flat_map (fun x => [f x]) l = map f l.
Proof. induction l as [|x l IH]; [reflexivity|]. cbn. now rewrite IH. Qed.

(* the dictionary that lists, in the order of L, the index i under its bit-string key with value c i, when p i *)
Section Gen.
  Variable w : nat.
  Variable p : Z -> bool.
  Variable c : Z -> Z.
  Definition gen (i : Z) : dict := if p i then [(inl (bits_of w i) : key, c i)] else [].

  Lemma gen_get L j : Forall (inrange w) L -> inrange w j ->
    dget (inl (bits_of w j)) (flat_map gen L) = if existsb (Z.eqb j) L && p j then Some (c j) else None.
  Proof.
    intros HL Hj. induction HL as [|i L Hi _ IH]; [reflexivity|].
    cbn [flat_map existsb]. rewrite dget_app, IH. unfold gen. destruct (Z.eqb_spec j i) as [->|N]; cbn [orb].
    - destruct (p i); cbn [dget]; [now rewrite key_eqb_refl | now rewrite !andb_false_r].
    - destruct (p i); [|reflexivity]. cbn [dget]. rewrite key_bits_eqb by assumption.
      destruct (Z.eqb_spec i j); [congruence | reflexivity].
  Qed.

  Lemma gen_total L : (forall i, p i = false -> c i = 0) -> dtotal (flat_map gen L) = sumZ (map c L).
  Proof.
    intros Hc. induction L as [|i L IH]; [reflexivity|]. cbn [flat_map map]. rewrite dtotal_app, sumZ_cons, IH.
    f_equal. unfold gen. destruct (p i) eqn:P; [unfold dtotal, sumZ; simpl; lia | now rewrite Hc].
  Qed.

  Lemma gen_keys L k : In k (map fst (flat_map gen L)) -> exists i, In i L /\ k = inl (bits_of w i).
  Proof.
    induction L as [|i L IH]; [intros []|]. cbn [flat_map]. rewrite map_app, in_app_iff. intros [H|H].
    - unfold gen in H. destruct (p i); [|destruct H]. destruct H as [H|[]]. exists i. split; [now left | now symmetry].
    - destruct (IH H) as (i' & Hi & E). exists i'. split; [now right | assumption].
  Qed.

  Lemma gen_nodup L : NoDup L -> Forall (inrange w) L -> NoDup (map fst (flat_map gen L)).
  Proof.
    induction 1 as [|i L Hni Hnd IH]; intros HL; [constructor|].
    inversion HL as [|? ? Hi HL']; subst. cbn [flat_map]. rewrite map_app. unfold gen at 1.
    destruct (p i); [|apply IH; assumption]. cbn [map app fst]. constructor; [|apply IH; assumption].
    intros Hin. apply gen_keys in Hin as (i' & Hi' & E). injection E as E.
    rewrite Forall_forall in HL'. apply bits_of_inj in E; auto. congruence.
  Qed.
End Gen.

Lemma base_get w L j : Forall (inrange w) L -> inrange w j ->
  dget (inl (bits_of w j)) (map (fun i => (inl (bits_of w i) : key, 0)) L) = if existsb (Z.eqb j) L then Some 0 else None.
Proof.
  intros HL Hj. rewrite <- flat_map_single, (gen_get w (fun _ => true) (fun _ => 0)) by assumption.
  now rewrite andb_true_r.
Qed.
Lemma base_total w L : dtotal (map (fun i => (inl (bits_of w i) : key, 0)) L) = 0.
Proof.
  rewrite <- flat_map_single, (gen_total w (fun _ => true) (fun _ => 0)) by reflexivity. apply sumZ_map_zero.
Qed.

Lemma dget_fill k u : forall base, NoDup (map fst u) ->
  dget k (fill base u) = match dget k u with Some v => Some v | None => dget k base end.
Proof.
  unfold fill. induction u as [|[k1 v1] u IH]; intros base Hnd; [reflexivity|].
  inversion Hnd as [|? ? Hni Hnd']; subst. cbn [fold_left fst snd]. rewrite IH by assumption. cbn [dget].
  unfold dset. destruct (key_eqb k1 k) eqn:E.
  - apply key_eqb_eq in E. subst k1. rewrite dget_notin, dget_dupd_same by assumption. now destruct (dget k base).
  - destruct (dget k u); [reflexivity|]. apply dget_dupd_other. now apply key_eqb_neq.
Qed.

Lemma dtotal_fill u : forall base, NoDup (map fst u) ->
  (forall k, In k (map fst u) -> dget k base = Some 0 \/ dget k base = None) ->
  dtotal (fill base u) = dtotal base + dtotal u.
Proof.
  unfold fill. induction u as [|[k1 v1] u IH]; intros base Hnd Hz; cbn [fold_left fst snd].
  - unfold dtotal at 3, sumZ. simpl. lia.
  - inversion Hnd as [|? ? Hni Hnd']; subst. unfold dset. rewrite IH; [| assumption |].
    + rewrite dtotal_dupd, dtotal_cons. destruct (Hz k1 (or_introl eq_refl)) as [E|E]; rewrite E; lia.
    + intros k Hk. rewrite dget_dupd_other; [apply Hz; now right|]. intros X. subst. contradiction.
Qed.

(* multiplicity of the bit string b among the rows *)
Definition mult (b : list bool) (rows : list (list bool)) : Z := count_eq (int2 b) (map int2 rows).

(* CountsMP without observable: the dictionary maps every bit string to its multiplicity (observed strings
   only, or ALL 2^w strings under all_outcomes) and the counts add up to the number of shots *)
Lemma s2c_raw_spec ao ws w rows :
  (ws = [] \/ length ws = w) -> Forall (fun r => length r = w) rows ->
  exists d, s2c_raw ao ws None w rows = Some d /\
    (forall b, length b = w ->
       dget (inl b) d = if ao || (0 <? mult b rows) then Some (mult b rows) else None) /\
    dtotal d = lenZ rows.
Proof.
  intros Hws Hrows. unfold s2c_raw.
  assert (Hn : (if (0 <? length ws)%nat then length ws else w) = w).
  { destruct Hws as [->|<-]; [reflexivity | now destruct (0 <? length ws)%nat]. }
  rewrite Hn. eexists. split; [reflexivity|].
  unfold unique_rows. rewrite (index_rows_int2 w rows Hrows).
  set (c := fun i => count_eq i (map int2 rows)).
  change (flat_map _ (all_indices w)) with (flat_map (gen w (fun i => 0 <? c i) c) (all_indices w)).
  assert (Cn : forall i, 0 <= c i) by (intros; apply count_eq_nonneg).
  pose proof (all_indices_range w) as AR.
  pose proof (gen_nodup w (fun i => 0 <? c i) c (all_indices w) (all_indices_nodup w) AR) as ND.
  split.
  - intros b Hb. pose proof (int2_inrange w b Hb) as R.
    assert (Ex : existsb (Z.eqb (int2 b)) (all_indices w) = true).
    { apply existsb_exists. exists (int2 b). split; [now apply in_all_indices | apply Z.eqb_refl]. }
    replace (inl b : key) with (inl (bits_of w (int2 b)) : key) by now rewrite <- Hb, bits_of_int2.
    rewrite dget_fill, gen_get, Ex by assumption. unfold mult. fold (c (int2 b)). cbn [andb]. destruct (0 <? c (int2 b)) eqn:P; [now rewrite orb_true_r|].
    rewrite orb_false_r. destruct ao; [|reflexivity]. rewrite base_get, Ex by assumption.
    specialize (Cn (int2 b)). f_equal. lia.
  - rewrite dtotal_fill; [| assumption |].
    + rewrite gen_total by (intros i P; specialize (Cn i); lia). unfold c. rewrite (count_rows_total w rows Hrows).
      destruct ao; [rewrite base_total|]; reflexivity.
    + intros k Hk. destruct ao; [|now right]. apply gen_keys in Hk as (i & Hi & ->).
      rewrite base_get by (assumption || now apply in_all_indices). destruct (existsb _ _); auto.
Qed.

Lemma map_opt_map {A B C} (f : A -> option B) (g : B -> C) (g' : A -> C) :
  (forall x y, f x = Some y -> g y = g' x) -> forall l r, map_opt f l = Some r -> map g r = map g' l.
Proof.
  intros Hf. induction l as [|x l IH]; intros r H; cbn [map_opt] in H; [now injection H as <-|].
  destruct (f x) eqn:E; [|discriminate]. destruct (map_opt f l); [|discriminate].
  injection H as <-. cbn [map]. now rewrite (Hf _ _ E), (IH _ eq_refl).
Qed.

Lemma map_opt_length {A B} (f : A -> option B) l r : map_opt f l = Some r -> length r = length l.
Proof.
  intros H. apply (map_opt_map f (fun _ => tt) (fun _ => tt)) in H; [|reflexivity].
  now rewrite <- (map_length (fun _ => tt) r), H, map_length.
Qed.

Lemma selected_lengths idxs r rows : Forall (fun row => length row = length idxs) (selected idxs r rows).
Proof. apply Forall_map, Forall_forall. intros x _. apply length_select. Qed.

Lemma counts_ps_wires one ao ws order r rows idxs :
  mapped_wires order ws = Some idxs -> idxs <> [] ->
  exists d, counts_ps one ao (OWires ws) false order r None [rows] = RD d /\
    (forall b, length b = length idxs ->
       dget (inl b) d = if ao || (0 <? mult b (selected idxs r rows))
                        then Some (mult b (selected idxs r rows)) else None) /\
    dtotal d = lenZ (selected idxs r rows).
Proof.
  intros Hm Hne. unfold counts_ps, prep. cbn [o_wires]. rewrite Hm.
  pose proof (map_opt_length _ _ _ Hm) as HL.
  destruct (s2c_raw_spec ao ws (length idxs) (selected idxs r rows) (or_intror (eq_sym HL)) (selected_lengths idxs r rows))
    as (d & Hd & Hspec).
  destruct idxs as [|i0 il]; [congruence|]. cbn [map map_opt].
  unfold selected in Hd. rewrite Hd. exists d. split; [reflexivity | exact Hspec].
Qed.

Lemma remove_unobserved_total d : dtotal (remove_unobserved d) = dtotal d.
Proof.
  induction d as [|[k v] d IH]; [reflexivity|]. cbn [remove_unobserved filter snd].
  destruct (v =? 0) eqn:E; cbn [negb]; fold (remove_unobserved d); rewrite ?dtotal_cons, IH; lia.
Qed.

Lemma full_counts_total ao0 order rows h :
  Forall (fun r => length r = length order) rows ->
  full_counts ao0 order rows = Some h -> sumZ (map snd h) = lenZ rows.
Proof.
  intros Hr. unfold full_counts.
  destruct (s2c_raw_spec ao0 [] (length order) rows (or_introl eq_refl) Hr) as (d & Hd & _ & Ht).
  rewrite Hd, <- Ht. intros H. unfold dtotal. f_equal. revert H. apply map_opt_map.
  intros [[b|z] v] y E; cbn in E; [now injection E as <- | discriminate].
Qed.

Lemma roundtrip_total ao0 order ws rows h d :
  Forall (fun r => length r = length order) rows ->
  full_counts ao0 order rows = Some h ->
  counts_pc_gen false ws None order h = Some d -> dtotal d = lenZ rows.
Proof.
  intros Hr Hh Hd. unfold counts_pc_gen in Hd. destruct (map_counts order ws h) as [m|] eqn:Em; [|discriminate].
  inversion Hd; subst. rewrite remove_unobserved_total, (map_counts_total _ _ _ _ Em).
  eapply full_counts_total; eauto.
Qed.

Lemma squeeze_col l : (length l <> 1)%nat -> squeeze (tmat (map (fun z => [z]) l)) = tvec l.
Proof.
  intros H. destruct l as [|a [|b l]]; [reflexivity | cbn in H; congruence |].
  unfold tmat, tvec. cbn [map squeeze]. f_equal. f_equal. f_equal.
  rewrite !map_map. apply map_ext. reflexivity.
Qed.

Lemma probs_ps_direct o order r rows idxs :
  mapped_wires order (o_wires o) = Some idxs -> idxs <> [] -> selected idxs r rows <> [] ->
  probs_ps o false order r None [rows]
  = RQ (tvec (map (fun p => count_eq p (map int2 (selected idxs r rows))) (all_indices (length idxs))))
       (lenZ (selected idxs r rows)).
Proof.
  intros Hm Hne Hs. unfold probs_ps, prep. rewrite Hm.
  destruct idxs as [|i0 il]; [congruence|]. cbn [map]. cbv zeta.
  fold (selected (i0 :: il) r rows). set (sel := selected (i0 :: il) r rows) in *.
  set (w := @length nat (i0 :: il)).
  rewrite (index_rows_int2 w sel (selected_lengths (i0 :: il) r rows)). unfold ncols. rewrite map_length. fold (lenZ sel).
  assert (Hn : 0 < lenZ sel) by (unfold lenZ; destruct sel; [congruence | cbn [length]; lia]).
  rewrite Z_mod_same_full, Z.eqb_refl. cbn [negb]. rewrite orb_false_r.
  destruct (lenZ sel <=? 0) eqn:E; [lia|].
  rewrite Z_div_same_full by lia. change (Z.to_nat 1) with 1%nat. cbn [chunks].
  replace (firstn (Z.to_nat (lenZ sel)) (map int2 sel)) with (map int2 sel)
    by (symmetry; unfold lenZ; rewrite Nat2Z.id, <- (map_length int2 sel); apply firstn_all).
  cbn [map unbatch hd]. rewrite <- (map_map (fun p => count_eq p (map int2 sel)) (fun z => [z])).
  rewrite squeeze_col; [reflexivity|].
  rewrite map_length. pose proof (length_all_indices w) as L. unfold lenZ, w in L |- *. cbn [length] in L |- *.
  rewrite Nat2Z.inj_succ, Z.pow_succ_r in L by lia. pose proof (Z.pow_pos_nonneg 2 (Z.of_nat (length il))). lia.
Qed.
