(* C31  Proofs about the model of DefaultQubit.execute (SeedExecModel.v).
   The completion order enters exec_par only through the event list of run_pool, and collect looks every index
   up in that list: as soon as every task index occurs in the order (covers), index i finds the event of task i
   (find_run_pool_in), so the assembled list is `map task` over the dispatched pairs.  The seeds and the
   generator state left behind are computed before the pool is used.  The statements about histories follow by
   induction over the steps. *)
From Coq Require Import List ZArith Bool Arith Lia Permutation.
From PLV Require Import Disc.SeedExecModel.
Import ListNotations.

Section Proofs.
  Variables (St C R : Type).
  Variable ints : St -> nat -> list Z * St.
  Variable int1 : St -> Z * St.
  Variable reseed : Z -> St.
  Variable task : C -> Z -> R.
  Variable sim : C -> St -> R * St.
  Variable dflt : R.

  Notation run_pool := (run_pool C R task).
  Notation collect := (collect R dflt).
  Notation exec_par := (exec_par St C R ints int1 reseed task dflt).
  Notation exec_ser := (exec_ser St C R sim).
  Notation run_seq := (run_seq St C R ints int1 reseed task sim dflt).
  Notation pairing := (pairing St C ints).

  Lemma find_run_pool_in : forall perm ts i c s,
      In i perm -> nth_error ts i = Some (c, s) ->
      find (fun e => Nat.eqb (fst e) i) (run_pool perm ts) = Some (i, task c s).
  Proof.
    induction perm as [|j perm IH]; intros ts i c s Hin Hn; [destruct Hin|].
    unfold SeedExecModel.run_pool; cbn [flat_map].
    destruct (Nat.eq_dec j i) as [->|Hne].
    - rewrite Hn. cbn [app find fst]. rewrite Nat.eqb_refl. reflexivity.
    - destruct Hin as [->|Hin]; [congruence|].
      destruct (nth_error ts j) as [[c' s']|] eqn:Hj.
      + cbn [app find fst]. destruct (Nat.eqb j i) eqn:E; [apply Nat.eqb_eq in E; congruence|].
        apply (IH ts i c s Hin Hn).
      + cbn [app]. apply (IH ts i c s Hin Hn).
  Qed.

  Lemma collect_aux : forall perm ts k n,
      (forall i, (k <= i < k + n)%nat -> In i perm) -> (k + n <= length ts)%nat ->
      map (fun i => match find (fun e => Nat.eqb (fst e) i) (run_pool perm ts) with
                    | Some e => snd e | None => dflt end) (seq k n)
      = map (fun cs => task (fst cs) (snd cs)) (firstn n (skipn k ts)).
  Proof.
    intros perm ts k n; revert k; induction n as [|n IH]; intros k Hc Hl; [reflexivity|].
    cbn [seq map].
    destruct (nth_error ts k) as [[c s]|] eqn:Hk.
    2:{ apply nth_error_None in Hk. lia. }
    rewrite (find_run_pool_in perm ts k c s (Hc k ltac:(lia)) Hk). cbn [snd].
    assert (Hs : skipn k ts = (c, s) :: skipn (S k) ts).
    { clear -Hk. revert k Hk; induction ts as [|x ts IHt]; intros [|k] H; cbn in *; try discriminate.
      - now inversion H.
      - now apply IHt. }
    rewrite Hs. cbn [firstn map fst snd]. f_equal.
    apply IH; [intros i Hi; apply Hc; lia | lia].
  Qed.

  Lemma collect_run_pool : forall perm ts,
      covers perm (length ts) ->
      collect (length ts) (run_pool perm ts) = map (fun cs => task (fst cs) (snd cs)) ts.
  Proof.
    intros perm ts Hc. unfold SeedExecModel.collect.
    rewrite (collect_aux perm ts 0 (length ts)); [|intros i Hi; apply Hc; lia|lia].
    cbn [skipn]. now rewrite firstn_all.
  Qed.

  Lemma perm_covers : forall perm n, Permutation perm (seq 0 n) -> covers perm n.
  Proof.
    intros perm n HP i Hi. apply (Permutation_in i (Permutation_sym HP)). apply in_seq. lia.
  Qed.

  (* what one parallel execute does when the draw has one seed per circuit, and when it has not *)
  Lemma exec_par_ok : forall perm st batch,
      length (fst (ints st (length batch))) = length batch ->
      exec_par perm st batch
      = {| p_dispatched := pairing st batch;
           p_events := run_pool perm (pairing st batch);
           p_results := Some (collect (length batch) (run_pool perm (pairing st batch)));
           p_state := reseed (fst (int1 (snd (ints st (length batch))))) |}.
  Proof.
    intros perm st batch HL. unfold SeedExecModel.exec_par, SeedExecModel.pairing.
    destruct (ints st (length batch)) as [seeds st1]. cbn [fst snd] in *.
    rewrite HL, Nat.eqb_refl. now destruct (int1 st1).
  Qed.

  Lemma exec_par_bad : forall perm st batch,
      length (fst (ints st (length batch))) <> length batch ->
      exec_par perm st batch
      = {| p_dispatched := []; p_events := []; p_results := None; p_state := snd (ints st (length batch)) |}.
  Proof.
    intros perm st batch HL. unfold SeedExecModel.exec_par.
    destruct (ints st (length batch)) as [seeds st1]. cbn [fst snd] in *.
    apply Nat.eqb_neq in HL. now rewrite HL.
  Qed.

  Lemma exec_par_dispatched : forall perm st batch,
      length (fst (ints st (length batch))) = length batch ->
      p_dispatched _ _ _ (exec_par perm st batch) = pairing st batch.
  Proof. intros perm st batch HL. now rewrite exec_par_ok. Qed.

  Lemma exec_par_sched_indep : forall perm1 perm2 st batch,
      p_dispatched _ _ _ (exec_par perm1 st batch) = p_dispatched _ _ _ (exec_par perm2 st batch)
      /\ p_state _ _ _ (exec_par perm1 st batch) = p_state _ _ _ (exec_par perm2 st batch).
  Proof.
    intros. destruct (Nat.eq_dec (length (fst (ints st (length batch)))) (length batch)) as [HL|HL];
      [rewrite !exec_par_ok by assumption | rewrite !exec_par_bad by assumption]; split; reflexivity.
  Qed.

  Lemma exec_par_results : forall perm st batch,
      covers perm (length batch) ->
      length (fst (ints st (length batch))) = length batch ->
      p_results _ _ _ (exec_par perm st batch)
      = Some (map (fun cs => task (fst cs) (snd cs)) (pairing st batch)).
  Proof.
    intros perm st batch Hc HL. rewrite exec_par_ok by assumption. cbn [p_results]. f_equal.
    assert (Hlen : length (pairing st batch) = length batch)
      by (unfold SeedExecModel.pairing; rewrite combine_length; lia).
    rewrite <- Hlen. apply collect_run_pool. now rewrite Hlen.
  Qed.

  (* when the draw has the wrong length both schedules fail alike *)
  Lemma exec_par_results_sched : forall perm1 perm2 st batch,
      covers perm1 (length batch) -> covers perm2 (length batch) ->
      p_results _ _ _ (exec_par perm1 st batch) = p_results _ _ _ (exec_par perm2 st batch).
  Proof.
    intros perm1 perm2 st batch H1 H2.
    destruct (Nat.eq_dec (length (fst (ints st (length batch)))) (length batch)) as [HL|HL];
      [now rewrite !exec_par_results | now rewrite !exec_par_bad].
  Qed.

  Definition sched_ok (steps : list (bool * list C)) (sched : list (list nat)) : Prop :=
    Forall2 (fun stp perm => covers perm (length (snd stp))) steps sched.

  Lemma run_seq_sched_indep : forall steps st sched1 sched2,
      sched_ok steps sched1 -> sched_ok steps sched2 ->
      run_seq st steps sched1 = run_seq st steps sched2.
  Proof.
    induction steps as [|[par batch] rest IH]; intros st sched1 sched2 H1 H2; [reflexivity|].
    inversion H1 as [|? p1 ? s1 Hc1 Hr1]; subst. inversion H2 as [|? p2 ? s2 Hc2 Hr2]; subst.
    cbn [SeedExecModel.run_seq hd tl]. cbn [snd] in Hc1, Hc2.
    destruct par.
    - destruct (exec_par_sched_indep p1 p2 st batch) as [Hd Hs].
      rewrite Hd, Hs, (exec_par_results_sched p1 p2 st batch Hc1 Hc2).
      now rewrite (IH _ s1 s2 Hr1 Hr2).
    - destruct (exec_ser st batch) as [xs st']. now rewrite (IH _ s1 s2 Hr1 Hr2).
  Qed.

  (* the per-step pairings of a history are those of the spec, step by step *)
  Fixpoint spec_seq (st : St) (steps : list (bool * list C)) : list (list (C * Z)) :=
    match steps with
    | [] => []
    | (true, batch) :: rest =>
        pairing st batch :: spec_seq (reseed (fst (int1 (snd (ints st (length batch)))))) rest
    | (false, batch) :: rest => [] :: spec_seq (snd (exec_ser st batch)) rest
    end.

  Definition ints_ok : Prop := forall st n, length (fst (ints st n)) = n.

  Lemma run_seq_dispatched : ints_ok -> forall steps st sched,
      map (s_dispatched C R) (fst (run_seq st steps sched)) = spec_seq st steps.
  Proof.
    intros HI. induction steps as [|[par batch] rest IH]; intros st sched; [reflexivity|].
    cbn [SeedExecModel.run_seq spec_seq]. destruct par.
    - rewrite exec_par_ok by apply HI. cbn [p_dispatched p_results p_state].
      specialize (IH (reseed (fst (int1 (snd (ints st (length batch)))))) (tl sched)).
      destruct (run_seq _ rest (tl sched)) as [os st2]. cbn [fst map s_dispatched] in *.
      now rewrite IH.
    - specialize (IH (snd (exec_ser st batch)) (tl sched)).
      destruct (exec_ser st batch) as [xs st']. cbn [snd] in IH.
      destruct (run_seq st' rest (tl sched)) as [os st2]. cbn [fst map s_dispatched] in *.
      now rewrite IH.
  Qed.

  Lemma exec_ser_analytic : forall (f : C -> R), (forall c st, fst (sim c st) = f c) ->
      forall batch st, fst (exec_ser st batch) = map f batch.
  Proof.
    intros f Hf. induction batch as [|c r IH]; intros st; [reflexivity|].
    cbn [SeedExecModel.exec_ser]. specialize (Hf c st). destruct (sim c st) as [x st1]. cbn [fst] in Hf.
    specialize (IH st1). destruct (exec_ser st1 r) as [xs st2]. cbn [fst map] in *. now rewrite Hf, IH.
  Qed.

  Lemma par_equals_ser_analytic : forall (f : C -> R),
      (forall c s, task c s = f c) -> (forall c st, fst (sim c st) = f c) ->
      forall perm st st' batch, covers perm (length batch) ->
      length (fst (ints st (length batch))) = length batch ->
      p_results _ _ _ (exec_par perm st batch) = Some (fst (exec_ser st' batch)).
  Proof.
    intros f Ht Hs perm st st' batch Hc HL.
    rewrite exec_par_results by assumption. rewrite (exec_ser_analytic f Hs). f_equal.
    unfold SeedExecModel.pairing. clear Hc. revert HL. generalize (fst (ints st (length batch))).
    induction batch as [|c r IH]; intros [|s l] HL; cbn in *; try discriminate; [reflexivity|].
    rewrite Ht. f_equal. apply IH. lia.
  Qed.

  Lemma exec_ser_app : forall b1 b2 st,
      exec_ser st (b1 ++ b2)
      = (fst (exec_ser st b1) ++ fst (exec_ser (snd (exec_ser st b1)) b2),
         snd (exec_ser (snd (exec_ser st b1)) b2)).
  Proof.
    induction b1 as [|c r IH]; intros b2 st.
    - cbn. now destruct (exec_ser st b2).
    - cbn [app SeedExecModel.exec_ser]. destruct (sim c st) as [x st1]. rewrite IH.
      destruct (exec_ser st1 r) as [xs st2]. reflexivity.
  Qed.
End Proofs.

Definition ex_tables : tables :=
  {| t_ints := [((0, 3), ([11; 22; 33], 1)); ((3, 2), ([44; 55], 4))];
     t_int1 := [(1, (7, 2)); (4, (8, 5))];
     t_reseed := [(7, 3); (8, 6)];
     t_sim := [((100, 6), 7); ((101, 7), 8)] |}%Z.

Lemma ex_history_schedules_agree :
  c_run_seq ex_tables 0%Z [(true, [100; 101; 102]); (true, [103; 104]); (false, [100; 101])]%Z
            [[2; 0; 1]; [1; 0]; []]%nat
  = c_run_seq ex_tables 0%Z [(true, [100; 101; 102]); (true, [103; 104]); (false, [100; 101])]%Z
              [[0; 1; 2]; [0; 1]; []]%nat
  /\ snd (c_run_seq ex_tables 0%Z [(true, [100; 101; 102]); (true, [103; 104]); (false, [100; 101])]%Z
                    [[2; 0; 1]; [1; 0]; []]%nat) = 8%Z.
Proof. split; vm_compute; reflexivity. Qed.

(* the serial path hands the generator itself to every circuit, the parallel path integer seeds: with
   finite shots the two paths are different streams (the property does not claim they agree) *)
Lemma ex_serial_differs_from_parallel :
  s_results _ _ (hd {| s_dispatched := []; s_results := None |}
                    (fst (c_run_seq ex_tables 0%Z [(true, [100; 101; 102])]%Z [[0; 1; 2]]%nat)))
  <> s_results _ _ (hd {| s_dispatched := []; s_results := None |}
                       (fst (c_run_seq ex_tables 0%Z [(false, [100; 101; 102])]%Z [[]]))).
Proof. vm_compute. discriminate. Qed.
