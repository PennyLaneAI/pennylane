(* C16: lemmas about the model in Disc/RingsModel.v.
   Ring laws of Z[sqrt2] and Z[omega] by comparing coefficients, then registered with `ring`; the normalisation loops
   through the relation dm_scaled (j factors of sqrt2 cancelled); the norm-equation solver by chaining the soundness of
   exact division and square root; primality: trial division = Znumtheory.prime, a prime passes every Miller-Rabin base
   (Fermat's little theorem, proved here by permuting the residues), a composite below mr_bound is rejected because it
   shares a prime factor with a base or with small_ps, or by evaluation. *)
From Coq Require Import List ZArith Bool Lia ZifyBool Zpow_facts Znumtheory Permutation.
From PLV Require Import Alg.ListFacts Disc.RingsModel.
Import ListNotations.
Open Scope Z_scope.

(* An identity between expressions built from the operations of Z[sqrt2] and Z[omega] holds as soon as it holds
   coefficient by coefficient, and there it is an identity of polynomials over Z. *)
Ltac coeffs :=
  repeat match goal with x : zs |- _ => destruct x | x : zo |- _ => destruct x end;
  unfold zs_rsubz, zs_sub, zs_add, zs_mul, zs_neg, zs_adj2, zs_conj, zs_mulz, zs_addz, zs_one, zs_zero, zs_abs,
         zo_rsubz, zo_norm, zo_sub, zo_add, zo_mul, zo_neg, zo_adj2, zo_conj, zo_mulz, zo_addz, zo_one, zo_zero, zo_abs,
         zs_to_omega;
  cbn [sa sb oa ob oc od]; first [ring | f_equal; ring].

(* The model's zs_pow_nat and zo_pow_nat are pow_nat at zs_mul and zo_mul: x^(n+1) by n multiplications on the right.
   The addition law of the exponents needs associativity only, and of `pow` that it is pow_nat on positive exponents. *)
Section Pow.
  Context {A : Type} (mul : A -> A -> A) (mul_assoc : forall x y z, mul (mul x y) z = mul x (mul y z)).
  Fixpoint pow_nat (x : A) (n : nat) : A := match n with O => x | S k => mul (pow_nat x k) x end.
  Lemma pow_nat_add x m n : pow_nat x (S (m + n)) = mul (pow_nat x m) (pow_nat x n).
  Proof.
    induction n as [|n IH]; [rewrite Nat.add_0_r; reflexivity|].
    rewrite Nat.add_succ_r. cbn [pow_nat] in *. rewrite IH. apply mul_assoc.
  Qed.
  Lemma pow_add (pow : A -> Z -> res A) :
    (forall x p, 0 < p -> pow x p = Ok (pow_nat x (Z.to_nat (p - 1)))) ->
    forall x p q r s, 0 < p -> 0 < q -> pow x p = Ok r -> pow x q = Ok s -> pow x (p + q) = Ok (mul r s).
  Proof.
    intros pow_pos x p q r s Hp Hq. rewrite !pow_pos by lia. intros [= <-] [= <-]. f_equal.
    replace (Z.to_nat (p + q - 1)) with (S (Z.to_nat (p - 1) + Z.to_nat (q - 1)))%nat by lia.
    apply pow_nat_add.
  Qed.
End Pow.

Lemma zs_add_comm x y : zs_add x y = zs_add y x. Proof. coeffs. Qed.
Lemma zs_add_assoc x y z : zs_add (zs_add x y) z = zs_add x (zs_add y z). Proof. coeffs. Qed.
Lemma zs_add_0_l x : zs_add zs_zero x = x. Proof. coeffs. Qed.
Lemma zs_add_neg x : zs_add x (zs_neg x) = zs_zero. Proof. coeffs. Qed.
Lemma zs_mul_comm x y : zs_mul x y = zs_mul y x. Proof. coeffs. Qed.
Lemma zs_mul_assoc x y z : zs_mul (zs_mul x y) z = zs_mul x (zs_mul y z). Proof. coeffs. Qed.
Lemma zs_mul_1_l x : zs_mul zs_one x = x. Proof. coeffs. Qed.
Lemma zs_distr_r x y z : zs_mul (zs_add x y) z = zs_add (zs_mul x z) (zs_mul y z). Proof. coeffs. Qed.

(* Z[sqrt2] is a commutative ring: from here on `ring` proves those of its identities that do not depend on what
   its elements are; the same for Z[omega] below *)
Definition zs_ring_theory : ring_theory zs_zero zs_one zs_add zs_mul zs_sub zs_neg eq :=
  mk_rt _ _ _ _ _ _ _ zs_add_0_l zs_add_comm (fun x y z => eq_sym (zs_add_assoc x y z))
        zs_mul_1_l zs_mul_comm (fun x y z => eq_sym (zs_mul_assoc x y z)) zs_distr_r (fun x y => eq_refl) zs_add_neg.
Add Ring zs_ring_structure : zs_ring_theory.

Lemma zs_add_0_r x : zs_add x zs_zero = x. Proof. ring. Qed.
Lemma zs_mul_1_r x : zs_mul x zs_one = x. Proof. ring. Qed.
Lemma zs_mul_0_r x : zs_mul x zs_zero = zs_zero. Proof. ring. Qed.
Lemma zs_distr_l x y z : zs_mul x (zs_add y z) = zs_add (zs_mul x y) (zs_mul x z). Proof. ring. Qed.
Lemma zs_sub_diag x : zs_sub x x = zs_zero. Proof. ring. Qed.
Lemma zs_neg_mul x y : zs_mul (zs_neg x) y = zs_neg (zs_mul x y). Proof. ring. Qed.
Lemma zs_neg_neg x : zs_neg (zs_neg x) = x. Proof. ring. Qed.
Lemma zs_mulz_embed x n : zs_mulz x n = zs_mul x (ZS n 0). Proof. coeffs. Qed.
Lemma zs_addz_embed x n : zs_addz x n = zs_add x (ZS n 0). Proof. coeffs. Qed.
Lemma zs_rsubz_embed x n : zs_rsubz n x = zs_sub (ZS n 0) x. Proof. coeffs. Qed.
Lemma zs_conj_id x : zs_conj x = x. Proof. destruct x; reflexivity. Qed.
Lemma zs_adj2_invol x : zs_adj2 (zs_adj2 x) = x. Proof. coeffs. Qed.
Lemma zs_adj2_add x y : zs_adj2 (zs_add x y) = zs_add (zs_adj2 x) (zs_adj2 y). Proof. coeffs. Qed.
Lemma zs_adj2_mul x y : zs_adj2 (zs_mul x y) = zs_mul (zs_adj2 x) (zs_adj2 y). Proof. coeffs. Qed.
Lemma zs_adj2_neg x : zs_adj2 (zs_neg x) = zs_neg (zs_adj2 x). Proof. coeffs. Qed.
Lemma zs_adj2_one : zs_adj2 zs_one = zs_one. Proof. reflexivity. Qed.
Lemma zs_abs_mul x y : zs_abs (zs_mul x y) = zs_abs x * zs_abs y. Proof. coeffs. Qed.
Lemma zs_abs_adj2 x : zs_abs (zs_adj2 x) = zs_abs x. Proof. coeffs. Qed.
Lemma zs_abs_one : zs_abs zs_one = 1. Proof. reflexivity. Qed.
Lemma zs_mul_adj2 x : zs_mul x (zs_adj2 x) = ZS (zs_abs x) 0. Proof. coeffs. Qed.
Lemma zs_pow_pos x p : 0 < p -> zs_pow x p = Ok (zs_pow_nat x (Z.to_nat (p - 1))).
Proof. intros H. unfold zs_pow. replace (p =? 0) with false by lia. replace (p <? 0) with false by lia. reflexivity. Qed.
Definition zs_pow_add := pow_add zs_mul zs_mul_assoc zs_pow zs_pow_pos.
Lemma zs_pow_0 x : zs_pow x 0 = Ok zs_one. Proof. reflexivity. Qed.
Lemma zs_pow_1 x : zs_pow x 1 = Ok x. Proof. reflexivity. Qed.
Lemma zs_pow_succ x p r : 0 < p -> zs_pow x p = Ok r -> zs_pow x (p + 1) = Ok (zs_mul r x).
Proof. intros Hp H. apply (zs_pow_add x p 1 r x Hp); [lia | exact H | reflexivity]. Qed.
Lemma zs_pow_neg x p : p < 0 -> zs_pow x p = Err.
Proof. intros H. unfold zs_pow. replace (p =? 0) with false by lia. replace (p <? 0) with true by lia. reflexivity. Qed.
Lemma zs_abs_pow_nat x n : zs_abs (zs_pow_nat x n) = zs_abs x ^ Z.of_nat (S n).
Proof.
  induction n as [|n IH]; [cbn [zs_pow_nat]; change (Z.of_nat 1) with 1; ring|].
  cbn [zs_pow_nat]. rewrite zs_abs_mul, IH.
  replace (Z.of_nat (S (S n))) with (Z.of_nat (S n) + 1) by lia.
  rewrite Z.pow_add_r by lia. ring.
Qed.

Lemma zo_add_comm x y : zo_add x y = zo_add y x. Proof. coeffs. Qed.
Lemma zo_add_assoc x y z : zo_add (zo_add x y) z = zo_add x (zo_add y z). Proof. coeffs. Qed.
Lemma zo_add_0_l x : zo_add zo_zero x = x. Proof. coeffs. Qed.
Lemma zo_add_neg x : zo_add x (zo_neg x) = zo_zero. Proof. coeffs. Qed.
Lemma zo_mul_comm x y : zo_mul x y = zo_mul y x. Proof. coeffs. Qed.
Lemma zo_mul_assoc x y z : zo_mul (zo_mul x y) z = zo_mul x (zo_mul y z). Proof. coeffs. Qed.
Lemma zo_mul_1_l x : zo_mul zo_one x = x. Proof. coeffs. Qed.
Lemma zo_distr_r x y z : zo_mul (zo_add x y) z = zo_add (zo_mul x z) (zo_mul y z). Proof. coeffs. Qed.

Definition zo_ring_theory : ring_theory zo_zero zo_one zo_add zo_mul zo_sub zo_neg eq :=
  mk_rt _ _ _ _ _ _ _ zo_add_0_l zo_add_comm (fun x y z => eq_sym (zo_add_assoc x y z))
        zo_mul_1_l zo_mul_comm (fun x y z => eq_sym (zo_mul_assoc x y z)) zo_distr_r (fun x y => eq_refl) zo_add_neg.
Add Ring zo_ring_structure : zo_ring_theory.

Lemma zo_add_0_r x : zo_add x zo_zero = x. Proof. ring. Qed.
Lemma zo_mul_1_r x : zo_mul x zo_one = x. Proof. ring. Qed.
Lemma zo_mul_0_r x : zo_mul x zo_zero = zo_zero. Proof. ring. Qed.
Lemma zo_distr_l x y z : zo_mul x (zo_add y z) = zo_add (zo_mul x y) (zo_mul x z). Proof. ring. Qed.
Lemma zo_sub_diag x : zo_sub x x = zo_zero. Proof. ring. Qed.
Lemma zo_neg_mul x y : zo_mul (zo_neg x) y = zo_neg (zo_mul x y). Proof. ring. Qed.
Lemma zo_neg_neg x : zo_neg (zo_neg x) = x. Proof. ring. Qed.
Lemma zo_mulz_embed x n : zo_mulz x n = zo_mul x (ZO 0 0 0 n). Proof. coeffs. Qed.
Lemma zo_addz_embed x n : zo_addz x n = zo_add x (ZO 0 0 0 n). Proof. coeffs. Qed.
Lemma zo_rsubz_embed x n : zo_rsubz n x = zo_sub (ZO 0 0 0 n) x. Proof. coeffs. Qed.
(* omega is a primitive 8th root of unity: omega^4 = -1 *)
Lemma zo_omega4 : zo_pow (ZO 0 0 1 0) 4 = Ok (zo_neg zo_one). Proof. reflexivity. Qed.
(* sqrt2 = omega - omega^3 squares to 2 *)
Lemma zo_sqrt2_sq : zo_mul (ZO (-1) 0 1 0) (ZO (-1) 0 1 0) = ZO 0 0 0 2. Proof. reflexivity. Qed.
Lemma zo_conj_invol x : zo_conj (zo_conj x) = x. Proof. coeffs. Qed.
Lemma zo_conj_add x y : zo_conj (zo_add x y) = zo_add (zo_conj x) (zo_conj y). Proof. coeffs. Qed.
Lemma zo_conj_mul x y : zo_conj (zo_mul x y) = zo_mul (zo_conj x) (zo_conj y). Proof. coeffs. Qed.
Lemma zo_conj_neg x : zo_conj (zo_neg x) = zo_neg (zo_conj x). Proof. coeffs. Qed.
Lemma zo_conj_one : zo_conj zo_one = zo_one. Proof. reflexivity. Qed.
Lemma zo_adj2_invol x : zo_adj2 (zo_adj2 x) = x. Proof. coeffs. Qed.
Lemma zo_adj2_add x y : zo_adj2 (zo_add x y) = zo_add (zo_adj2 x) (zo_adj2 y). Proof. coeffs. Qed.
Lemma zo_adj2_mul x y : zo_adj2 (zo_mul x y) = zo_mul (zo_adj2 x) (zo_adj2 y). Proof. coeffs. Qed.
Lemma zo_adj2_neg x : zo_adj2 (zo_neg x) = zo_neg (zo_adj2 x). Proof. coeffs. Qed.
Lemma zo_adj2_one : zo_adj2 zo_one = zo_one. Proof. reflexivity. Qed.
Lemma zo_conj_adj2 x : zo_conj (zo_adj2 x) = zo_adj2 (zo_conj x). Proof. coeffs. Qed.
Lemma zo_abs_conj x : zo_abs (zo_conj x) = zo_abs x. Proof. coeffs. Qed.
Lemma zo_abs_one : zo_abs zo_one = 1. Proof. reflexivity. Qed.
Lemma zo_norm_mul x y : zo_norm (zo_mul x y) = zo_mul (zo_norm x) (zo_norm y).
Proof. unfold zo_norm. rewrite zo_conj_mul. ring. Qed.
Lemma zo_norm_real x : zo_conj (zo_norm x) = zo_norm x.
Proof. unfold zo_norm. rewrite zo_conj_mul, zo_conj_invol. ring. Qed.
Lemma zo_pow_pos x p : 0 < p -> zo_pow x p = Ok (zo_pow_nat x (Z.to_nat (p - 1))).
Proof. intros H. unfold zo_pow. replace (p =? 0) with false by lia. replace (p <? 0) with false by lia. reflexivity. Qed.
Definition zo_pow_add := pow_add zo_mul zo_mul_assoc zo_pow zo_pow_pos.
Lemma zo_pow_0 x : zo_pow x 0 = Ok zo_one. Proof. reflexivity. Qed.
Lemma zo_pow_1 x : zo_pow x 1 = Ok x. Proof. reflexivity. Qed.
Lemma zo_pow_neg x p : p < 0 -> zo_pow x p = Err.
Proof. intros H. unfold zo_pow. replace (p <? 0) with true by lia. reflexivity. Qed.

Lemma to_omega_add x y : zs_to_omega (zs_add x y) = zo_add (zs_to_omega x) (zs_to_omega y). Proof. coeffs. Qed.
Lemma to_omega_mul x y : zs_to_omega (zs_mul x y) = zo_mul (zs_to_omega x) (zs_to_omega y). Proof. coeffs. Qed.
Lemma to_omega_neg x : zs_to_omega (zs_neg x) = zo_neg (zs_to_omega x). Proof. coeffs. Qed.
Lemma to_omega_one : zs_to_omega zs_one = zo_one. Proof. reflexivity. Qed.
Lemma to_omega_zero : zs_to_omega zs_zero = zo_zero. Proof. reflexivity. Qed.
Lemma to_omega_conj x : zo_conj (zs_to_omega x) = zs_to_omega x. Proof. coeffs. Qed.
Lemma to_omega_adj2 x : zo_adj2 (zs_to_omega x) = zs_to_omega (zs_adj2 x). Proof. coeffs. Qed.
Lemma to_omega_abs x : zo_abs (zs_to_omega x) = zs_abs x * zs_abs x. Proof. coeffs. Qed.
Lemma to_sqrt_two_to_omega x : zo_to_sqrt_two (zs_to_omega x) = Ok x.
Proof.
  destruct x as [a b]. unfold zo_to_sqrt_two, zs_to_omega; cbn [oa ob oc od sa sb].
  replace ((b + - b =? 0) && (0 =? 0)) with true by lia. do 2 f_equal. Z.div_mod_to_equations; lia.
Qed.
Lemma to_omega_to_sqrt_two z s : zo_to_sqrt_two z = Ok s -> zs_to_omega s = z.
Proof.
  destruct z as [a b c d]. unfold zo_to_sqrt_two, zs_to_omega; cbn [oa ob oc od].
  destruct ((c + a =? 0) && (b =? 0)) eqn:E; [|discriminate]. intros [= <-]. cbn [sa sb].
  f_equal; Z.div_mod_to_equations; lia.
Qed.
Lemma to_omega_inj x y : zs_to_omega x = zs_to_omega y -> x = y.
Proof. destruct x as [a b]; destruct y as [a' b']. unfold zs_to_omega; cbn [sa sb]. intros [= ? ? ?]. subst. reflexivity. Qed.
(* abs x = N(x * conj x) taken in Z[sqrt2] *)
Lemma zo_abs_via_norm x : exists s, zo_to_sqrt_two (zo_norm x) = Ok s /\ zs_abs s = zo_abs x /\ zs_to_omega s = zo_norm x.
Proof.
  destruct x as [a b c d]. exists (ZS (a * a + b * b + c * c + d * d) (a * b + b * c + c * d - d * a)).
  assert (E : zo_norm (ZO a b c d) = zs_to_omega (ZS (a * a + b * b + c * c + d * d) (a * b + b * c + c * d - d * a)))
    by coeffs.
  rewrite E. split; [apply to_sqrt_two_to_omega|]. split; [coeffs|reflexivity].
Qed.
(* hence abs is multiplicative because both norms are *)
Lemma zo_abs_mul x y : zo_abs (zo_mul x y) = zo_abs x * zo_abs y.
Proof.
  destruct (zo_abs_via_norm x) as [sx [_ [<- Nx]]]. destruct (zo_abs_via_norm y) as [sy [_ [<- Ny]]].
  destruct (zo_abs_via_norm (zo_mul x y)) as [s [_ [<- N]]]. rewrite <- zs_abs_mul. f_equal.
  apply to_omega_inj. rewrite to_omega_mul, Nx, Ny, N. apply zo_norm_mul.
Qed.
(* zo_to_sqrt_two commutes with every operation that zs_to_omega commutes with *)
Lemma to_sqrt_two_op f g : (forall x y, zs_to_omega (f x y) = g (zs_to_omega x) (zs_to_omega y)) ->
  forall z w s t, zo_to_sqrt_two z = Ok s -> zo_to_sqrt_two w = Ok t -> zo_to_sqrt_two (g z w) = Ok (f s t).
Proof.
  intros Hom z w s t H1 H2. apply to_omega_to_sqrt_two in H1, H2. subst z w.
  rewrite <- Hom. apply to_sqrt_two_to_omega.
Qed.
Definition to_sqrt_two_mul := to_sqrt_two_op zs_mul zo_mul to_omega_mul.
Definition to_sqrt_two_add := to_sqrt_two_op zs_add zo_add to_omega_add.

Lemma zs_eq_iff x y : zs_eq x y = true <-> x = y.
Proof.
  destruct x as [a b]; destruct y as [c d]; unfold zs_eq; cbn [sa sb].
  split; intros H; [f_equal; lia | injection H as -> ->; lia].
Qed.
Lemma zo_eq_iff x y : zo_eq x y = true <-> x = y.
Proof.
  destruct x as [a b c d]; destruct y as [a' b' c' d']; unfold zo_eq; cbn [oa ob oc od].
  split; intros H; [f_equal; lia | injection H as -> -> -> ->; lia].
Qed.

Lemma zs_truediv_z_sound x n q : zs_truediv_z x n = Ok q -> zs_mulz q n = x.
Proof.
  destruct x as [a b]. unfold zs_truediv_z; cbn [sa sb].
  destruct (n =? 0) eqn:En; [discriminate|].
  destruct ((a mod n =? 0) && (b mod n =? 0)) eqn:E; [|discriminate].
  intros [= <-]. unfold zs_mulz; cbn [sa sb]. f_equal; Z.div_mod_to_equations; nia.
Qed.
Lemma zs_mulz_cancel x y n : n <> 0 -> zs_mulz x n = zs_mulz y n -> x = y.
Proof.
  destruct x as [a b]; destruct y as [c d]; unfold zs_mulz; cbn [sa sb]. intros Hn [= H1 H2].
  f_equal; apply (Z.mul_reg_r _ _ n Hn); assumption.
Qed.
(* q * N(y) = x * adj2 y and N(y) = y * adj2 y, so (q * y) * N(y) = x * N(y) *)
Lemma zs_truediv_sound x y q : zs_truediv x y = Ok q -> zs_mul q y = x.
Proof.
  unfold zs_truediv. intros H.
  assert (Hn : zs_abs y <> 0).
  { unfold zs_truediv_z in H. destruct (zs_abs y =? 0) eqn:E; [discriminate|lia]. }
  apply zs_truediv_z_sound in H. apply (zs_mulz_cancel _ _ _ Hn).
  rewrite !zs_mulz_embed, <- zs_mul_adj2 in *.
  transitivity (zs_mul (zs_mul q (zs_mul y (zs_adj2 y))) y); [ring | rewrite H; ring].
Qed.
Lemma zs_sqrt_try_sound self a b k y :
  zs_sqrt_try self a b k = Some y -> (k = Some y -> zs_mul y y = self) -> zs_mul y y = self.
Proof.
  unfold zs_sqrt_try. destruct (zs_eq (zs_mul (ZS a b) (ZS a b)) self) eqn:E1.
  - intros [= <-] _. apply zs_eq_iff; exact E1.
  - destruct (zs_eq (zs_mul (zs_adj2 (ZS a b)) (zs_adj2 (ZS a b))) self) eqn:E2.
    + intros [= <-] _. apply zs_eq_iff; exact E2.
    + intros H K. apply K; exact H.
Qed.
Lemma zs_sqrt_sound x y : zs_sqrt x = Ok (Some y) -> zs_mul y y = x.
Proof.
  unfold zs_sqrt.
  destruct (negb (Z.sqrt (Z.max (zs_abs x) 0) * Z.sqrt (Z.max (zs_abs x) 0) =? zs_abs x)); [discriminate|].
  destruct (isqrt _) as [x1|]; cbn [bind]; [|discriminate].
  destruct (isqrt _) as [x2|]; cbn [bind]; [|discriminate].
  destruct (isqrt _) as [y1|]; cbn [bind]; [|discriminate].
  destruct (isqrt _) as [y2|]; cbn [bind]; [|discriminate].
  intros [= H]. apply zs_sqrt_try_sound in H; [exact H|].
  intros H2. apply zs_sqrt_try_sound in H2; [exact H2|discriminate].
Qed.
(* the classes' % : x = q*y + r or x = q*y - r for some q (sign quirk of ZSqrtTwo.__mod__) *)
Lemma zs_mod_congruent x y r : zs_mod x y = Ok r ->
  exists q, x = zs_add (zs_mul q y) r \/ x = zs_sub (zs_mul q y) r.
Proof.
  unfold zs_mod.
  destruct (zs_eq x zs_zero) eqn:E0.
  { cbn [orb]. intros [= <-]. apply zs_eq_iff in E0. subst x. exists zs_zero. left. ring. }
  destruct (zs_eq x y) eqn:E1.
  { cbn [orb]. intros [= <-]. apply zs_eq_iff in E1. subst x. exists zs_one. left. ring. }
  cbn [orb]. destruct (zs_abs y =? 0); [discriminate|].
  match goal with |- context [negb (zs_eq ?dv zs_zero)] => set (DV := dv) end.
  destruct (negb (zs_eq DV zs_zero)).
  { intros [= <-]. exists DV. left. ring. }
  match goal with |- context [zs_mul (ZS ?u ?v) y] => set (Q := ZS u v) end.
  destruct (negb _ || negb _); intros [= <-]; exists Q; [right|left]; coeffs.
Qed.
Lemma zo_mod_congruent x y r : zo_mod x y = Ok r ->
  exists q, x = zo_add (zo_mul q y) r \/ x = zo_sub (zo_mul q y) r.
Proof.
  unfold zo_mod. destruct (zo_abs y =? 0); [discriminate|].
  match goal with |- context [zo_mul y ?qq] => set (Q := qq) end.
  destruct (zo_abs x >? zo_abs (zo_mul y Q)); intros [= <-]; exists Q; [left|right]; ring.
Qed.

Definition zo_sqrt2 : zo := ZO (-1) 0 1 0.                (* sqrt2 = omega - omega^3 *)
Fixpoint sq2pow (j : nat) : zo := match j with O => zo_one | S k => zo_mul zo_sqrt2 (sq2pow k) end.

Lemma zo_div_sqrt2_exact s : zo_sqrt2able s = true -> zo_mul zo_sqrt2 (zo_div_sqrt2 s) = s.
Proof.
  destruct s as [a b c d]. unfold zo_sqrt2able, zo_div_sqrt2, zo_sqrt2, zo_mul; cbn [oa ob oc od].
  intros H. f_equal; Z.div_mod_to_equations; lia.
Qed.
Lemma zo_half_exact s : zo_even s = true -> zo_mul (ZO 0 0 0 2) (zo_half s) = s.
Proof.
  destruct s as [a b c d]. unfold zo_even, zo_half, zo_mul; cbn [oa ob oc od].
  intros H. f_equal; Z.div_mod_to_equations; lia.
Qed.
Lemma sq2pow_add i j : sq2pow (i + j) = zo_mul (sq2pow i) (sq2pow j).
Proof. induction i as [|i IH]; cbn [Nat.add sq2pow]; [|rewrite IH]; ring. Qed.

Lemma zo_normalize_loop_sound fuel : forall r ix r' ix',
  zo_normalize_loop fuel r ix = Ok (r', ix') ->
  exists j, ix' = ix + Z.of_nat j /\ r = zo_mul (sq2pow j) r' /\ zo_sqrt2able r' = false.
Proof.
  induction fuel as [|f IH]; intros r ix r' ix'; cbn [zo_normalize_loop]; [discriminate|].
  destruct (zo_sqrt2able r) eqn:E.
  - intros H. apply IH in H. destruct H as [j [H1 [H2 H3]]]. exists (S j). split; [lia|]. split; [|exact H3].
    rewrite <- (zo_div_sqrt2_exact r E), H2. cbn [sq2pow]. ring.
  - intros [= <- <-]. exists O. split; [lia|]. split; [|exact E]. cbn [sq2pow]. ring.
Qed.
Lemma zo_normalize_sound x r ix : zo_normalize x = Ok (r, ix) ->
  exists j, ix = Z.of_nat j /\ x = zo_mul (sq2pow j) r /\ zo_sqrt2able r = false.
Proof. apply zo_normalize_loop_sound. Qed.

(* m denotes A / sqrt2^k ; m' is the same matrix with j factors of sqrt2 cancelled *)
Definition dm_scaled (j : nat) (m m' : dm) : Prop :=
  mk m' = mk m - Z.of_nat j /\
  ma m = zo_mul (sq2pow j) (ma m') /\ mb m = zo_mul (sq2pow j) (mb m') /\
  mc m = zo_mul (sq2pow j) (mc m') /\ md m = zo_mul (sq2pow j) (md m').
Definition dm_is_zero (m : dm) : Prop := ma m = zo_zero /\ mb m = zo_zero /\ mc m = zo_zero /\ md m = zo_zero.

Lemma dm_all_true f m : dm_all f m = true ->
  f (ma m) = true /\ f (mb m) = true /\ f (mc m) = true /\ f (md m) = true.
Proof. unfold dm_all. rewrite !andb_true_iff. tauto. Qed.
Lemma dm_scaled_refl m : dm_scaled O m m.
Proof. unfold dm_scaled; cbn [sq2pow]. rewrite !zo_mul_1_l. repeat split; lia. Qed.
Lemma dm_scaled_trans i j m1 m2 m3 : dm_scaled i m1 m2 -> dm_scaled j m2 m3 -> dm_scaled (i + j) m1 m3.
Proof.
  intros [Hk [Ha [Hb [Hc Hd]]]] [Hk' [Ha' [Hb' [Hc' Hd']]]]. unfold dm_scaled.
  rewrite Ha, Hb, Hc, Hd, Ha', Hb', Hc', Hd', sq2pow_add. repeat split; (lia || ring).
Qed.
(* one round of a normalisation loop: every entry passes `test`, and f divides such an entry by sqrt2^c *)
Lemma dm_scaled_map c f test m : dm_all test m = true ->
  (forall s, test s = true -> zo_mul (sq2pow c) (f s) = s) -> dm_scaled c m (dm_map f m (mk m - Z.of_nat c)).
Proof.
  intros E Hf. apply dm_all_true in E. destruct E as [E1 [E2 [E3 E4]]].
  unfold dm_scaled; cbn [dm_map ma mb mc md mk]. rewrite !Hf by assumption. repeat split.
Qed.
Lemma dm_norm_two_sound fuel : forall m m', dm_norm_two fuel m = Ok m' -> exists j, dm_scaled j m m'.
Proof.
  induction fuel as [|f IH]; intros m m'; cbn [dm_norm_two]; [discriminate|].
  destruct (dm_all zo_even m) eqn:E; [|intros [= <-]; exists O; apply dm_scaled_refl].
  intros H. apply IH in H. destruct H as [j Hj]. exists (2 + j)%nat.
  exact (dm_scaled_trans _ _ _ _ _ (dm_scaled_map 2 zo_half zo_even m E zo_half_exact) Hj).
Qed.
Lemma dm_norm_sqrt_sound fuel : forall m m', dm_norm_sqrt fuel m = Ok m' -> exists j, dm_scaled j m m'.
Proof.
  induction fuel as [|f IH]; intros m m'; cbn [dm_norm_sqrt]; [discriminate|].
  destruct ((0 <? mk m) && dm_all zo_sqrt2able m) eqn:E; [|intros [= <-]; exists O; apply dm_scaled_refl].
  apply andb_true_iff in E. destruct E as [_ E].
  intros H. apply IH in H. destruct H as [j Hj]. exists (1 + j)%nat.
  exact (dm_scaled_trans _ _ _ _ _ (dm_scaled_map 1 zo_div_sqrt2 zo_sqrt2able m E zo_div_sqrt2_exact) Hj).
Qed.
Lemma dm_normalize_sound m m' : dm_normalize m = Ok m' ->
  (dm_is_zero m /\ dm_is_zero m' /\ mk m' = 0) \/ exists j, dm_scaled j m m'.
Proof.
  unfold dm_normalize. destruct (dm_all (fun s => zo_eq zo_zero s) m) eqn:E.
  - intros [= <-]. left. apply dm_all_true in E. destruct E as [E1 [E2 [E3 E4]]].
    apply zo_eq_iff in E1, E2, E3, E4.
    unfold dm_is_zero; cbn [ma mb mc md mk]. repeat split; congruence.
  - destruct (dm_norm_two _ m) as [m1|] eqn:E1; cbn [bind]; [|discriminate].
    intros E2. right. apply dm_norm_two_sound in E1. apply dm_norm_sqrt_sound in E2.
    destruct E1 as [i Hi]. destruct E2 as [j Hj]. exists (i + j)%nat. eapply dm_scaled_trans; eassumption.
Qed.

(* entrywise, each law is an identity of the ring Z[omega] *)
Ltac dm_entrywise := unfold dm_matmul_raw; cbn [ma mb mc md mk]; f_equal; ring.
Lemma dm_matmul_raw_assoc x y z :
  dm_matmul_raw (dm_matmul_raw x y) z = dm_matmul_raw x (dm_matmul_raw y z).
Proof. dm_entrywise. Qed.
Definition dm_id : dm := DM zo_one zo_zero zo_zero zo_one 0.
Lemma dm_matmul_raw_id_l x : dm_matmul_raw dm_id x = x.
Proof. destruct x. unfold dm_id. dm_entrywise. Qed.
Lemma dm_matmul_raw_id_r x : dm_matmul_raw x dm_id = x.
Proof. destruct x. unfold dm_id. dm_entrywise. Qed.
Lemma dm_matmul_raw_conj x y :
  dm_map zo_conj (dm_matmul_raw x y) (mk x + mk y) = dm_matmul_raw (dm_map zo_conj x (mk x)) (dm_map zo_conj y (mk y)).
Proof. unfold dm_map, dm_matmul_raw; cbn [ma mb mc md mk]. rewrite !zo_conj_add, !zo_conj_mul. reflexivity. Qed.
(* the entrywise sum, which is what dm_add_raw computes (up to a factor 2^0) when both operands have the same
   denominator exponent *)
Definition dm_add_same (x y : dm) : dm :=
  DM (zo_add (ma x) (ma y)) (zo_add (mb x) (mb y)) (zo_add (mc x) (mc y)) (zo_add (md x) (md y)) (mk x).
Lemma dm_matmul_raw_distr_l x y z : mk y = mk z ->
  dm_matmul_raw x (dm_add_same y z) = dm_add_same (dm_matmul_raw x y) (dm_matmul_raw x z).
Proof. intros _. unfold dm_add_same. dm_entrywise. Qed.

Lemma so3_matmul_raw_assoc :
  forall u0 u1 u2 u3 u4 u5 u6 u7 u8 v0 v1 v2 v3 v4 v5 v6 v7 v8 w0 w1 w2 w3 w4 w5 w6 w7 w8,
  so3_matmul_raw (so3_matmul_raw [u0;u1;u2;u3;u4;u5;u6;u7;u8] [v0;v1;v2;v3;v4;v5;v6;v7;v8]) [w0;w1;w2;w3;w4;w5;w6;w7;w8]
  = so3_matmul_raw [u0;u1;u2;u3;u4;u5;u6;u7;u8] (so3_matmul_raw [v0;v1;v2;v3;v4;v5;v6;v7;v8] [w0;w1;w2;w3;w4;w5;w6;w7;w8]).
Proof. intros. cbn [so3_matmul_raw]. repeat (apply f_equal2; [ring|]). reflexivity. Qed.

Lemma zo_mul_swap4 a b c d : zo_mul (zo_mul a b) (zo_mul c d) = zo_mul (zo_mul a c) (zo_mul b d).
Proof. ring. Qed.
Lemma dioph_tail_sound scale xi t : dioph_tail scale xi = Ok (Some t) ->
  zo_mul (zo_conj t) t = zs_to_omega xi.
Proof.
  unfold dioph_tail.
  destruct (zo_to_sqrt_two (zo_mul (zo_conj scale) scale)) as [sv|] eqn:Hs; cbn [bind]; [|discriminate].
  destruct (zs_abs sv =? 0); [discriminate|].
  destruct (negb _ || negb _); [discriminate|].
  destruct (zs_truediv xi sv) as [t2|] eqn:Hd; cbn [bind]; [|discriminate].
  destruct (negb _); [discriminate|].
  destruct (zs_sqrt t2) as [[u|]|] eqn:Hq; cbn [bind]; try discriminate.
  intros [= <-].
  apply to_omega_to_sqrt_two in Hs. apply zs_truediv_sound in Hd. apply zs_sqrt_sound in Hq.
  rewrite zo_conj_mul, to_omega_conj, zo_mul_swap4, <- Hs, <- !to_omega_mul.
  f_equal. rewrite Hq, zs_mul_comm. exact Hd.
Qed.
Lemma solve_dioph_sound xi ok ts t : solve_dioph xi ok ts = Ok (Some t) ->
  zo_mul (zo_conj t) t = zs_to_omega xi.
Proof.
  unfold solve_dioph. destruct ((sa xi =? 0) && (sb xi =? 0)) eqn:E.
  - intros [= <-]. destruct xi as [a b]; cbn [sa sb] in E.
    assert (a = 0) by lia. assert (b = 0) by lia. subst. reflexivity.
  - destruct (zs_abs xi <? 2); [discriminate|]. destruct (negb ok); [discriminate|]. apply dioph_tail_sound.
Qed.
Lemma is_solution_spec xi t : is_solution xi t = true <-> zo_mul (zo_conj t) t = zs_to_omega xi.
Proof. unfold is_solution. apply zo_eq_iff. Qed.

Lemma no_divisor_sound fuel : forall d n, 2 <= d ->
  (forall k, 2 <= k < d -> ~ (k | n)) -> Z.of_nat fuel + d >= Z.sqrt n + 2 -> 0 <= n ->
  no_divisor fuel d n = true -> forall k, 2 <= k -> k * k <= n -> ~ (k | n).
Proof.
  induction fuel as [|f IH]; intros d n Hd Hlow Hf Hn; cbn [no_divisor].
  - intros _ k Hk Hkk. apply Hlow. assert (k <= Z.sqrt n) by (apply Z.sqrt_le_square; lia). lia.
  - destruct (n <? d * d) eqn:E1.
    + intros _ k Hk Hkk. apply Hlow. nia.
    + destruct (n mod d =? 0) eqn:E2; [discriminate|].
      intros H.
      assert (Hlow' : forall k, 2 <= k < d + 1 -> ~ (k | n)).
      { intros k Hk. destruct (Z.eq_dec k d) as [->|Hne]; [|apply Hlow; lia].
        intros Hdiv. apply Z.mod_divide in Hdiv; lia. }
      exact (IH (d + 1) n ltac:(lia) Hlow' ltac:(lia) Hn H).
Qed.
Lemma no_divisor_complete fuel : forall d n, 2 <= d ->
  no_divisor fuel d n = false -> exists k, d <= k /\ k * k <= n /\ (k | n).
Proof.
  induction fuel as [|f IH]; intros d n Hd; cbn [no_divisor]; [discriminate|].
  destruct (n <? d * d) eqn:E1; [discriminate|].
  destruct (n mod d =? 0) eqn:E2.
  - intros _. exists d. repeat split; [lia|lia|]. apply Z.mod_divide; lia.
  - intros H. apply IH in H; [|lia]. destruct H as [k [H1 [H2 H3]]]. exists k. repeat split; [lia|lia|exact H3].
Qed.
Lemma primeb_correct n : primeb n = true <-> prime n.
Proof.
  rewrite <- prime_alt. unfold primeb, prime'. split.
  - intros H. apply andb_true_iff in H. destruct H as [H1 H2]. apply Z.leb_le in H1.
    split; [lia|]. intros m Hm [c Hc].
    assert (A := no_divisor_sound (Z.to_nat (Z.sqrt n)) 2 n ltac:(lia) ltac:(intros; lia)).
    assert (Hs : 0 <= Z.sqrt n) by apply Z.sqrt_nonneg.
    specialize (A ltac:(lia) ltac:(lia) H2).
    destruct (Z_le_gt_dec (m * m) n) as [Hle|Hgt].
    + apply (A m); [lia|exact Hle|exists c; exact Hc].
    + assert (2 <= c) by nia. apply (A c); [lia|nia|exists m; lia].
  - intros [H1 H2]. apply andb_true_iff. split; [apply Z.leb_le; lia|].
    destruct (no_divisor (Z.to_nat (Z.sqrt n)) 2 n) eqn:E; [reflexivity|].
    apply no_divisor_complete in E; [|lia]. destruct E as [k [Hk1 [Hk2 Hk3]]].
    exfalso. apply (H2 k); [nia|exact Hk3].
Qed.

Definition lprod (l : list Z) : Z := fold_right Z.mul 1 l.
Lemma lprod_perm l l' : Permutation l l' -> lprod l = lprod l'.
Proof. unfold lprod. induction 1; cbn [fold_right]; [reflexivity | congruence | ring | congruence]. Qed.
Lemma lprod_map_mul a l : lprod (map (Z.mul a) l) = a ^ Z.of_nat (length l) * lprod l.
Proof.
  induction l as [|x l IH]; [reflexivity|].
  unfold lprod in *. cbn [map length fold_right]. rewrite Nat2Z.inj_succ, Z.pow_succ_r, IH by lia. ring.
Qed.
Lemma lprod_map_mod p l : lprod (map (fun x => x mod p) l) mod p = lprod l mod p.
Proof.
  induction l as [|x l IH]; [reflexivity|].
  unfold lprod in *. cbn [map fold_right]. rewrite Zmult_mod, IH, Zmod_mod, <- Zmult_mod. reflexivity.
Qed.
Lemma prime_not_divide_lprod p l : prime p -> (forall x, In x l -> ~ (p | x)) -> ~ (p | lprod l).
Proof.
  intros Hp. unfold lprod. induction l as [|x l IH]; cbn [fold_right]; intros H D.
  - apply Z.divide_1_r in D. assert (Hp2 := prime_ge_2 p Hp). lia.
  - apply prime_mult in D; [|exact Hp]. destruct D as [D|D]; [exact (H x (or_introl eq_refl) D)|].
    apply IH; [|exact D]. intros y Hy. apply H. right; exact Hy.
Qed.

Definition residues (p : Z) : list Z := map Z.of_nat (seq 1 (Z.to_nat (p - 1))).
Lemma in_residues p x : In x (residues p) <-> 1 <= x < p.
Proof.
  unfold residues. rewrite in_map_iff. split.
  - intros [k [<- Hk]]. apply in_seq in Hk. lia.
  - intros H. exists (Z.to_nat x). split; [lia|]. apply in_seq. lia.
Qed.
Lemma NoDup_residues p : NoDup (residues p).
Proof. apply NoDup_map_inj; [intros x y _ _; apply Nat2Z.inj | apply seq_NoDup]. Qed.

Lemma fermat p a : prime p -> ~ (p | a) -> a ^ (p - 1) mod p = 1.
Proof.
  intros Hp Ha. assert (Hp2 := prime_ge_2 p Hp).
  set (f := fun x => (a * x) mod p).
  assert (Hres : forall x, 1 <= x < p -> ~ (p | x)).
  { intros x Hx D. apply Z.divide_pos_le in D; lia. }
  assert (Hf : forall x, 1 <= x < p -> 1 <= f x < p).
  { intros x Hx. assert (f x <> 0).
    { unfold f. intros E. apply Z.mod_divide in E; [|lia]. apply prime_mult in E; [|exact Hp].
      destruct E as [E|E]; [exact (Ha E) | exact (Hres x Hx E)]. }
    assert (0 <= f x < p) by (apply Z.mod_pos_bound; lia). lia. }
  assert (Hinj : forall x y, 1 <= x < p -> 1 <= y < p -> f x = f y -> x = y).
  { intros x y Hx Hy E. unfold f in E.
    assert (D : (p | a * (x - y))).
    { apply Z.mod_divide; [lia|]. rewrite Z.mul_sub_distr_l, Zminus_mod, E, Z.sub_diag. reflexivity. }
    apply prime_mult in D; [|exact Hp]. destruct D as [D|[c Hc]]; [contradiction|].
    assert (c = 0) by nia. lia. }
  (* f permutes 1 .. p-1, so the product F of these numbers satisfies F = a^(p-1) * F mod p *)
  assert (P : Permutation (map f (residues p)) (residues p)).
  { apply NoDup_Permutation_bis.
    - apply NoDup_map_inj; [|apply NoDup_residues].
      intros x y Hx Hy; apply Hinj; apply in_residues; assumption.
    - rewrite map_length. apply le_n.
    - intros y Hy. apply in_map_iff in Hy. destruct Hy as [x [<- Hx]]. apply in_residues, Hf, in_residues, Hx. }
  apply lprod_perm in P. set (F := lprod (residues p)) in *.
  assert (E : F mod p = (a ^ (p - 1) * F) mod p).
  { rewrite <- P at 1. unfold f. rewrite <- (map_map (Z.mul a) (fun x => x mod p)), lprod_map_mod, lprod_map_mul.
    unfold residues at 1. rewrite map_length, seq_length, Z2Nat.id by lia. reflexivity. }
  assert (D : (p | (a ^ (p - 1) - 1) * F)).
  { apply Z.mod_divide; [lia|]. rewrite Z.mul_sub_distr_r, Z.mul_1_l, Zminus_mod, <- E, Z.sub_diag. reflexivity. }
  apply prime_mult in D; [|exact Hp]. destruct D as [[c Hc]|D].
  - replace (a ^ (p - 1)) with (1 + c * p) by lia. rewrite Z.mod_add, Z.mod_small; lia.
  - exfalso. revert D. apply prime_not_divide_lprod; [exact Hp|]. intros x Hx. apply Hres, in_residues, Hx.
Qed.

Lemma prime_sqrt_one p x : prime p -> 0 <= x < p -> (x * x) mod p = 1 -> x = 1 \/ x = p - 1.
Proof.
  intros Hp Hx E. assert (Hp2 := prime_ge_2 p Hp).
  assert (D : (p | (x - 1) * (x + 1))).
  { apply Z.mod_divide; [lia|]. replace ((x - 1) * (x + 1)) with (x * x - 1) by ring.
    rewrite Zminus_mod, E, Z.mod_1_l, Z.sub_diag by lia. reflexivity. }
  apply prime_mult in D; [|exact Hp]. destruct D as [[c Hc]|[c Hc]]; [left; assert (c = 0) by nia | right; assert (c = 1) by nia]; lia.
Qed.

Lemma split_two_spec fuel : forall d s, 0 < d < 2 ^ Z.of_nat fuel ->
  exists d' k, split_two fuel d s = Ok (d', s + Z.of_nat k) /\ d = d' * 2 ^ Z.of_nat k /\ 0 < d'.
Proof.
  induction fuel as [|f IH]; intros d s H; [cbn in H; lia|].
  cbn [split_two]. destruct (Z.even d) eqn:E.
  - apply Z.even_spec in E. destruct E as [h ->]. rewrite (Z.mul_comm 2 h), Z.div_mul by lia.
    rewrite Nat2Z.inj_succ, Z.pow_succ_r in H by lia.
    destruct (IH h (s + 1)) as [d' [k [E1 [E2 E3]]]]; [lia|]. exists d', (S k).
    rewrite Nat2Z.inj_succ, Z.pow_succ_r by lia. split; [rewrite E1; f_equal; f_equal; lia|]. split; [lia|exact E3].
  - exists d, O. rewrite Z.add_0_r, Z.mul_1_r. split; [reflexivity|]. split; [reflexivity|lia].
Qed.
Lemma fuel_of_enough n : 2 <= n -> n - 1 < 2 ^ Z.of_nat (fuel_of n).
Proof.
  intros H. unfold fuel_of. assert (L := Z.log2_nonneg (Z.abs n + 1)). rewrite Z2Nat.id by lia.
  destruct (Z.log2_spec (Z.abs n + 1)) as [_ U]; [lia|].
  assert (2 ^ Z.succ (Z.log2 (Z.abs n + 1)) <= 2 ^ (2 * Z.log2 (Z.abs n + 1) + 8)) by (apply Z.pow_le_mono_r; lia).
  lia.
Qed.

Lemma mr_sq_prime n : prime n -> forall k x, 0 <= x < n -> x <> 1 -> x <> n - 1 ->
  x ^ 2 ^ Z.of_nat (S k) mod n = 1 -> mr_sq k x n = Some (n - 1).
Proof.
  intros Hn. assert (Hn2 := prime_ge_2 n Hn).
  induction k as [|k IH]; intros x Hx H1 Hm E.
  - exfalso. change (2 ^ Z.of_nat 1) with 2 in E. rewrite Z.pow_2_r in E.
    destruct (prime_sqrt_one n x Hn Hx E); contradiction.
  - cbn [mr_sq].
    assert (E' : ((x * x) mod n) ^ 2 ^ Z.of_nat (S k) mod n = 1).
    { rewrite <- Zpower_mod by lia. rewrite <- Z.pow_2_r, <- Z.pow_mul_r, <- Z.pow_succ_r by lia.
      rewrite <- Nat2Z.inj_succ. exact E. }
    assert (Hb : 0 <= (x * x) mod n < n) by (apply Z.mod_pos_bound; lia).
    destruct ((x * x) mod n =? 1) eqn:E1.
    + exfalso. apply Z.eqb_eq in E1. destruct (prime_sqrt_one n x Hn Hx E1); contradiction.
    + destruct ((x * x) mod n =? n - 1) eqn:E2; [apply Z.eqb_eq in E2; rewrite E2; reflexivity|].
      apply IH; [exact Hb | lia | lia | exact E'].
Qed.

Lemma mr_base_prime n d k base : prime n -> 0 < d -> n - 1 = d * 2 ^ Z.of_nat k ->
  mr_base n d (Z.of_nat k) base = true.
Proof.
  intros Hn Hd E. assert (Hn2 := prime_ge_2 n Hn). unfold mr_base.
  assert (Hb : (if base <? n then base else base mod n) < n).
  { destruct (base <? n) eqn:Ebn; [lia|apply Z.mod_pos_bound; lia]. }
  set (b := if base <? n then base else base mod n) in *.
  destruct ((b =? 0) || (b <? 2)) eqn:Eb; [reflexivity|].
  unfold powmod. rewrite Zpow_mod_correct by lia.
  set (x := b ^ d mod n).
  assert (Hx : 0 <= x < n) by (apply Z.mod_pos_bound; lia).
  destruct ((x =? 1) || (x =? n - 1)) eqn:Ex; [reflexivity|].
  assert (F : x ^ 2 ^ Z.of_nat k mod n = 1).
  { unfold x. rewrite <- Zpower_mod by lia. rewrite <- Z.pow_mul_r, <- E by lia.
    apply fermat; [exact Hn|]. intros D. apply Z.divide_pos_le in D; lia. }
  destruct k as [|k].
  - exfalso. change (2 ^ Z.of_nat 0) with 1 in F. rewrite Z.pow_1_r, Z.mod_small in F; lia.
  - replace (Z.to_nat (Z.of_nat (S k) - 1)) with k by lia.
    rewrite (mr_sq_prime n Hn k x); [apply Z.eqb_refl | exact Hx | lia | lia | exact F].
Qed.

(* Miller-Rabin has no false negatives, whatever n and whatever the bases *)
Lemma primality_test_complete n : prime n -> primality_test n = Ok true.
Proof.
  intros Hn. assert (Hn2 := prime_ge_2 n Hn). unfold primality_test.
  assert (n <> 4). { intros ->. assert (D := prime_divisors 4 Hn 2 ltac:(exists 2; reflexivity)). lia. }
  replace ((n <? 2) || (n =? 4)) with false by lia.
  destruct (n <? 4); [reflexivity|].
  destruct (existsb (Z.eqb n) small_ps) eqn:E1; [reflexivity|].
  destruct (existsb (fun p => n mod p =? 0) small_ps) eqn:E2.
  { exfalso. apply existsb_exists in E2. destruct E2 as [p [Hin Hp]].
    assert (1 < p) by (revert Hin; unfold small_ps; cbn [In]; lia).
    apply Z.eqb_eq, Z.mod_divide in Hp; [|lia]. apply (prime_divisors n Hn) in Hp. assert (p = n) by lia. subst p.
    apply not_true_iff_false in E1; apply E1. apply existsb_exists. exists n; split; [exact Hin|apply Z.eqb_refl]. }
  destruct (split_two_spec (fuel_of n) (n - 1) 0) as [d [k [-> [E Hd]]]]; [split; [lia|apply fuel_of_enough; lia]|].
  cbn [bind Z.add]. f_equal. apply forallb_forall. intros base _. apply mr_base_prime; assumption.
Qed.

(* A base that shares a prime factor q with n is a witness against n: q divides b^d mod n and all its
   squares mod n, which therefore are neither 1 nor n - 1. *)
Lemma divide_mod q a n : n <> 0 -> (q | a) -> (q | n) -> (q | a mod n).
Proof. intros Hn Ha Hq. rewrite Z.mod_eq by exact Hn. apply Z.divide_sub_r; [exact Ha|apply Z.divide_mul_l, Hq]. Qed.
Lemma multiple_not_unit q n x : 1 < q -> (q | n) -> (q | x) -> x <> 1 /\ x <> n - 1.
Proof.
  intros Hq Hn Hx.
  assert (N : ~ (q | 1)) by (intros D; apply Z.divide_1_r in D; lia).
  split; intros E; apply N; [rewrite <- E; exact Hx|].
  replace 1 with (n - x) by lia. apply Z.divide_sub_r; assumption.
Qed.
Lemma mr_sq_common_factor q n : 1 < q -> 1 < n -> (q | n) -> forall k x, (q | x) ->
  exists x', mr_sq k x n = Some x' /\ (q | x').
Proof.
  intros Hq Hn Hqn. induction k as [|k IH]; intros x Hx; cbn [mr_sq]; [exists x; split; [reflexivity|exact Hx]|].
  assert (Hx' : (q | (x * x) mod n)) by (apply divide_mod; [lia | apply Z.divide_mul_l, Hx | exact Hqn]).
  destruct (multiple_not_unit q n _ Hq Hqn Hx') as [N1 N2].
  replace ((x * x) mod n =? 1) with false by lia. replace ((x * x) mod n =? n - 1) with false by lia.
  apply IH, Hx'.
Qed.
Lemma mr_base_common_factor q n d s base : 1 < q -> 1 < n -> (q | n) -> (q | base) -> 0 < base -> base mod n <> 0 ->
  0 < d -> mr_base n d s base = false.
Proof.
  intros Hq Hn Hqn Hqb Hb Hbn Hd. unfold mr_base.
  assert (Hb' : (q | if base <? n then base else base mod n) /\ 0 < (if base <? n then base else base mod n)).
  { destruct (base <? n); [split; assumption|]. split; [apply divide_mod; [lia|assumption..]|].
    assert (0 <= base mod n) by (apply Z.mod_pos_bound; lia). lia. }
  set (b := if base <? n then base else base mod n) in *. destruct Hb' as [Hqb' Hb'].
  assert (q <= b) by (apply Z.divide_pos_le; assumption). replace ((b =? 0) || (b <? 2)) with false by lia.
  unfold powmod. rewrite Zpow_mod_correct by lia.
  assert (Hx : (q | b ^ d mod n)).
  { apply divide_mod; [lia| |exact Hqn]. replace d with (Z.succ (d - 1)) by lia.
    rewrite Z.pow_succ_r by lia. apply Z.divide_mul_l, Hqb'. }
  destruct (multiple_not_unit q n _ Hq Hqn Hx) as [N1 N2].
  replace ((b ^ d mod n =? 1) || (b ^ d mod n =? n - 1)) with false by lia.
  destruct (mr_sq_common_factor q n Hq Hn Hqn (Z.to_nat (s - 1)) _ Hx) as [x' [-> Hx']].
  destruct (multiple_not_unit q n _ Hq Hqn Hx'). lia.
Qed.

(* what the test answers on a composite n: a small prime divides it, or else it is enough that one base is a witness *)
Lemma primality_test_rejects n base : 3 < n -> existsb (Z.eqb n) small_ps = false -> In base mr_bases ->
  (existsb (fun p => n mod p =? 0) small_ps = false -> forall d s, 0 < d -> mr_base n d s base = false) ->
  primality_test n = Ok false.
Proof.
  intros Hn E1 Hin W. unfold primality_test. destruct ((n <? 2) || (n =? 4)); [reflexivity|].
  replace (n <? 4) with false by lia. rewrite E1.
  destruct (existsb (fun p => n mod p =? 0) small_ps); [reflexivity|].
  destruct (split_two_spec (fuel_of n) (n - 1) 0) as [d [k [-> [_ Hd]]]]; [split; [lia|apply fuel_of_enough; lia]|].
  cbn [bind]. f_equal. apply not_true_iff_false. intros F.
  rewrite forallb_forall in F. specialize (F base Hin). rewrite W in F by (reflexivity || exact Hd). discriminate F.
Qed.
(* every composite below 113^2 has a prime factor below 113 *)
Definition primes_below_113 : list Z := 2 :: 3 :: small_ps ++ [101; 103; 107; 109].
Lemma prime_factor_below_113 :
  forallb (fun k => existsb (fun p => k mod p =? 0) primes_below_113) (map Z.of_nat (seq 2 111)) = true.
Proof. reflexivity. Qed.
Lemma small_prime_factor n : 2 <= n < 113 * 113 -> primeb n = false ->
  exists p, In p primes_below_113 /\ p * p <= n /\ (p | n).
Proof.
  intros Hn E. unfold primeb in E. replace (2 <=? n) with true in E by lia.
  apply no_divisor_complete in E; [|lia]. destruct E as [k [Hk [Hkk Hkn]]].
  assert (Hin : In k (map Z.of_nat (seq 2 111))).
  { apply in_map_iff. exists (Z.to_nat k). split; [lia|]. apply in_seq. nia. }
  apply (proj1 (forallb_forall _ _) prime_factor_below_113), existsb_exists in Hin.
  destruct Hin as [p [Hp Hpk]]. exists p.
  assert (0 < p) by (revert Hp; unfold primes_below_113, small_ps; cbn [In app]; lia).
  apply Z.eqb_eq, Z.mod_divide in Hpk; [|lia].
  assert (p <= k) by (apply Z.divide_pos_le; [lia|exact Hpk]).
  split; [exact Hp|]. split; [nia|exact (Z.divide_trans _ _ _ Hpk Hkn)].
Qed.

Lemma small_ps_prime : forallb primeb small_ps = true.
Proof. reflexivity. Qed.
Lemma small_ps_divides n p : In p small_ps -> (p | n) -> existsb (fun p => n mod p =? 0) small_ps = true.
Proof.
  intros Hp D. apply existsb_exists. exists p. split; [exact Hp|].
  apply Z.eqb_eq, Z.mod_divide; [revert Hp; unfold small_ps; cbn [In]; lia | exact D].
Qed.

(* composites with a prime factor 2, 3 or in small_ps are rejected whatever their size *)
Lemma primality_test_even n : 2 < n -> (2 | n) -> existsb (Z.eqb n) small_ps = false -> primality_test n = Ok false.
Proof.
  intros Hn D E1. apply (primality_test_rejects n 2); [destruct D; lia | exact E1 | left; reflexivity |]. intros _ d s Hd.
  apply (mr_base_common_factor 2); [lia | lia | exact D | apply Z.divide_refl | lia | rewrite Z.mod_small; lia | exact Hd].
Qed.
Lemma primality_test_small_factor n p : In p small_ps -> (p | n) -> 3 < n -> existsb (Z.eqb n) small_ps = false ->
  primality_test n = Ok false.
Proof.
  intros Hp D Hn E1. apply (primality_test_rejects n 2); [exact Hn | exact E1 | left; reflexivity |]. intros E.
  rewrite (small_ps_divides n p Hp D) in E. discriminate E.
Qed.
(* 9375 = 3 * 5^5, and 5 does not divide n when the test gets as far as the bases *)
Lemma primality_test_multiple_of_3 n : 3 < n -> (3 | n) -> existsb (Z.eqb n) small_ps = false -> primality_test n = Ok false.
Proof.
  intros Hn D E1. apply (primality_test_rejects n 9375); [exact Hn | exact E1 | right; right; left; reflexivity |].
  intros E5 d s Hd.
  apply (mr_base_common_factor 3); [lia | lia | exact D | exists 3125; reflexivity | lia | | exact Hd].
  intros E9. apply Z.mod_divide in E9; [|lia].
  assert (R : rel_prime n 5).
  { apply rel_prime_sym, prime_rel_prime; [apply primeb_correct; reflexivity|]. intros D5.
    rewrite (small_ps_divides n 5) in E5; [discriminate E5 | left; reflexivity | exact D5]. }
  change 9375 with (5 * (5 * (5 * (5 * (5 * 3))))) in E9. do 5 (apply Gauss in E9; [|exact R]).
  apply Z.divide_pos_le in E9; lia.
Qed.

Definition mr_bound : Z := 12000.
(* the composites below the bound without a prime factor below 100: p * m for p = 101, 103, 107, 109 and p <= m <= p + 17 *)
Lemma products_above_100_rejected :
  forallb (fun p => forallb (fun k => match primality_test (p * (p + k)) with Ok false => true | _ => false end)
                            (map Z.of_nat (seq 0 18))) [101; 103; 107; 109] = true.
Proof. vm_compute. reflexivity. Qed.

Lemma primality_test_exact_below n : n < mr_bound -> primality_test n = Ok (primeb n).
Proof.
  unfold mr_bound. intros H. destruct (primeb n) eqn:E; [apply primality_test_complete, primeb_correct, E|].
  destruct (Z_lt_ge_dec n 2) as [Hlt|Hge].
  { unfold primality_test. replace (n <? 2) with true by lia. reflexivity. }
  assert (E1 : existsb (Z.eqb n) small_ps = false).
  { apply not_true_iff_false. intros E1. apply existsb_exists in E1. destruct E1 as [q [Hq Hnq]].
    apply Z.eqb_eq in Hnq. subst q. apply (proj1 (forallb_forall _ _) small_ps_prime) in Hq. congruence. }
  destruct (small_prime_factor n ltac:(lia) E) as [p [Hp [Hpp Hpn]]].
  destruct Hp as [<-|[<-|Hp]]; [ | | apply in_app_or in Hp; destruct Hp as [Hp|Hp]].
  - apply primality_test_even; [lia | exact Hpn | exact E1].
  - apply primality_test_multiple_of_3; [lia | exact Hpn | exact E1].
  - assert (5 <= p) by (revert Hp; unfold small_ps; cbn [In]; lia).
    apply (primality_test_small_factor n p Hp Hpn); [nia | exact E1].
  - assert (101 <= p) by (revert Hp; cbn [In]; lia). destruct Hpn as [m Hm].
    assert (Hk : In (m - p) (map Z.of_nat (seq 0 18))).
    { apply in_map_iff. exists (Z.to_nat (m - p)). split; [nia|]. apply in_seq. nia. }
    apply (proj1 (forallb_forall _ _) (proj1 (forallb_forall _ _) products_above_100_rejected p Hp)) in Hk.
    replace (p * (p + (m - p))) with n in Hk by (rewrite Hm; ring).
    destruct (primality_test n) as [[|]|]; [discriminate Hk | reflexivity | discriminate Hk].
Qed.
Lemma primality_test_prime_below n : n < mr_bound -> (primality_test n = Ok true <-> prime n).
Proof.
  intros H. rewrite primality_test_exact_below by exact H. rewrite <- primeb_correct.
  split; [intros [= ->]; reflexivity | intros ->; reflexivity].
Qed.
