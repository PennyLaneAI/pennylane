(* Proofs about the model of qp.transforms.transpile (Disc/TranspileModel.v).
   The loop keeps a wire map as an association list; on the wires it tracks (`covers`), that map is the composite
   `papp sw` of the transpositions performed (wm_route), so one iteration can be restated without association lists
   (loop_cases), and the three clauses are inductions over the fuel on that form: the output is on edges and
   measurements / wire order are relabelled by papp sw (loop_spec), running the output is running the input followed
   by the relabelling action (loop_sem), and no Err arises on a connected graph with a correct oracle (loop_total).
   The SWAPs of one step come from the oracle's path p = a :: p1 :: .. :: b, taken from the far end: their composite
   carries b next to a and does not move a (route_spec). *)
From Coq Require Import List ZArith Bool Lia ZifyBool.
From PLV Require Import Disc.TranspileModel.
Import ListNotations.
Open Scope Z_scope.

Lemma memZ_In x l : memZ x l = true <-> In x l.
Proof.
  unfold memZ. rewrite existsb_exists. split.
  - intros [y [H1 H2]]. apply Z.eqb_eq in H2. subst; auto.
  - intros H; exists x; split; auto. apply Z.eqb_refl.
Qed.

Lemma memZ_nIn x l : memZ x l = false <-> ~ In x l.
Proof. rewrite <- memZ_In. destruct (memZ x l); split; congruence. Qed.

Definition edge_pair (E : list (Z * Z)) (s : Z * Z) : Prop := is_edge E (fst s) (snd s) = true.

Lemma is_edge_nodes E a b : is_edge E a b = true -> In a (nodes E) /\ In b (nodes E).
Proof.
  unfold is_edge, nodes. rewrite existsb_exists. intros [e [He H]].
  split; apply in_flat_map; exists e; (split; [exact He|]); simpl; lia.
Qed.

(* tr: unfold transp and split on each comparison between two terms that contain no comparison themselves *)
Ltac tr1 := match goal with |- context[?x =? ?y] =>
              lazymatch x with context[Z.eqb] => fail | _ =>
              lazymatch y with context[Z.eqb] => fail | _ => destruct (Z.eqb_spec x y); cbv iota end end end.
Ltac tr := unfold transp; repeat tr1; try lia.

Lemma transp_invol a b w : transp a b (transp a b w) = w.
Proof. tr. Qed.
Lemma transp_snd a b : transp a b b = a.
Proof. tr. Qed.
Lemma transp_fix a b w : w <> a -> w <> b -> transp a b w = w.
Proof. intros; tr. Qed.
Lemma transp_cases a b w : transp a b w = a \/ transp a b w = b \/ transp a b w = w.
Proof. tr; auto. Qed.

Lemma transp_inj a b u v : transp a b u = transp a b v -> u = v.
Proof. intros H. rewrite <- (transp_invol a b u), H. apply transp_invol. Qed.

(* relabelling by an injection conjugates a transposition *)
Lemma transp_conj (f : Z -> Z) a b w :
  (forall u v, f u = f v -> u = v) -> transp (f a) (f b) (f w) = f (transp a b w).
Proof.
  intros inj.
  assert (E : forall u v, (f u =? f v) = (u =? v)).
  { intros u v. destruct (Z.eqb_spec u v) as [->|N]; [apply Z.eqb_refl|].
    apply Z.eqb_neq. intros H. apply N, inj, H. }
  unfold transp. rewrite !E. destruct (w =? b); [reflexivity|]. destruct (w =? a); reflexivity.
Qed.

Lemma papp_cons s sw w : papp (s :: sw) w = papp sw (transp (fst s) (snd s) w).
Proof. reflexivity. Qed.
Lemma papp_app l1 l2 w : papp (l1 ++ l2) w = papp l2 (papp l1 w).
Proof. unfold papp. apply fold_left_app. Qed.

Lemma map_papp_nil l : map (papp []) l = l.
Proof. apply map_id. Qed.
Lemma map_papp_app l1 l2 l : map (papp l2) (map (papp l1) l) = map (papp (l1 ++ l2)) l.
Proof. rewrite map_map. apply map_ext. intros w. symmetry. apply papp_app. Qed.

Lemma papp_rev_l sw w : papp (rev sw) (papp sw w) = w.
Proof.
  revert w. induction sw as [|s sw IH]; intros w; [reflexivity|].
  rewrite papp_cons. simpl rev. rewrite papp_app, IH. simpl. apply transp_invol.
Qed.
Lemma papp_rev_r sw w : papp sw (papp (rev sw) w) = w.
Proof. rewrite <- (rev_involutive sw) at 1. apply papp_rev_l. Qed.
Lemma papp_inj sw a b : papp sw a = papp sw b -> a = b.
Proof. intros H. rewrite <- (papp_rev_l sw a), H. apply papp_rev_l. Qed.

Lemma papp_fix sw x : (forall s, In s sw -> fst s <> x /\ snd s <> x) -> papp sw x = x.
Proof.
  induction sw as [|s sw IH]; intros H; [reflexivity|].
  rewrite papp_cons, transp_fix; [apply IH; intros; apply H; right; auto| |];
    destruct (H s (or_introl eq_refl)); auto.
Qed.

Lemma papp_nodes E sw w : Forall (edge_pair E) sw -> In w (nodes E) -> In (papp sw w) (nodes E).
Proof.
  revert w. induction sw as [|s sw IH]; intros w HF Hw; [exact Hw|].
  inversion HF; subst. rewrite papp_cons. apply IH; auto.
  destruct (is_edge_nodes _ _ _ H1) as [Ha Hb].
  destruct (transp_cases (fst s) (snd s) w) as [-> | [-> | ->]]; auto.
Qed.

Lemma wm_get_id wo k : wm_get (wm_id wo) k = k.
Proof. induction wo as [|w wo IH]; simpl; [reflexivity|]. destruct (Z.eqb_spec w k); auto. Qed.

Lemma keys_id wo : map fst (wm_id wo) = wo.
Proof. unfold wm_id. rewrite map_map. simpl. apply map_id. Qed.

Lemma keys_swap a b m : map fst (wm_swap a b m) = map fst m.
Proof. unfold wm_swap. rewrite map_map. reflexivity. Qed.

Lemma wm_get_swap a b m k : In k (map fst m) -> wm_get (wm_swap a b m) k = transp a b (wm_get m k).
Proof.
  induction m as [|kv m IH]; simpl; [tauto|]. intros H.
  destruct (Z.eqb_spec (fst kv) k); [reflexivity|]. apply IH. destruct H; [contradiction|assumption].
Qed.

Lemma keys_swaps sw m : map fst (wm_swaps sw m) = map fst m.
Proof.
  revert m. induction sw as [|s sw IH]; intros m; [reflexivity|].
  unfold wm_swaps in *. simpl. rewrite IH. apply keys_swap.
Qed.

Lemma wm_get_swaps sw m k : In k (map fst m) -> wm_get (wm_swaps sw m) k = papp sw (wm_get m k).
Proof.
  revert m. induction sw as [|s sw IH]; intros m H; [reflexivity|].
  rewrite papp_cons. unfold wm_swaps in *. simpl. rewrite IH by (rewrite keys_swap; exact H).
  rewrite wm_get_swap by exact H. reflexivity.
Qed.

(* the wire map built during one routing step is the composite permutation, on the tracked wires *)
Lemma wm_route sw wo k : In k wo -> wm_get (wm_swaps sw (wm_id wo)) k = papp sw k.
Proof. intros H. rewrite wm_get_swaps by (rewrite keys_id; exact H). rewrite wm_get_id. reflexivity. Qed.

Lemma route_map sw wo l : incl l wo -> map (wm_get (wm_swaps sw (wm_id wo))) l = map (papp sw) l.
Proof. intros H. apply map_ext_in. intros w Hw. apply wm_route, H, Hw. Qed.

(* every label of every wire list in ls is tracked in wo *)
Definition covers (wo : list Z) (ls : list (list Z)) : Prop := Forall (fun l => incl l wo) ls.

Lemma covers_map (f : Z -> Z) wo ls : covers wo ls -> covers (map f wo) (map (map f) ls).
Proof. intros H. apply Forall_map. eapply Forall_impl; [|exact H]. intros l. apply incl_map. Qed.

Lemma covers_gmap (f : Z -> Z) wo ops : covers wo (map snd ops) -> covers (map f wo) (map snd (map (gmap f) ops)).
Proof. intros H. apply (covers_map f) in H. rewrite map_map in *. exact H. Qed.

Lemma covers_incl wo wo' ls : incl wo wo' -> covers wo ls -> covers wo' ls.
Proof. intros Hi. apply Forall_impl. intros l Hl w Hw. apply Hi, Hl, Hw. Qed.

Lemma route_meas sw wo ms :
  covers wo ms -> map (map (wm_get (wm_swaps sw (wm_id wo)))) ms = map (map (papp sw)) ms.
Proof.
  intros H. apply map_ext_in. intros m Hm. apply route_map.
  exact (proj1 (Forall_forall _ _) H m Hm).
Qed.

Lemma route_gates sw wo ops :
  covers wo (map snd ops) -> map (map_wires (wm_swaps sw (wm_id wo))) ops = map (gmap (papp sw)) ops.
Proof.
  intros H. apply map_ext_in. intros g Hg. unfold map_wires, gmap. f_equal. apply route_map.
  exact (proj1 (Forall_forall _ _) H (snd g) (in_map snd _ _ Hg)).
Qed.

Lemma consec_in l s : In s (consec l) -> In (fst s) l /\ In (snd s) l.
Proof.
  induction l as [|a r IH]; simpl; [tauto|]. destruct r as [|b r']; [simpl; tauto|].
  intros [<- | H]; simpl; [auto|]. destruct (IH H). split; right; assumption.
Qed.

Lemma chain_cons E a b r : chain E (a :: b :: r) = true <-> is_edge E a b = true /\ chain E (b :: r) = true.
Proof. apply andb_true_iff. Qed.

Lemma chain_consec E l : chain E l = true -> Forall (edge_pair E) (consec l).
Proof.
  induction l as [|a r IH]; [constructor|]. destruct r as [|b r']; [constructor|].
  intros H. apply chain_cons in H as [He Hc].
  change (consec (a :: b :: r')) with ((a, b) :: consec (b :: r')). constructor; [exact He | apply IH, Hc].
Qed.

Lemma papp_last r d : r <> [] -> papp (rev (consec r)) (last r d) = hd d r.
Proof.
  induction r as [|p1 r IH]; [congruence|]. intros _. destruct r as [|p2 r']; [reflexivity|].
  change (consec (p1 :: p2 :: r')) with ((p1, p2) :: consec (p2 :: r')).
  change (last (p1 :: p2 :: r') d) with (last (p2 :: r') d).
  change (rev ((p1, p2) :: consec (p2 :: r'))) with (rev (consec (p2 :: r')) ++ [(p1, p2)]).
  rewrite papp_app, IH by congruence. simpl. apply transp_snd.
Qed.

(* everything the loop uses about a validated oracle answer *)
Lemma valid_path_spec E a b p :
  valid_path E a b p = true ->
  exists p1 r, p = a :: p1 :: r /\ last (p1 :: r) a = b /\ is_edge E a p1 = true /\
               chain E (p1 :: r) = true /\ ~ In a (p1 :: r).
Proof.
  unfold valid_path. destruct p as [|p0 [|p1 r]]; [discriminate | simpl; lia |].
  rewrite !andb_true_iff. intros [[[[H0 _] Hl] Hc] Hn].
  apply Z.eqb_eq in H0, Hl. subst p0. apply chain_cons in Hc as [He Hc].
  apply negb_true_iff, memZ_nIn in Hn. exists p1, r. auto.
Qed.

(* the SWAPs along a validated path are on edges and bring the two wires of the gate onto an edge: their composite
   carries b = last r down to p1 (papp_last) and fixes a, which the path does not revisit (papp_fix) *)
Lemma route_spec E a b p :
  valid_path E a b p = true ->
  let sw := wires_to_swap p in
  is_edge E (papp sw a) (papp sw b) = true /\ Forall (edge_pair E) sw.
Proof.
  intros H. destruct (valid_path_spec _ _ _ _ H) as [p1 [r [-> [Hl [He [Hc Hn]]]]]].
  unfold wires_to_swap. simpl tl. cbv zeta. split.
  - rewrite papp_fix; [rewrite <- Hl, papp_last by congruence; exact He|].
    intros s Hs. apply in_rev, consec_in in Hs as [H1 H2].
    split; intros Heq; apply Hn; rewrite <- Heq; assumption.
  - apply Forall_rev, chain_consec, Hc.
Qed.

Lemma last_In (r : list Z) d : r <> [] -> In (last r d) r.
Proof.
  induction r as [|x r IH]; [congruence|]. intros _. destruct r as [|y r']; [left; reflexivity|].
  change (last (x :: y :: r') d) with (last (y :: r') d). right. apply IH. congruence.
Qed.

Lemma chain_nodes E : forall l a, chain E (a :: l) = true -> In a (nodes E) ->
  forall x, In x (a :: l) -> In x (nodes E).
Proof.
  induction l as [|b l IH]; intros a Hc Ha x Hx.
  - destruct Hx as [<- | []]. exact Ha.
  - apply chain_cons in Hc as [He Hc]. destruct Hx as [<- | Hx]; [exact Ha|].
    apply (IH b Hc); [apply (is_edge_nodes _ _ _ He) | exact Hx].
Qed.

(* a validated path joins two distinct nodes of the graph *)
Lemma valid_path_endpoints E a b p :
  valid_path E a b p = true -> In a (nodes E) /\ In b (nodes E) /\ a <> b.
Proof.
  intros H. destruct (valid_path_spec _ _ _ _ H) as [p1 [r [-> [Hl [He [Hc Hn]]]]]].
  destruct (is_edge_nodes _ _ _ He) as [Ha Hp1].
  assert (Hb : In b (p1 :: r)) by (rewrite <- Hl; apply last_In; congruence).
  split; [exact Ha|]. split; [eapply chain_nodes; eauto|]. intros ->. exact (Hn Hb).
Qed.

Lemma loop_nil E sp fuel k wo ms : loop E sp fuel k [] wo ms = Ok [] ms wo [] k.
Proof. destruct fuel; reflexivity. Qed.

Lemma prepend_ok pre psw r gs ms wo sw c :
  prepend pre psw r = Ok gs ms wo sw c ->
  exists gs' sw', r = Ok gs' ms wo sw' c /\ gs = pre ++ gs' /\ sw = psw ++ sw'.
Proof. destruct r; simpl; [|discriminate]. intros H; inversion H; subst. eauto. Qed.

Lemma prepend_not_err pre psw r : r <> Err -> prepend pre psw r <> Err.
Proof. destruct r; [discriminate | congruence]. Qed.

Definition swap_gates (sw : list (Z * Z)) : list gate := map (fun s => mkswap (fst s) (snd s)) sw.

Lemma on_edges_app E g1 g2 : on_edges E (g1 ++ g2) = on_edges E g1 && on_edges E g2.
Proof. unfold on_edges. apply forallb_app. Qed.

Lemma on_edges_swaps E sw : Forall (edge_pair E) sw -> on_edges E (swap_gates sw) = true.
Proof. induction 1; simpl; [reflexivity|]. unfold edge_pair in H. rewrite H. exact IHForall. Qed.

(* One iteration on tracked wires.  Either the gate is kept as it is; or it has two non-adjacent wires and, if the
   oracle's answer is accepted, is preceded by SWAPs while everything after it is relabelled by their composite; or
   it has more than two wires. *)
Lemma loop_cases E sp f k op rest wo ms :
  covers wo (map snd (op :: rest)) -> covers wo ms ->
  let L := loop E sp (S f) k (op :: rest) wo ms in
  (on_edges E [op] = true /\ L = prepend [op] [] (loop E sp f k rest wo ms)) \/
  (exists a b, snd op = [a; b] /\
     L = if valid_path E a b (sp k a b)
         then let sw := wires_to_swap (sp k a b) in
              prepend (swap_gates sw ++ [gmap (papp sw) op]) sw
                      (loop E sp f (S k) (map (gmap (papp sw)) rest) (map (papp sw) wo) (map (map (papp sw)) ms))
         else Err) \/
  ((2 < length (snd op))%nat /\ L = Err).
Proof.
  intros Hc Hm L. subst L. inversion Hc as [|? ? Hop Hrest]; subst.
  cbn [loop]. unfold on_edges. cbn [forallb].
  destruct (snd op) as [|a [|b [|x l]]] eqn:Hw.
  1,2: left; split; reflexivity.
  2: right; right; split; [simpl; lia | reflexivity].
  destruct (is_edge E a b); [left; split; reflexivity|].
  right; left. exists a, b. split; [reflexivity|]. cbv zeta.
  rewrite (route_gates _ _ _ Hrest), (route_meas _ _ _ Hm), (route_map _ _ wo) by apply incl_refl.
  unfold map_wires, gmap. rewrite (route_map _ _ (snd op)) by (rewrite Hw; exact Hop). reflexivity.
Qed.

(* clause 1, and the relabelling of measurements and wire order by the accumulated permutation *)
Lemma loop_spec E sp : forall fuel k ops wo ms gs ms' wo' sw c,
  covers wo (map snd ops) -> covers wo ms ->
  loop E sp fuel k ops wo ms = Ok gs ms' wo' sw c ->
  on_edges E gs = true /\ Forall (edge_pair E) sw /\
  ms' = map (map (papp sw)) ms /\ wo' = map (papp sw) wo.
Proof.
  induction fuel as [|f IH]; intros k [|op rest] wo ms gs ms' wo' sw c Hc Hm H.
  1,3: rewrite loop_nil in H; inversion H; subst;
       rewrite (map_ext _ _ map_papp_nil), map_id, map_papp_nil; auto.
  1: discriminate.
  destruct (loop_cases E sp f k op rest wo ms Hc Hm) as [[Hop HL] | [(a & b & Hw & HL) | [_ HL]]];
    cbv zeta in HL; rewrite HL in H; clear HL; inversion Hc as [|? ? _ Hrest]; subst.
  - apply prepend_ok in H as (gs' & sw' & H & -> & ->).
    apply IH in H as (H1 & H2 & H3 & H4); [|assumption..].
    rewrite on_edges_app, Hop, H1. auto.
  - destruct (valid_path E a b (sp k a b)) eqn:Hv; [|discriminate].
    destruct (route_spec _ _ _ _ Hv) as [Hab HF]. cbv zeta in Hab, HF.
    apply prepend_ok in H as (gs' & sw' & H & -> & ->).
    apply IH in H as (H1 & H2 & -> & ->); [|apply covers_gmap, Hrest | apply covers_map, Hm].
    repeat split.
    + rewrite !on_edges_app, on_edges_swaps, H1 by exact HF.
      unfold on_edges, gmap. simpl. rewrite Hw. simpl. rewrite Hab. reflexivity.
    + apply Forall_app. auto.
    + rewrite map_map. apply map_ext, map_papp_app.
    + apply map_papp_app.
  - discriminate.
Qed.

(* clause 2: semantics *)
Lemma gmap_papp_cons s sw g : gmap (papp (s :: sw)) g = gmap (papp sw) (gmap (transp (fst s) (snd s)) g).
Proof. unfold gmap. simpl. rewrite map_map. reflexivity. Qed.

Lemma gmap_papp_nil g : gmap (papp []) g = g.
Proof. unfold gmap. destruct g. simpl. rewrite map_id. reflexivity. Qed.

Section Semantics.
  Variable St : Type.
  Variable sem : gate -> St -> St.
  Variable act1 : Z -> Z -> St -> St.      (* relabelling action of the transposition (a b) on states *)
  (* H2, H3: the numbering of DESIGN.md section 3, group B (H1, commutation on disjoint wires, is not needed) *)
  Hypothesis H2 : forall a b g s, sem (gmap (transp a b) g) (act1 a b s) = act1 a b (sem g s).
  Hypothesis H3 : forall a b s, sem (mkswap a b) s = act1 a b s.

  Definition run (gs : list gate) (s : St) : St := fold_left (fun s g => sem g s) gs s.
  Definition act (sw : list (Z * Z)) (s : St) : St := fold_left (fun s p => act1 (fst p) (snd p) s) sw s.

  Lemma run_app g1 g2 s : run (g1 ++ g2) s = run g2 (run g1 s).
  Proof. unfold run. apply fold_left_app. Qed.
  Lemma act_app l1 l2 s : act (l1 ++ l2) s = act l2 (act l1 s).
  Proof. unfold act. apply fold_left_app. Qed.

  Lemma run_swaps sw s : run (swap_gates sw) s = act sw s.
  Proof. revert s. induction sw as [|p sw IH]; intros s; [reflexivity|]. simpl. rewrite H3. apply IH. Qed.

  Lemma equiv1 a b ops : forall s,
    run (map (gmap (transp a b)) ops) (act1 a b s) = act1 a b (run ops s).
  Proof. induction ops as [|g ops IH]; intros s; [reflexivity|]. simpl. rewrite H2. apply IH. Qed.

  Lemma equiv sw : forall ops s, run (map (gmap (papp sw)) ops) (act sw s) = act sw (run ops s).
  Proof.
    induction sw as [|p sw IH]; intros ops s.
    - simpl. rewrite (map_ext _ (fun g => g)) by apply gmap_papp_nil. rewrite map_id. reflexivity.
    - simpl act. rewrite (map_ext _ _ (gmap_papp_cons p sw)), <- map_map, IH, equiv1. reflexivity.
  Qed.

  Lemma loop_sem E sp : forall fuel k ops wo ms gs ms' wo' sw c,
    covers wo (map snd ops) -> covers wo ms ->
    loop E sp fuel k ops wo ms = Ok gs ms' wo' sw c ->
    forall s, run gs s = act sw (run ops s).
  Proof.
    induction fuel as [|f IH]; intros k [|op rest] wo ms gs ms' wo' sw c Hc Hm H s.
    1,3: rewrite loop_nil in H; inversion H; reflexivity.
    1: discriminate.
    destruct (loop_cases E sp f k op rest wo ms Hc Hm) as [[_ HL] | [(a & b & _ & HL) | [_ HL]]];
      cbv zeta in HL; rewrite HL in H; clear HL; inversion Hc as [|? ? _ Hrest]; subst.
    - apply prepend_ok in H as (gs' & sw' & H & -> & ->). exact (IH _ _ _ _ _ _ _ _ _ Hrest Hm H _).
    - destruct (valid_path E a b (sp k a b)); [|discriminate].
      apply prepend_ok in H as (gs' & sw' & H & -> & ->).
      rewrite !run_app, run_swaps, act_app.
      rewrite (IH _ _ _ _ _ _ _ _ _ (covers_gmap _ _ _ Hrest) (covers_map _ _ _ Hm) H). f_equal.
      exact (equiv _ (op :: rest) s).
    - discriminate.
  Qed.
End Semantics.

Definition dev_covers (ops : list gate) (ms : list (list Z)) (dev : list Z) : Prop :=
  dev = [] \/ incl (tape_wires ops ms) dev.
Definition wo0 (ops : list gate) (ms : list (list Z)) (dev : list Z) : list Z :=
  match dev with [] => tape_wires ops ms | _ => dev end.

Lemma dedup_In x l : forall seen, In x (dedup seen l) <-> In x l /\ ~ In x seen.
Proof.
  induction l as [|y l IH]; intros seen; simpl; [tauto|].
  destruct (memZ y seen) eqn:Hm; [apply memZ_In in Hm | apply memZ_nIn in Hm]; simpl; rewrite IH; simpl;
    (destruct (Z.eq_dec y x) as [->|]; [|tauto]); intuition.
Qed.

Lemma tape_wires_covers ops ms : covers (tape_wires ops ms) (map snd ops ++ ms).
Proof.
  apply Forall_forall. intros l Hl w Hw. unfold tape_wires. apply dedup_In. split; [|simpl; tauto].
  apply in_or_app. apply in_app_or in Hl as [Hl | Hl].
  - left. apply in_map_iff in Hl as (g & <- & Hg). apply in_flat_map. exists g; auto.
  - right. apply in_concat. exists l; auto.
Qed.

Lemma covered0 ops ms dev : dev_covers ops ms dev ->
  covers (wo0 ops ms dev) (map snd ops) /\ covers (wo0 ops ms dev) (process_meas dev ms).
Proof.
  intros Hd. apply Forall_app. pose proof (tape_wires_covers ops ms) as H.
  unfold wo0, process_meas. destruct dev as [|d dev]; [exact H|].
  destruct Hd as [Hd | Hd]; [discriminate|]. apply (covers_incl _ _ _ Hd) in H.
  apply Forall_app in H as [Ho Hm]. apply Forall_app. split; [exact Ho|].
  apply Forall_map. eapply Forall_impl; [|exact Hm]. intros [|w m] Hwm; [apply incl_refl | exact Hwm].
Qed.

Lemma transpile_loop E sp ops ms dev r :
  transpile E sp ops ms dev = r -> r <> Err ->
  r = loop E sp (length ops) 0%nat ops (wo0 ops ms dev) (process_meas dev ms).
Proof.
  unfold transpile, wo0. intros H Hr.
  repeat match goal with H : (if ?c then _ else _) = _ |- _ => destruct c; [congruence|] end. auto.
Qed.

Lemma transpile_spec E sp ops ms dev gs ms' wo' sw c :
  dev_covers ops ms dev ->
  transpile E sp ops ms dev = Ok gs ms' wo' sw c ->
  covers (wo0 ops ms dev) (map snd ops) /\ covers (wo0 ops ms dev) (process_meas dev ms) /\
  loop E sp (length ops) 0%nat ops (wo0 ops ms dev) (process_meas dev ms) = Ok gs ms' wo' sw c.
Proof.
  intros Hd H. apply transpile_loop in H; [|discriminate]. destruct (covered0 _ _ _ Hd). auto.
Qed.

Lemma transpile_on_edges_prop E sp ops ms dev gs ms' wo' sw c :
  dev_covers ops ms dev ->
  transpile E sp ops ms dev = Ok gs ms' wo' sw c ->
  Forall (fun g => match snd g with
                   | [] | [_] => True
                   | [a; b] => is_edge E a b = true
                   | _ => False end) gs /\
  Forall (fun s => is_edge E (fst s) (snd s) = true) sw.
Proof.
  intros Hd H. destruct (transpile_spec _ _ _ _ _ _ _ _ _ _ Hd H) as (Ho & Hm & HL).
  destruct (loop_spec _ _ _ _ _ _ _ _ _ _ _ _ Ho Hm HL) as (H1 & H2 & _). split; [|exact H2].
  apply Forall_forall. intros g Hg. unfold on_edges in H1.
  rewrite forallb_forall in H1. specialize (H1 g Hg).
  destruct (snd g) as [|a [|b [|x l]]]; auto; discriminate.
Qed.

Definition is_inverse (f g : Z -> Z) : Prop := (forall w, g (f w) = w) /\ (forall w, f (g w) = w).

Lemma transpile_perm_lem E sp ops ms dev gs ms' wo' sw c :
  dev_covers ops ms dev ->
  transpile E sp ops ms dev = Ok gs ms' wo' sw c ->
  (forall (St : Type) (sem : gate -> St -> St) (act1 : Z -> Z -> St -> St),
     (forall a b g s, sem (gmap (transp a b) g) (act1 a b s) = act1 a b (sem g s)) ->
     (forall a b s, sem (mkswap a b) s = act1 a b s) ->
     forall s, run St sem gs s = act St act1 sw (run St sem ops s)) /\
  ms' = map (map (papp sw)) (process_meas dev ms) /\
  wo' = map (papp sw) (wo0 ops ms dev) /\
  is_inverse (papp sw) (papp (rev sw)) /\
  (forall w, In w (nodes E) <-> In (papp sw w) (nodes E)).
Proof.
  intros Hd H. destruct (transpile_spec _ _ _ _ _ _ _ _ _ _ Hd H) as (Ho & Hm & HL).
  destruct (loop_spec _ _ _ _ _ _ _ _ _ _ _ _ Ho Hm HL) as (_ & HF & Hms & Hwo).
  split; [|split; [exact Hms | split; [exact Hwo | split]]].
  - intros St sem act1 H2 H3 s. eapply loop_sem; eauto.
  - split; intros w; [apply papp_rev_l | apply papp_rev_r].
  - intros w. split; [apply papp_nodes; exact HF|]. intros Hw.
    rewrite <- (papp_rev_l sw w). apply papp_nodes; [apply Forall_rev; exact HF | exact Hw].
Qed.

(* clause 3: totality *)
(* the shape of gates transpile accepts: at most two wires, the two wires of a gate distinct *)
Definition gate_ok (g : gate) : Prop :=
  match snd g with [] | [_] => True | [a; b] => a <> b | _ => False end.

(* connectivity, phrased with the same notion of path the model validates *)
Definition connected (E : list (Z * Z)) : Prop :=
  forall a b, In a (nodes E) -> In b (nodes E) -> a <> b -> exists p, valid_path E a b p = true.
(* the oracle finds a usable path whenever one exists *)
Definition oracle_correct (E : list (Z * Z)) (sp : nat -> Z -> Z -> list Z) : Prop :=
  forall k a b, (exists p, valid_path E a b p = true) -> valid_path E a b (sp k a b) = true.

Lemma gate_ok_gmap sw g : gate_ok g -> gate_ok (gmap (papp sw) g).
Proof.
  unfold gate_ok, gmap. simpl. destruct (snd g) as [|a [|b [|x l]]]; simpl; auto.
  intros H Heq. apply H. eapply papp_inj; eauto.
Qed.

Lemma loop_total E sp : connected E -> oracle_correct E sp ->
  forall fuel k ops wo ms,
  (length ops <= fuel)%nat ->
  covers wo (map snd ops) -> covers wo ms -> Forall gate_ok ops -> covers (nodes E) (map snd ops) ->
  loop E sp fuel k ops wo ms <> Err.
Proof.
  intros Hcon Hor. induction fuel as [|f IH]; intros k [|op rest] wo ms Hlen Hc Hm Hok Hn.
  1,3: rewrite loop_nil; discriminate.
  1: simpl in Hlen; lia.
  simpl in Hlen.
  destruct (loop_cases E sp f k op rest wo ms Hc Hm) as [[_ HL] | [(a & b & Hw & HL) | [H3 _]]];
    try (cbv zeta in HL; rewrite HL; clear HL);
    inversion Hc as [|? ? _ Hrest]; inversion Hok as [|? ? Gop Grest]; inversion Hn as [|? ? Nop Nrest]; subst;
    unfold gate_ok in Gop.
  - apply prepend_not_err, IH; [lia | assumption..].
  - rewrite Hw in Gop, Nop.
    assert (Hv : valid_path E a b (sp k a b) = true)
      by (apply Hor, Hcon; [apply Nop; simpl; auto | apply Nop; simpl; auto | exact Gop]).
    rewrite Hv. destruct (route_spec _ _ _ _ Hv) as [_ HF].
    apply prepend_not_err, IH.
    + rewrite map_length. apply le_S_n, Hlen.
    + apply covers_gmap, Hrest.
    + apply covers_map, Hm.
    + apply Forall_map. eapply Forall_impl; [|exact Grest]. intros g. apply gate_ok_gmap.
    + eapply covers_incl; [|apply covers_gmap, Nrest].
      intros w Hw'. apply in_map_iff in Hw' as (w0 & <- & Hw0). apply papp_nodes; assumption.
  - destruct (snd op) as [|a [|b [|x l]]]; [simpl in H3; lia.. | destruct Gop].
Qed.

Lemma transpile_total_lem E sp ops ms dev :
  connected E -> oracle_correct E sp ->
  dev_covers ops ms dev ->
  Forall gate_ok ops ->
  incl (tape_wires ops ms) (nodes E) ->
  transpile E sp ops ms dev <> Err.
Proof.
  intros Hcon Hor Hd Hok Hin. unfold transpile.
  replace (forallb (fun w => memZ w (nodes E)) (tape_wires ops ms)) with true.
  2:{ symmetry. apply forallb_forall. intros w Hw. apply memZ_In. apply Hin, Hw. }
  simpl negb. cbv iota.
  match goal with |- (if ?c then _ else _) <> _ => destruct c eqn:Hex end.
  { exfalso. apply existsb_exists in Hex. destruct Hex as [g [Hg H]].
    rewrite Forall_forall in Hok. specialize (Hok g Hg). unfold gate_ok in Hok.
    destruct (snd g) as [|a [|b [|x l]]]; simpl in *; try lia. }
  destruct (covered0 _ _ _ Hd) as [Ho Hm]. unfold wo0 in Ho, Hm.
  apply loop_total; auto.
  pose proof (covers_incl _ _ _ Hin (tape_wires_covers ops ms)) as H. apply Forall_app in H. apply H.
Qed.

(* a concrete instance of the semantic hypotheses: the state is the position of one marked token;
   SWAP moves it, every other gate leaves it, relabelling moves it *)
Definition tok_sem (g : gate) (s : Z) : Z :=
  if fst g =? SWAPc then match snd g with [a; b] => transp a b s | _ => s end else s.

Lemma tok_sem_gmap (f : Z -> Z) g s :
  (forall u v, f u = f v -> u = v) -> tok_sem (gmap f g) (f s) = f (tok_sem g s).
Proof.
  intros inj. unfold tok_sem, gmap. simpl. destruct (fst g =? SWAPc); [|reflexivity].
  destruct (snd g) as [|x [|y [|z l]]]; simpl; try reflexivity. apply transp_conj, inj.
Qed.

Lemma tok_H2 a b g s : tok_sem (gmap (transp a b) g) (transp a b s) = transp a b (tok_sem g s).
Proof. apply tok_sem_gmap, transp_inj. Qed.

Lemma tok_H3 a b s : tok_sem (mkswap a b) s = transp a b s.
Proof. reflexivity. Qed.

(* the line 0-1-2 with a correct oracle *)
Definition line3 : list (Z * Z) := [(0, 1); (1, 2)].
Definition sp3 (_ : nat) (a b : Z) : list Z :=
  if (a =? 0) && (b =? 2) then [0; 1; 2] else if (a =? 2) && (b =? 0) then [2; 1; 0] else [a; b].

Lemma line3_ok :
  connected line3 /\ oracle_correct line3 sp3 /\
  transpile line3 sp3 [(10, [0; 2]); (10, [2; 0])] [[2; 0]] [] =
    Ok [(0, [1; 2]); (10, [0; 1]); (10, [1; 0])] [[1; 0]] [0; 1] [(1, 2)] 1%nat.
Proof.
  assert (Hs : forall k a b, In a (nodes line3) -> In b (nodes line3) -> a <> b ->
                             valid_path line3 a b (sp3 k a b) = true).
  { intros k a b Ha Hb Hab. simpl in Ha, Hb.
    repeat (destruct Ha as [<- | Ha]); try contradiction;
      repeat (destruct Hb as [<- | Hb]); try contradiction; try congruence; reflexivity. }
  split; [|split].
  - intros a b Ha Hb Hab. exists (sp3 0%nat a b). apply Hs; assumption.
  - intros k a b [p Hp]. destruct (valid_path_endpoints _ _ _ _ Hp) as [Ha [Hb Hab]]. apply Hs; assumption.
  - vm_compute. reflexivity.
Qed.
