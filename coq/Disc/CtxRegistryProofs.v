(* Proofs about the ContextVar/heap model of the decomposition registries (CtxRegistryModel.v).

   Plan: the heap model (shared mutable objects reached through per-thread ContextVar values and
   reset tokens) is shown to refine a VALUE semantics in which every thread owns a private stack of
   registries (one per open local_decomps block) and there is one global registry.  The refinement
   invariant (R below: the addresses held by the threads are fresh, pairwise distinct, never 0) is
   preserved by every step of every thread, hence holds after every schedule, i.e. for all
   interleavings.  The clauses of the property are then proved on the value semantics and
   transported. *)
From Coq Require Import List ZArith Bool Arith Lia.
From PLV Require Import Disc.CtxRegistryModel.
Import ListNotations.

Definition reg := (dmap * fmap)%type.

(* effect of a call on the registry pair it is applied to *)
Definition apply_act (r : reg) (a : action) : reg :=
  match a with
  | AAdd op rs => (add_d (fst r) op rs, snd r)
  | AFix op x => (fst r, fix_f (snd r) op x)
  | _ => r
  end.

(* the value semantics: the global registry, and per thread the registries of its open blocks,
   innermost first *)
Record sstate := mkSS { sg : reg; sl : nat -> list reg }.

(* the registry thread t reads and writes: the top of its stack, the global one outside every block *)
Definition stop (sp : sstate) (t : nat) : reg :=
  match sl sp t with r :: _ => r | [] => sg sp end.

Definition sstep (sp : sstate) (x : nat * action) : sstate :=
  let t := fst x in
  match snd x with
  | AEnter => mkSS (sg sp) (updN (sl sp) t (stop sp t :: sl sp t))
  | AExit | AExitExn => mkSS (sg sp) (updN (sl sp) t (tl (sl sp t)))
  | AAdd _ _ | AFix _ _ =>
      match sl sp t with
      | r :: rest => mkSS (sg sp) (updN (sl sp) t (apply_act r (snd x) :: rest))
      | [] => mkSS (apply_act (sg sp) (snd x)) (sl sp)
      end
  | AList _ | AListMut _ _ => sp
  end.

Definition srun (sp : sstate) (s : list (nat * action)) : sstate := fold_left sstep s sp.
Definition sinit (d0 : dmap) (f0 : fmap) : sstate := mkSS (d0, f0) (fun _ => []).

Definition cell (st : state) (a : nat) : reg := (hd st a, hf st a).
(* the pair of registry objects thread t currently reaches through the two ContextVars *)
Definition seen (st : state) (t : nat) : reg :=
  (hd st (curd (thr st t)), hf st (curf (thr st t))).

Lemma view_of_seen st t op : view st t op = view_reg (fst (seen st t)) (snd (seen st t)) op.
Proof. reflexivity. Qed.

(* the add/fix/list calls thread t makes at relative nesting depth 0 in s, provided t's
   enter/exit actions in s are well bracketed and t ends at relative depth 0 (d = current depth) *)
Fixpoint own_acts (t : nat) (d : nat) (s : list (nat * action)) : option (list action) :=
  match s with
  | [] => match d with O => Some [] | S _ => None end
  | (u, a) :: r =>
      if Nat.eqb u t then
        match a with
        | AEnter => own_acts t (S d) r
        | AExit | AExitExn => match d with O => None | S d' => own_acts t d' r end
        | _ => match d with
               | O => match own_acts t 0 r with Some l => Some (a :: l) | None => None end
               | S _ => own_acts t d r
               end
        end
      else own_acts t d r
  end.

(* the calls made by threads that are outside every local context (dep = current depth per thread) *)
Fixpoint global_acts (dep : nat -> nat) (s : list (nat * action)) : list action :=
  match s with
  | [] => []
  | (t, a) :: r =>
      match a with
      | AEnter => global_acts (updN dep t (S (dep t))) r
      | AExit | AExitExn => global_acts (updN dep t (pred (dep t))) r
      | _ => if Nat.eqb (dep t) 0 then a :: global_acts dep r else global_acts dep r
      end
  end.

Definition others (t : nat) (s : list (nat * action)) : list (nat * action) :=
  filter (fun y => negb (Nat.eqb (fst y) t)) s.

Definition bracket_or_list (a : action) : bool :=
  match a with AAdd _ _ | AFix _ _ => false | _ => true end.

Lemma updN_same {A} (f : nat -> A) k v : updN f k v k = v.
Proof. unfold updN. now rewrite Nat.eqb_refl. Qed.

Lemma updN_other {A} (f : nat -> A) k v j : j <> k -> updN f k v j = f j.
Proof. intros H. unfold updN. apply Nat.eqb_neq in H. now rewrite H. Qed.

(* step, sstep, own_acts and global_acts distinguish three kinds of action only: a call (add, fix,
   list) acts through apply_act, which is the identity on the listing calls.  The lemmas below
   restate each of them by cases on the kind. *)
Inductive kind := KEnter | KExit | KCall.
Definition akind (a : action) : kind :=
  match a with AEnter => KEnter | AExit | AExitExn => KExit | _ => KCall end.

Lemma own_acts_self t d a r : own_acts t d ((t, a) :: r) =
  match akind a with
  | KEnter => own_acts t (S d) r
  | KExit => match d with O => None | S d' => own_acts t d' r end
  | KCall => match d with
             | O => match own_acts t 0 r with Some l => Some (a :: l) | None => None end
             | S _ => own_acts t d r
             end
  end.
Proof. simpl. rewrite Nat.eqb_refl. destruct a; reflexivity. Qed.

Lemma global_acts_cons dep t a r : global_acts dep ((t, a) :: r) =
  match akind a with
  | KEnter => global_acts (updN dep t (S (dep t))) r
  | KExit => global_acts (updN dep t (pred (dep t))) r
  | KCall => if Nat.eqb (dep t) 0 then a :: global_acts dep r else global_acts dep r
  end.
Proof. destruct a; reflexivity. Qed.

Lemma sstep_sl_other sp t a u : u <> t -> sl (sstep sp (t, a)) u = sl sp u.
Proof.
  intros Hne. unfold sstep; simpl.
  destruct a; try destruct (sl sp t); simpl; rewrite ?updN_other by exact Hne; reflexivity.
Qed.

Lemma sstep_sl_self sp t a : sl (sstep sp (t, a)) t =
  match akind a with
  | KEnter => stop sp t :: sl sp t
  | KExit => tl (sl sp t)
  | KCall => match sl sp t with r :: rest => apply_act r a :: rest | [] => [] end
  end.
Proof.
  unfold sstep; simpl.
  destruct a; try destruct (sl sp t) eqn:E; simpl; rewrite ?updN_same; auto.
Qed.

Lemma sstep_sg sp t a : sg (sstep sp (t, a)) =
  match sl sp t with [] => apply_act (sg sp) a | _ :: _ => sg sp end.
Proof. unfold sstep; simpl. destruct a, (sl sp t); reflexivity. Qed.

Lemma apply_act_bracket r a : akind a <> KCall -> apply_act r a = r.
Proof. destruct a; simpl; congruence. Qed.

Lemma sstep_sg_local sp t a : (bracket_or_list a = true \/ sl sp t <> []) -> sg (sstep sp (t, a)) = sg sp.
Proof.
  intros H. rewrite sstep_sg. destruct (sl sp t); [|reflexivity].
  destruct H as [H|H]; [destruct a; try discriminate; reflexivity | contradiction].
Qed.

Lemma sstep_stop_other sp t a u : u <> t -> (bracket_or_list a = true \/ sl sp t <> []) ->
  stop (sstep sp (t, a)) u = stop sp u.
Proof.
  intros Hne H. unfold stop. rewrite sstep_sl_other by exact Hne. rewrite sstep_sg_local by exact H. reflexivity.
Qed.

Lemma srun_app sp s1 s2 : srun sp (s1 ++ s2) = srun (srun sp s1) s2.
Proof. apply fold_left_app. Qed.

Lemma srun_sl_others t s : forall sp, (forall y, In y s -> fst y <> t) -> sl (srun sp s) t = sl sp t.
Proof.
  induction s as [|[u a] s IH]; intros sp H; simpl; auto.
  rewrite IH by (intros y Hy; apply H; right; exact Hy).
  apply sstep_sl_other. intros Heq. apply (H (u, a)); [left; reflexivity | simpl; congruence].
Qed.

Lemma others_not t s : forall y, In y (others t s) -> fst y <> t.
Proof.
  intros y Hy. apply filter_In in Hy. destruct Hy as [_ Hy].
  apply negb_true_iff in Hy. apply Nat.eqb_neq in Hy. exact Hy.
Qed.

Definition dup (a : nat) : nat * nat := (a, a).

(* own t: the addresses of the objects created by the open blocks of t, innermost first *)
Record R (st : state) (sp : sstate) (own : nat -> list nat) : Prop := mkR {
  R_stack : forall t, (curd (thr st t), curf (thr st t)) :: toks (thr st t) = map dup (own t) ++ [(0, 0)];
  R_range : forall t a, In a (own t) -> 0 < a < next st;
  R_nodup : forall t, NoDup (own t);
  R_disj : forall t u a, In a (own t) -> In a (own u) -> t = u;
  R_loc : forall t, map (cell st) (own t) = sl sp t;
  R_glob : cell st 0 = sg sp;
  R_next : 0 < next st
}.

Lemma R_init d0 f0 : R (init_state d0 f0) (sinit d0 f0) (fun _ => []).
Proof. constructor; simpl; intros; try contradiction; try constructor; auto. Qed.

Lemma stack_shape st sp own t : R st sp own ->
  (own t = [] /\ curd (thr st t) = 0 /\ curf (thr st t) = 0 /\ toks (thr st t) = [] /\ sl sp t = []) \/
  (exists a l, own t = a :: l /\ curd (thr st t) = a /\ curf (thr st t) = a /\
               toks (thr st t) = map dup l ++ [(0, 0)] /\
               sl sp t = cell st a :: map (cell st) l /\ 0 < a < next st /\ ~ In a l).
Proof.
  intros HR. pose proof (R_stack _ _ _ HR t) as Hs. pose proof (R_loc _ _ _ HR t) as Hl.
  pose proof (R_nodup _ _ _ HR t) as Hn. pose proof (R_range _ _ _ HR t) as Hr.
  symmetry in Hl. destruct (own t) as [|a l]; simpl in Hs, Hl.
  - left. injection Hs as Hd Hf Ht. auto.
  - right. exists a, l. unfold dup at 1 in Hs. injection Hs as Hd Hf Ht. apply NoDup_cons_iff in Hn. specialize (Hr a (or_introl eq_refl)). tauto.
Qed.

Lemma seen_stop st sp own t : R st sp own -> seen st t = stop sp t.
Proof.
  intros HR. destruct (stack_shape _ _ _ t HR) as [(_ & Hd & Hf & _ & Hl) | (a & l & _ & Hd & Hf & _ & Hl & _)];
    unfold seen, stop; rewrite Hd, Hf, Hl.
  - exact (R_glob _ _ _ HR).
  - reflexivity.
Qed.

Lemma depth_len st sp own t : R st sp own -> depth st t = length (sl sp t).
Proof.
  intros HR. unfold depth. rewrite <- (R_loc _ _ _ HR), map_length.
  pose proof (f_equal (@length _) (R_stack _ _ _ HR t)) as H.
  rewrite app_length, map_length in H. simpl in H. lia.
Qed.

Lemma R_enter st sp own t : R st sp own ->
  R (step st (t, AEnter)) (sstep sp (t, AEnter)) (updN own t (next st :: own t)).
Proof.
  intros HR. destruct HR as [Hst Hrg Hnd Hdj Hloc Hgl Hnx].
  assert (Hfresh : forall u, ~ In (next st) (own u)).
  { intros u Hin. apply Hrg in Hin. lia. }
  assert (Hcell : forall b, b <> next st -> cell (step st (t, AEnter)) b = cell st b).
  { intros b Hb. unfold cell, step; simpl. rewrite !updN_other by exact Hb. reflexivity. }
  assert (Hmap : forall w, map (cell (step st (t, AEnter))) (own w) = sl sp w).
  { intros w. rewrite <- Hloc. apply map_ext_in. intros b Hb. apply Hcell. intros ->. exact (Hfresh w Hb). }
  constructor.
  - intros u. simpl. destruct (Nat.eq_dec u t) as [->|Hne].
    + rewrite !updN_same. simpl. rewrite Hst. reflexivity.
    + rewrite !updN_other by exact Hne. apply Hst.
  - intros u b. simpl. destruct (Nat.eq_dec u t) as [->|Hne].
    + rewrite updN_same. intros [<-|Hin]; [lia|]. apply Hrg in Hin. lia.
    + rewrite updN_other by exact Hne. intros Hin. apply Hrg in Hin. lia.
  - intros u. destruct (Nat.eq_dec u t) as [->|Hne].
    + rewrite updN_same. constructor; [apply Hfresh | apply Hnd].
    + rewrite updN_other by exact Hne. apply Hnd.
  - intros u v b. destruct (Nat.eq_dec u t) as [->|Hne]; destruct (Nat.eq_dec v t) as [->|Hne'];
      rewrite ?updN_same, ?updN_other by assumption; auto.
    + intros [<-|Hin] Hin'; [destruct (Hfresh v Hin') | eauto].
    + intros Hin [<-|Hin']; [destruct (Hfresh u Hin) | eauto].
    + apply Hdj.
  - intros u. destruct (Nat.eq_dec u t) as [->|Hne].
    + rewrite sstep_sl_self, updN_same. simpl. rewrite Hmap. f_equal.
      unfold cell; simpl. rewrite !updN_same.
      exact (seen_stop _ _ _ t (mkR _ _ _ Hst Hrg Hnd Hdj Hloc Hgl Hnx)).
    + rewrite sstep_sl_other, updN_other by exact Hne. apply Hmap.
  - rewrite Hcell by lia. exact Hgl.
  - simpl. lia.
Qed.

(* normal and exceptional exit make the same transition: the innermost block of t, if any, is dropped *)
Lemma R_exit st sp own t a : akind a = KExit -> R st sp own ->
  R (step st (t, a)) (sstep sp (t, a)) (updN own t (tl (own t))).
Proof.
  intros Hk HR.
  assert (Hstep : step st (t, a) =
            match toks (thr st t) with
            | [] => st
            | (d, f) :: r => mkS (hd st) (hf st) (next st) (updN (thr st) t (mkT d f r))
            end) by (destruct a; try discriminate; reflexivity).
  assert (Hsub : forall u b, In b (updN own t (tl (own t)) u) -> In b (own u)).
  { intros u b. destruct (Nat.eq_dec u t) as [->|Hne].
    - rewrite updN_same. destruct (own t); [intros []|right; assumption].
    - rewrite updN_other by exact Hne. auto. }
  assert (Hshape := stack_shape _ _ _ t HR).
  destruct HR as [Hst Hrg Hnd Hdj Hloc Hgl Hnx].
  assert (Hheap : forall b, cell (step st (t, a)) b = cell st b /\ next (step st (t, a)) = next st).
  { rewrite Hstep. destruct (toks (thr st t)) as [|[d f] r]; split; reflexivity. }
  constructor.
  - intros u. destruct (Nat.eq_dec u t) as [->|Hne].
    + rewrite Hstep, updN_same.
      destruct Hshape as [(Ho & Hd & Hf & Ht & _) | (c & l & Ho & _ & _ & Ht & _)]; rewrite Ho, Ht.
      * simpl. rewrite Hd, Hf, Ht. reflexivity.
      * destruct l; simpl; rewrite updN_same; reflexivity.
    + rewrite updN_other by exact Hne. rewrite <- Hst, Hstep.
      destruct (toks (thr st t)) as [|[d f] r]; simpl; rewrite ?updN_other by exact Hne; reflexivity.
  - intros u b Hin. rewrite (proj2 (Hheap 0)). apply (Hrg u), Hsub, Hin.
  - intros u. destruct (Nat.eq_dec u t) as [->|Hne].
    + rewrite updN_same. specialize (Hnd t). destruct (own t); [assumption | now apply NoDup_cons_iff in Hnd].
    + rewrite updN_other by exact Hne. apply Hnd.
  - intros u v b Hu Hv. eapply Hdj; eauto.
  - intros u. rewrite (map_ext _ _ (fun b => proj1 (Hheap b))).
    destruct (Nat.eq_dec u t) as [->|Hne].
    + rewrite sstep_sl_self, Hk, updN_same, <- Hloc. destruct (own t); reflexivity.
    + rewrite sstep_sl_other, updN_other by exact Hne. apply Hloc.
  - rewrite (proj1 (Hheap 0)), sstep_sg_local by (left; destruct a; try discriminate; reflexivity). exact Hgl.
  - rewrite (proj2 (Hheap 0)). exact Hnx.
Qed.

(* a call of t mutates the one object c that t reaches, and c is the head of own t or the global 0 *)
Lemma R_call st sp own t a : akind a = KCall -> R st sp own -> R (step st (t, a)) (sstep sp (t, a)) own.
Proof.
  intros Hk HR. assert (Hshape := stack_shape _ _ _ t HR).
  destruct HR as [Hst Hrg Hnd Hdj Hloc Hgl Hnx].
  remember (curd (thr st t)) as c eqn:Ec.
  assert (Hf : curf (thr st t) = c).
  { destruct Hshape as [(_ & Hd & Hf & _) | (a' & _ & _ & Hd & Hf & _)]; congruence. }
  assert (Hframe : thr (step st (t, a)) = thr st /\ next (step st (t, a)) = next st)
    by (destruct a; try discriminate; split; reflexivity).
  destruct Hframe as [Hthr Hnext].
  assert (Hc : cell (step st (t, a)) c = apply_act (cell st c) a).
  { destruct a; try discriminate; unfold cell, step; simpl; rewrite <- ?Ec, ?Hf, ?updN_same; reflexivity. }
  assert (Hb : forall b, b <> c -> cell (step st (t, a)) b = cell st b).
  { intros b Hb.
    destruct a; try discriminate; unfold cell, step; simpl; rewrite <- ?Ec, ?Hf, ?updN_other by exact Hb; reflexivity. }
  assert (Hn : forall l, ~ In c l -> map (cell (step st (t, a))) l = map (cell st) l).
  { intros l Hl. apply map_ext_in. intros b Hin. apply Hb. intros ->. contradiction. }
  assert (Hrest : forall u, sl (sstep sp (t, a)) u = map (cell (step st (t, a))) (own u) /\
                            sg (sstep sp (t, a)) = cell (step st (t, a)) 0).
  { intros u. rewrite sstep_sg.
    destruct Hshape as [(Ho & Hd & _ & _ & Hl) | (a' & l & Ho & Hd & _ & _ & Hl & Ha & Hnin)]; rewrite Hl.
    - (* outside every context: the global object is mutated *)
      rewrite Hd in *. rewrite Hn by (intros Hin; apply Hrg in Hin; lia). rewrite Hloc, Hc, Hgl.
      split; [|reflexivity].
      destruct (Nat.eq_dec u t) as [->|Hne]; [rewrite sstep_sl_self, Hk, Hl; reflexivity | apply sstep_sl_other, Hne].
    - subst a'. rewrite Hb by lia. split; [|symmetry; exact Hgl].
      destruct (Nat.eq_dec u t) as [->|Hne].
      + rewrite sstep_sl_self, Hk, Hl, Ho. simpl. rewrite Hc, (Hn l) by exact Hnin. reflexivity.
      + rewrite sstep_sl_other by exact Hne. rewrite Hn, Hloc; [reflexivity|].
        intros Hin. apply Hne. apply (Hdj u t c Hin). rewrite Ho. left; reflexivity. }
  constructor; rewrite ?Hthr, ?Hnext; auto.
  - intros u. symmetry. apply Hrest.
  - symmetry. apply (Hrest 0).
Qed.

Lemma R_step st sp own x : R st sp own -> exists own', R (step st x) (sstep sp x) own'.
Proof.
  intros HR. destruct x as [t a]. destruct (akind a) eqn:K.
  - destruct a; try discriminate. eexists. exact (R_enter _ _ _ t HR).
  - eexists. exact (R_exit _ _ _ t a K HR).
  - eexists. exact (R_call _ _ _ t a K HR).
Qed.

Lemma R_run_from s : forall st sp own, R st sp own -> exists own', R (run_from st s) (srun sp s) own'.
Proof.
  induction s as [|x s IH]; intros st sp own HR.
  - exists own. exact HR.
  - destruct (R_step _ _ _ x HR) as [own1 H1]. exact (IH _ _ _ H1).
Qed.

Lemma R_run d0 f0 s : exists own, R (run d0 f0 s) (srun (sinit d0 f0) s) own.
Proof. exact (R_run_from s _ _ _ (R_init d0 f0)). Qed.

(* the heap model refines the private-stack semantics: for EVERY schedule and every thread *)
Lemma refinement d0 f0 s t : seen (run d0 f0 s) t = stop (srun (sinit d0 f0) s) t.
Proof. destruct (R_run d0 f0 s) as [own HR]. eapply seen_stop; eauto. Qed.

Lemma refinement_depth d0 f0 s t : depth (run d0 f0 s) t = length (sl (srun (sinit d0 f0) s) t).
Proof. destruct (R_run d0 f0 s) as [own HR]. eapply depth_len; eauto. Qed.

Lemma refinement_global d0 f0 s : cell (run d0 f0 s) 0 = sg (srun (sinit d0 f0) s).
Proof. destruct (R_run d0 f0 s) as [own HR]. exact (R_glob _ _ _ HR). Qed.

Lemma run_app d0 f0 s1 s2 : run d0 f0 (s1 ++ s2) = run_from (run d0 f0 s1) s2.
Proof. apply fold_left_app. Qed.

Lemma global_spec s : forall sp dep, (forall t, length (sl sp t) = dep t) ->
  sg (srun sp s) = fold_left apply_act (global_acts dep s) (sg sp).
Proof.
  induction s as [|[t a] s IH]; intros sp dep Hd; [reflexivity|].
  change (srun sp ((t, a) :: s)) with (srun (sstep sp (t, a)) s). rewrite global_acts_cons.
  assert (Hlen : forall dep', dep' t = length (sl (sstep sp (t, a)) t) -> (forall u, u <> t -> dep' u = dep u) ->
            forall u, length (sl (sstep sp (t, a)) u) = dep' u).
  { intros dep' Ht Ho u. destruct (Nat.eq_dec u t) as [->|Hne]; [auto|].
    rewrite sstep_sl_other, Ho by exact Hne. apply Hd. }
  pose proof (sstep_sl_self sp t a) as Hs. pose proof (sstep_sg sp t a) as Hg.
  specialize (Hd t). destruct (akind a) eqn:K.
  - rewrite (IH _ (updN dep t (S (dep t)))).
    + rewrite Hg, apply_act_bracket by congruence. destruct (sl sp t); reflexivity.
    + apply Hlen; [rewrite updN_same, Hs, <- Hd; reflexivity | intros; apply updN_other; assumption].
  - rewrite (IH _ (updN dep t (pred (dep t)))).
    + rewrite Hg, apply_act_bracket by congruence. destruct (sl sp t); reflexivity.
    + apply Hlen; [rewrite updN_same, Hs, <- Hd; destruct (sl sp t); reflexivity | intros; apply updN_other; assumption].
  - rewrite (IH _ dep).
    + rewrite Hg, <- Hd. destruct (sl sp t); reflexivity.
    + apply Hlen; [rewrite Hs, <- Hd; destruct (sl sp t); reflexivity | reflexivity].
Qed.

(* sp is sp' with the registries `extra` pushed on the stack of t: what the open blocks of an
   enter..exit episode of t add to the state reached by the same schedule without t's actions *)
Definition Q (t : nat) (sp sp' : sstate) (extra : list reg) : Prop :=
  sg sp = sg sp' /\ (forall u, u <> t -> sl sp u = sl sp' u) /\ sl sp t = extra ++ sl sp' t.

Lemma Q_enter t sp : Q t (sstep sp (t, AEnter)) sp [stop sp t].
Proof.
  split; [reflexivity|split].
  - intros v Hv. apply sstep_sl_other. exact Hv.
  - apply sstep_sl_self.
Qed.

Lemma Q_other_step t sp sp' extra u a : u <> t -> Q t sp sp' extra ->
  Q t (sstep sp (u, a)) (sstep sp' (u, a)) extra.
Proof.
  intros Hne (Hg & Ho & Ht).
  assert (Hu : sl sp u = sl sp' u) by (apply Ho; exact Hne).
  assert (Hs : stop sp u = stop sp' u) by (unfold stop; rewrite Hu, Hg; reflexivity).
  split; [|split].
  - rewrite !sstep_sg, Hu, Hg. reflexivity.
  - intros v Hv. destruct (Nat.eq_dec v u) as [->|Hvu].
    + rewrite !sstep_sl_self, Hu, Hs. reflexivity.
    + rewrite !sstep_sl_other by exact Hvu. apply Ho. exact Hv.
  - rewrite !sstep_sl_other by (intros ->; apply Hne; reflexivity). exact Ht.
Qed.

(* While t is inside the blocks `extra ++ [r]` (d = length extra of them opened after the episode's
   own), its steps act on these registries alone, and the steps of the others do not see them. *)
Lemma episode_spec t s : forall sp sp' extra r d l,
  Q t sp sp' (extra ++ [r]) -> length extra = d -> own_acts t d s = Some l ->
  Q t (srun sp s) (srun sp' (others t s)) [fold_left apply_act l r].
Proof.
  induction s as [|[u a] s IH]; intros sp sp' extra r d l HQ Hlen Hown.
  - simpl in Hown. destruct d; [|discriminate]. destruct extra; [|discriminate].
    injection Hown as <-. exact HQ.
  - change (srun sp ((u, a) :: s)) with (srun (sstep sp (u, a)) s). simpl others.
    destruct (Nat.eq_dec u t) as [->|Hne].
    + rewrite own_acts_self in Hown. rewrite Nat.eqb_refl. simpl.
      assert (Hkeep : forall X, sl (sstep sp (t, a)) t = X ++ sl sp' t -> Q t (sstep sp (t, a)) sp' X).
      { destruct HQ as (Hg & Ho & Ht). intros X HX. split; [|split; [|exact HX]].
        - rewrite sstep_sg_local; [exact Hg|]. right. rewrite Ht. destruct extra; discriminate.
        - intros v Hv. rewrite sstep_sl_other by exact Hv. apply Ho. exact Hv. }
      destruct HQ as (_ & _ & Ht). pose proof (sstep_sl_self sp t a) as Hs. rewrite Ht in Hs.
      destruct (akind a).
      * apply (IH _ _ (stop sp t :: extra) r (S d) l); [apply Hkeep; rewrite Hs; reflexivity | simpl; lia | exact Hown].
      * destruct d as [|d']; [discriminate|]. destruct extra as [|e extra']; [discriminate|].
        apply (IH _ _ extra' r d' l); [apply Hkeep; rewrite Hs; reflexivity | simpl in Hlen; lia | exact Hown].
      * destruct extra as [|e extra']; subst d.
        -- destruct (own_acts t 0 s) as [l'|] eqn:El; [|discriminate]. injection Hown as <-.
           apply (IH _ _ [] (apply_act r a) 0 l'); [apply Hkeep; rewrite Hs; reflexivity | reflexivity | exact El].
        -- apply (IH _ _ (apply_act e a :: extra') r (S (length extra')) l);
             [apply Hkeep; rewrite Hs; reflexivity | reflexivity | exact Hown].
    + simpl in Hown. apply Nat.eqb_neq in Hne as E. rewrite E in *. simpl.
      apply (IH _ _ extra r d l); [|exact Hlen|exact Hown].
      apply Q_other_step; assumption.
Qed.

Lemma L_view_is_own_history d0 f0 s1 s2 t l :
  own_acts t 0 s2 = Some l ->
  seen (run d0 f0 (s1 ++ (t, AEnter) :: s2)) t = fold_left apply_act l (seen (run d0 f0 s1) t).
Proof.
  intros Hown. rewrite !refinement, srun_app. set (sp1 := srun (sinit d0 f0) s1).
  destruct (episode_spec t s2 _ _ [] _ 0 l (Q_enter t sp1) eq_refl Hown) as (_ & _ & Ht).
  unfold stop at 1. change (srun sp1 ((t, AEnter) :: s2)) with (srun (sstep sp1 (t, AEnter)) s2).
  rewrite Ht. reflexivity.
Qed.

Lemma L_no_leak_global d0 f0 s :
  cell (run d0 f0 s) 0 = fold_left apply_act (global_acts (fun _ => 0) s) (d0, f0).
Proof. rewrite refinement_global. apply global_spec. reflexivity. Qed.

Lemma L_outside_sees_global d0 f0 s t : depth (run d0 f0 s) t = 0 ->
  seen (run d0 f0 s) t = fold_left apply_act (global_acts (fun _ => 0) s) (d0, f0).
Proof.
  intros Hd. rewrite <- L_no_leak_global. rewrite refinement, refinement_global.
  rewrite refinement_depth in Hd. unfold stop. destruct (sl (srun (sinit d0 f0) s) t); [reflexivity|discriminate].
Qed.

Lemma L_episode_invisible d0 f0 s1 s2 t l x u :
  own_acts t 0 s2 = Some l -> (x = AExit \/ x = AExitExn) ->
  seen (run d0 f0 (s1 ++ (t, AEnter) :: s2 ++ [(t, x)])) u = seen (run d0 f0 (s1 ++ others t s2)) u.
Proof.
  intros Hown Hx. rewrite !refinement, !srun_app. set (sp1 := srun (sinit d0 f0) s1).
  change (srun sp1 ((t, AEnter) :: s2 ++ [(t, x)])) with (srun (sstep sp1 (t, AEnter)) (s2 ++ [(t, x)])).
  rewrite srun_app.
  destruct (episode_spec t s2 _ _ [] _ 0 l (Q_enter t sp1) eq_refl Hown) as (Hg & Ho & Ht).
  set (spA := srun (sstep sp1 (t, AEnter)) s2) in *. set (spB := srun sp1 (others t s2)) in *.
  change (srun spA [(t, x)]) with (sstep spA (t, x)).
  assert (Hk : akind x = KExit) by (destruct Hx as [-> | ->]; reflexivity).
  assert (Hsl : forall v, sl (sstep spA (t, x)) v = sl spB v).
  { intros v. destruct (Nat.eq_dec v t) as [->|Hv].
    - rewrite sstep_sl_self, Hk, Ht. reflexivity.
    - rewrite sstep_sl_other by exact Hv. apply Ho. exact Hv. }
  unfold stop. rewrite Hsl, sstep_sg_local, Hg; [reflexivity|].
  left. destruct Hx as [-> | ->]; reflexivity.
Qed.

Lemma L_exit_restores_nested d0 f0 s1 s2 t l x :
  own_acts t 0 s2 = Some l -> (x = AExit \/ x = AExitExn) -> 1 <= depth (run d0 f0 s1) t ->
  seen (run d0 f0 (s1 ++ (t, AEnter) :: s2 ++ [(t, x)])) t = seen (run d0 f0 s1) t.
Proof.
  intros Hown Hx Hd. rewrite (L_episode_invisible _ _ _ _ _ l) by assumption.
  rewrite !refinement. rewrite refinement_depth in Hd. rewrite srun_app.
  unfold stop. rewrite (srun_sl_others t) by apply others_not.
  destruct (sl (srun (sinit d0 f0) s1) t); [simpl in Hd; lia|reflexivity].
Qed.

Lemma L_other_threads_unaffected d0 f0 s t u a : u <> t ->
  (bracket_or_list a = true \/ 1 <= depth (run d0 f0 s) t) ->
  seen (step (run d0 f0 s) (t, a)) u = seen (run d0 f0 s) u.
Proof.
  intros Hne H.
  change (step (run d0 f0 s) (t, a)) with (run_from (run d0 f0 s) [(t, a)]). rewrite <- run_app.
  rewrite !refinement, srun_app. simpl. apply sstep_stop_other; [exact Hne|].
  destruct H as [H|H]; [left; exact H|right].
  rewrite refinement_depth in H. destruct (sl (srun (sinit d0 f0) s) t); [simpl in H; lia|discriminate].
Qed.

Lemma L_list_copy_isolated st t op r :
  step st (t, AList op) = st /\ step st (t, AListMut op r) = st.
Proof. split; reflexivity. Qed.
