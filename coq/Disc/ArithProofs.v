(* C56: lemmas about the classical reversible model (Disc/ArithModel.v).
   Every ladder (SemiAdder, elbow Incrementer, MultiControlledX Incrementer) is a recursion over the
   little-endian wire list, and is proved by induction on that list with one shape of statement: the
   sub-circuit runs (every TemporaryAND inside its domain), leaves all wires outside the target bits as they
   were, and adds (the other operand + the incoming carry) onto the remaining target bits modulo 2^(their
   number); the incoming carry is the bit on the carry wire c (adder_body), c AND the first listed wire
   (inc_lvl, whose list starts one wire below its target bits), the conjunction of all wires below
   (mcx_ladder).  The arithmetic of each induction step is `bit_carry`; the truth table of
   the block is `half_adder` / `full_adder`.  The big-endian theorems at the end reverse the wire lists.
   `zeroed`, `cmp_inputs_ok` and `cmp_all_ok` are the specification-side definitions the theorems of
   Props/C56.v are stated with. *)
From Coq Require Import List ZArith Bool Lia Arith.
From PLV Require Import Alg.ListFacts Disc.ArithModel.
Import ListNotations.
Open Scope Z_scope.

Lemma upd_same : forall s i b, upd s i b i = b.
Proof. intros; unfold upd; now rewrite Nat.eqb_refl. Qed.
Lemma upd_other : forall s i b j, j <> i -> upd s i b j = s j.
Proof. intros s i b j H; unfold upd. destruct (Nat.eqb_spec j i); [contradiction | reflexivity]. Qed.

Lemma eqb_t : forall b, Bool.eqb b true = b.
Proof. destruct b; reflexivity. Qed.

Lemma run_app : forall a b s, run (a ++ b) s = match run a s with Some s1 => run b s1 | None => None end.
Proof.
  induction a as [|g a IH]; intros b s; cbn [run app]; [reflexivity|].
  destruct (apply_gate g s); [apply IH | reflexivity].
Qed.

(* one step of `run` per ladder gate; the hypothesis of run_AND / run_ANDadj is the gate's documented domain *)
Lemma run_CNOT : forall c t r s, run (CNOT c t :: r) s = run r (upd s t (xorb (s t) (s c))).
Proof. intros. cbn [run apply_gate CNOT ctrl_ok forallb fst snd]. now rewrite eqb_t, andb_true_r. Qed.

Lemma run_XG : forall t r s, run (XG t :: r) s = run r (upd s t (xorb (s t) true)).
Proof. reflexivity. Qed.

Lemma run_AND : forall a b t r s, s t = false -> run (AND a b t :: r) s = run r (upd s t (s a && s b)).
Proof.
  intros a b t r s H. cbn [run apply_gate AND ctrl_ok forallb fst snd]. now rewrite H, !eqb_t, andb_true_r.
Qed.

Lemma run_ANDadj : forall a b t r s, s t = (s a && s b) -> run (ANDadj a b t :: r) s = run r (upd s t false).
Proof.
  intros a b t r s H. cbn [run apply_gate ANDadj ctrl_ok forallb fst snd].
  now rewrite H, !eqb_t, andb_true_r, xorb_nilpotent.
Qed.

(* reads a wire through a chain of updates on known-distinct wires *)
Ltac upd_simpl := repeat (rewrite upd_same || rewrite upd_other by auto).

Definition zeroed (s : st) (l : list nat) : Prop := forall w, In w l -> s w = false.

Lemma zeroed_tail_upd : forall s w ws b, zeroed s (w :: ws) -> ~ In w ws -> zeroed (upd s w b) ws.
Proof. intros s w ws b Hz Hw v Hv. rewrite upd_other; [apply Hz; now right | intro; subst; contradiction]. Qed.

(* two disjoint lists: their heads differ, neither head is in the other tail, and the tails are disjoint *)
Lemma disj_cons : forall (a b : nat) l m, (forall w, In w (a :: l) -> ~ In w (b :: m)) ->
  a <> b /\ ~ In a m /\ ~ In b l /\ (forall w, In w l -> ~ In w m).
Proof.
  intros a b l m H. repeat split.
  - intros ->. apply (H b); now left.
  - intro Hin. apply (H a); [now left | now right].
  - intro Hin. apply (H b); [now right | now left].
  - intros w Hw Hin. apply (H w); now right.
Qed.

Lemma val_le_ext : forall l s t, (forall w, In w l -> s w = t w) -> val_le s l = val_le t l.
Proof.
  induction l as [|w l IH]; intros s t H; cbn [val_le]; [reflexivity|].
  rewrite (H w (or_introl eq_refl)), (IH s t); [reflexivity | intros; apply H; now right].
Qed.

Lemma val_le_upd : forall l s w b, ~ In w l -> val_le (upd s w b) l = val_le s l.
Proof. intros l s w b H. apply val_le_ext. intros v Hv. apply upd_other. intro; subst; contradiction. Qed.

Lemma val_le_range : forall l s, 0 <= val_le s l < 2 ^ Z.of_nat (length l).
Proof.
  induction l as [|w l IH]; intros s; cbn [val_le length]; [cbn; lia|].
  rewrite Nat2Z.inj_succ, Z.pow_succ_r by lia. specialize (IH s). destruct (s w); cbn [b2z]; lia.
Qed.

Lemma val_le_zeroed : forall l s, zeroed s l -> val_le s l = 0.
Proof.
  induction l as [|w l IH]; intros s H; cbn [val_le]; [reflexivity|].
  rewrite (H w (or_introl eq_refl)), IH; [reflexivity | intros v Hv; apply H; now right].
Qed.

Lemma bit_mod : forall b A m, 0 < m -> 0 <= b < 2 -> b + 2 * (A mod m) = (b + 2 * A) mod (2 * m).
Proof.
  intros b A m Hm Hb.
  pose proof (Z.mod_pos_bound A m Hm) as HR.
  pose proof (Z.div_mod A m ltac:(lia)) as HD.
  apply Z.mod_unique with (q := A / m); [left; lia | nia].
Qed.

Lemma b2z_range : forall b, 0 <= b2z b < 2.
Proof. destruct b; cbn; lia. Qed.

(* the arithmetic of every induction step: A mod 2^n is what the induction hypothesis gives for the higher
   bits, b the bit below them; the caller shows b + 2A = R (the wanted sum) from a truth table *)
Lemma bit_carry : forall (n : nat) b A R, b2z b + 2 * A = R ->
  b2z b + 2 * (A mod 2 ^ Z.of_nat n) = R mod 2 ^ Z.of_nat (S n).
Proof.
  intros n b A R <-. rewrite Nat2Z.inj_succ, Z.pow_succ_r by lia.
  apply bit_mod; [apply pow2_pos | apply b2z_range].
Qed.

Lemma qubit_sum_ok : forall a b c s, a <> c -> b <> c ->
  exists s', run (qubit_sum a b c) s = Some s' /\
             s' c = xorb (s a) (xorb (s b) (s c)) /\ (forall i, i <> c -> s' i = s i).
Proof.
  intros a b c s Hac Hbc. eexists; split; [reflexivity|]. split.
  - cbn [ctrl_ok forallb fst snd]. rewrite upd_same, (upd_other _ _ _ a Hac), upd_same.
    destruct (s a), (s b), (s c); reflexivity.
  - intros i Hi. now rewrite !upd_other.
Qed.

Lemma qubit_carry_ok : forall a b c d s, a <> c -> a <> d -> b <> c -> b <> d -> c <> d ->
  exists s', run (qubit_carry a b c d) s = Some s' /\
             s' c = xorb (s b) (s c) /\
             s' d = xorb (andb (s b) (s c)) (xorb (s d) (andb (xorb (s b) (s c)) (s a))) /\
             (forall i, i <> c -> i <> d -> s' i = s i).
Proof.
  intros a b c d s Hac Had Hbc Hbd Hcd. eexists; split; [reflexivity|].
  cbn [ctrl_ok forallb fst snd]. repeat split.
  - rewrite (upd_other _ d _ c Hcd), upd_same, (upd_other _ d _ c Hcd), (upd_other _ d _ b Hbd).
    destruct (s b), (s c); reflexivity.
  - rewrite upd_same, (upd_other _ c _ d (not_eq_sym Hcd)), upd_same,
            (upd_other _ c _ a Hac), (upd_other _ d _ a Had), upd_same,
            (upd_other _ d _ c Hcd), (upd_other _ d _ b Hbd).
    destruct (s a), (s b), (s c), (s d); reflexivity.
  - intros i Hc Hd. now rewrite !upd_other.
Qed.

Lemma temporary_and_ok : forall cv0 cv1 a b t s, a <> t -> b <> t -> s t = false ->
  exists s', run (temporary_and cv0 cv1 a b t) s = Some s' /\
             s' t = andb (Bool.eqb (s a) cv0) (Bool.eqb (s b) cv1) /\ (forall i, i <> t -> s' i = s i).
Proof.
  intros cv0 cv1 a b t s Ha Hb Ht. unfold temporary_and. cbn [run apply_gate]. rewrite Ht.
  eexists; split; [reflexivity|]. split.
  - rewrite upd_same. cbn [ctrl_ok forallb fst snd]. now rewrite andb_true_r.
  - intros i Hi. now rewrite upd_other.
Qed.

Lemma temporary_and_adj_ok : forall cv0 cv1 a b t s, a <> t -> b <> t ->
  s t = andb (Bool.eqb (s a) cv0) (Bool.eqb (s b) cv1) ->
  exists s', run [GAndAdj [(a, cv0); (b, cv1)] t] s = Some s' /\ s' t = false /\ (forall i, i <> t -> s' i = s i).
Proof.
  intros cv0 cv1 a b t s Ha Hb Ht. cbn [run apply_gate ctrl_ok forallb fst snd]. rewrite Ht, andb_true_r, xorb_nilpotent.
  eexists; split; [reflexivity|]. split; [apply upd_same | intros i Hi; now rewrite upd_other].
Qed.

(* outside its documented domain the elbow is rejected by the model *)
Lemma temporary_and_domain : forall cs t s, s t = true -> run [GAnd cs t] s = None.
Proof. intros cs t s H. cbn [run apply_gate]. now rewrite H. Qed.

Lemma half_adder : forall r k, b2z (xorb r k) + 2 * b2z (k && r) = b2z r + b2z k.
Proof. destruct r, k; reflexivity. Qed.
Lemma full_adder : forall x y c,
  b2z (xorb (xorb x y) c) + 2 * b2z (xorb (andb (xorb x c) (xorb y c)) c) = b2z x + b2z y + b2z c.
Proof. destruct x, y, c; reflexivity. Qed.

Lemma inc_lvl_step : forall c ri rn rs wi ws,
  inc_lvl c (ri :: rn :: rs) (wi :: ws) = AND c ri wi :: inc_lvl wi (rn :: rs) ws ++ [CNOT wi rn; ANDadj c ri wi].
Proof. reflexivity. Qed.

Lemma inc_lvl_spec : forall rs c ws s,
  NoDup rs -> NoDup ws -> ~ In c rs -> ~ In c ws -> (forall w, In w rs -> ~ In w ws) ->
  (length rs <= S (length ws))%nat -> zeroed s ws ->
  exists s', run (inc_lvl c rs ws) s = Some s' /\
    (forall i, ~ In i (tl rs) -> s' i = s i) /\
    val_le s' (tl rs) = (val_le s (tl rs) + b2z (s c && s (hd O rs))) mod 2 ^ Z.of_nat (length (tl rs)).
Proof.
  induction rs as [|ri rs' IH]; intros c ws s Hrs Hws Hcr Hcw Hd Hlen Hz.
  - exists s. cbn. repeat split; auto. now rewrite Z.mod_1_r.
  - destruct rs' as [|rn rs''].
    + exists s. cbn. repeat split; auto. now rewrite Z.mod_1_r.
    + destruct ws as [|wi ws']; [cbn in Hlen; lia|].
      apply NoDup_cons_iff in Hrs as [Hri Hrs], Hws as [Hwi Hws].
      apply not_in_cons in Hcr as [Hcri Hcr], Hcw as [Hcwi Hcw].
      apply disj_cons in Hd as (Hriwi & _ & Hwirs & Hd).
      assert (Hzwi : s wi = false) by (apply Hz; now left).
      rewrite inc_lvl_step, run_AND by exact Hzwi. set (s1 := upd s wi (s c && s ri)).
      destruct (IH wi ws' s1 Hrs Hws Hwirs Hwi Hd ltac:(cbn [length] in *; lia)
                  ltac:(apply zeroed_tail_upd; assumption)) as (s2 & Hrun2 & Hfr2 & Hval2).
      apply NoDup_cons_iff in Hrs as [Hrn Hrs].
      apply not_in_cons in Hcr as [Hcrn Hcr], Hri as [Hrirn Hri], Hwirs as [Hwirn Hwirs].
      cbn [tl hd length] in *.
      assert (H2 : s2 wi = (s c && s ri) /\ s2 c = s c /\ s2 ri = s ri /\ s2 rn = s rn).
      { rewrite !Hfr2 by assumption. unfold s1. upd_simpl. auto. }
      destruct H2 as (H2wi & H2c & H2ri & H2rn).
      rewrite run_app, Hrun2, run_CNOT, run_ANDadj by (upd_simpl; now rewrite H2wi, H2c, H2ri).
      eexists; split; [reflexivity|]. split.
      * intros i Hi. apply not_in_cons in Hi as [Hirn Hirs].
        destruct (Nat.eq_dec i wi) as [->|Hiw]; upd_simpl; [now rewrite Hzwi|].
        rewrite Hfr2 by assumption. unfold s1. now upd_simpl.
      * cbn [val_le]. rewrite !val_le_upd, Hval2 by assumption. upd_simpl. rewrite H2rn, H2wi.
        unfold s1. rewrite val_le_upd by assumption. upd_simpl.
        apply bit_carry. pose proof (half_adder (s rn) (s c && s ri)). lia.
Qed.

Lemma In_firstn_self : forall (l : list nat) n x, In x (firstn n l) -> In x l.
Proof.
  induction l as [|a l IH]; intros [|n] x H; cbn [firstn] in H; try contradiction.
  destruct H as [->|H]; [now left | right; eapply IH; eauto].
Qed.
Lemma notin_firstn : forall (l : list nat) n x, ~ In x l -> ~ In x (firstn n l).
Proof. intros l n x H Hin. apply H. eapply In_firstn_self; eauto. Qed.
Lemma NoDup_firstn : forall (l : list nat) n, NoDup l -> NoDup (firstn n l).
Proof.
  induction l as [|a l IH]; intros [|n] H; cbn [firstn]; try constructor.
  - inversion H; subst. intro Hin. apply In_firstn_self in Hin. contradiction.
  - inversion H; subst. now apply IH.
Qed.

Lemma val_le_firstn : forall l n s, val_le s (firstn n l) = val_le s l mod 2 ^ Z.of_nat n.
Proof.
  induction l as [|w l IH]; intros n s.
  - rewrite firstn_nil. cbn [val_le]. now rewrite Z.mod_0_l by (pose proof (pow2_pos n); lia).
  - destruct n as [|n]; cbn [firstn val_le]; [now rewrite Z.mod_1_r|].
    rewrite IH. apply bit_carry. reflexivity.
Qed.

Lemma incrementer_le_spec : forall rs ws s,
  NoDup rs -> NoDup ws -> (forall w, In w rs -> ~ In w ws) ->
  (length rs <= S (length ws))%nat -> zeroed s ws ->
  exists s', run (inc_le rs ws) s = Some s' /\
    (forall i, ~ In i rs -> s' i = s i) /\
    val_le s' rs = (val_le s rs + 1) mod 2 ^ Z.of_nat (length rs).
Proof.
  intros rs ws s Hrs Hws Hd Hlen Hz.
  destruct rs as [|r0 rs']; [exists s; cbn; repeat split; auto|].
  destruct rs' as [|r1 rs''].
  - eexists; split; [reflexivity|]. split.
    + intros i Hi. rewrite upd_other; [reflexivity | intro; subst; apply Hi; now left].
    + cbn [val_le length ctrl_ok forallb]. rewrite upd_same. destruct (s r0); reflexivity.
  - apply NoDup_cons_iff in Hrs as [Hr0 Hrs].
    destruct (inc_lvl_spec (r1 :: rs'') r0 ws s Hrs Hws Hr0
                ltac:(apply Hd; now left)
                ltac:(intros w Hw; apply Hd; now right)
                ltac:(cbn [length] in *; lia) Hz) as (s2 & Hrun & Hfr & Hval).
    cbn [tl hd length] in *.
    apply NoDup_cons_iff in Hrs as [Hr1 Hrs]. apply not_in_cons in Hr0 as [H01 Hr0].
    assert (H2r0 : s2 r0 = s r0) by (apply Hfr; assumption).
    assert (H2r1 : s2 r1 = s r1) by (apply Hfr; assumption).
    unfold inc_le. rewrite run_app, Hrun, run_CNOT, run_XG.
    eexists; split; [reflexivity|]. split.
    + intros i Hi. rewrite !upd_other by (intro; subst; apply Hi; cbn; auto).
      apply Hfr. intro; apply Hi; right; now right.
    + cbn [val_le]. rewrite !val_le_upd, Hval by assumption. upd_simpl.
      rewrite H2r0, H2r1, (bit_carry _ _ _ _ eq_refl). apply bit_carry.
      destruct (s r0), (s r1); cbn [b2z xorb andb]; lia.
Qed.

Lemma adder_body_step_x : forall c xi xs yi yn ys wi ws,
  adder_body c (xi :: xs) (yi :: yn :: ys) (wi :: ws) =
  [CNOT c xi; CNOT c yi; AND xi yi wi; CNOT c wi] ++ adder_body wi xs (yn :: ys) ws
  ++ [CNOT c wi; ANDadj xi yi wi; CNOT c xi; CNOT xi yi].
Proof. reflexivity. Qed.
Lemma adder_body_step_0 : forall c yi yn ys wi ws,
  adder_body c [] (yi :: yn :: ys) (wi :: ws) =
  [AND c yi wi] ++ adder_body wi [] (yn :: ys) ws ++ [ANDadj c yi wi; CNOT c yi].
Proof. reflexivity. Qed.

(* a half-adder block around a circuit that adds xs and the carry held by the work wire w onto ys:
   the whole adds bit a and xs (one place up) onto y :: ys *)
Lemma half_block : forall a y w xs ys inner s,
  a <> y -> a <> w -> y <> w -> ~ In a ys -> ~ In y ys -> ~ In w ys -> ~ In w xs -> s w = false ->
  (exists s2, run inner (upd s w (s a && s y)) = Some s2 /\
     (forall i, ~ In i ys -> s2 i = upd s w (s a && s y) i) /\
     val_le s2 ys = (val_le (upd s w (s a && s y)) xs + val_le (upd s w (s a && s y)) ys
                     + b2z (upd s w (s a && s y) w)) mod 2 ^ Z.of_nat (length ys)) ->
  exists s', run ([AND a y w] ++ inner ++ [ANDadj a y w; CNOT a y]) s = Some s' /\
    (forall i, ~ In i (y :: ys) -> s' i = s i) /\
    val_le s' (y :: ys) =
      (b2z (s a) + 2 * val_le s xs + val_le s (y :: ys)) mod 2 ^ Z.of_nat (length (y :: ys)).
Proof.
  intros a y w xs ys inner s Hay Haw Hyw Ha Hy Hw Hwx Hz (s2 & Hrun & Hfr & Hval).
  set (s1 := upd s w (s a && s y)) in *.
  assert (H2w : s2 w = (s a && s y)) by (rewrite Hfr by assumption; apply upd_same).
  assert (H2a : s2 a = s a) by (rewrite Hfr by assumption; unfold s1; now rewrite upd_other).
  assert (H2y : s2 y = s y) by (rewrite Hfr by assumption; unfold s1; now rewrite upd_other).
  set (sf := upd s2 w false).
  exists (upd sf y (xorb (sf y) (sf a))). split; [|split].
  - cbn [app]. rewrite run_AND by exact Hz. fold s1.
    rewrite run_app, Hrun, run_ANDadj by now rewrite H2w, H2a, H2y.
    fold sf. rewrite run_CNOT. reflexivity.
  - intros i Hi. rewrite upd_other by (intro; subst; apply Hi; now left).
    unfold sf, upd at 1. destruct (Nat.eqb_spec i w) as [->|Hiw]; [now rewrite Hz|].
    rewrite Hfr by (intro Hin; apply Hi; now right). unfold s1. now rewrite upd_other.
  - cbn [val_le length]. unfold sf. rewrite !val_le_upd, Hval by assumption.
    unfold s1. rewrite !val_le_upd, !upd_same, !upd_other, H2y, H2a by auto.
    apply bit_carry. pose proof (half_adder (s y) (s a)). lia.
Qed.

Lemma adder_body_spec : forall ys c xs ws s,
  NoDup xs -> NoDup ys -> NoDup ws ->
  ~ In c xs -> ~ In c ys -> ~ In c ws ->
  (forall w, In w xs -> ~ In w ys) -> (forall w, In w xs -> ~ In w ws) -> (forall w, In w ys -> ~ In w ws) ->
  (length ys <= S (length ws))%nat -> zeroed s ws ->
  exists s', run (adder_body c xs ys ws) s = Some s' /\
    (forall i, ~ In i ys -> s' i = s i) /\
    val_le s' ys = (val_le s (firstn (length ys) xs) + val_le s ys + b2z (s c)) mod 2 ^ Z.of_nat (length ys).
Proof.
  induction ys as [|yi ys' IH]; intros c xs ws s Hxs Hys Hws Hcx Hcy Hcw Hxy Hxw Hyw Hlen Hz.
  - exists s. cbn. repeat split; auto. now rewrite Z.mod_1_r.
  - destruct ys' as [|yn ys''].
    + (* most significant bit *)
      apply not_in_cons in Hcy as [Hcyi _].
      destruct xs as [|xt xs'].
      * eexists; split; [reflexivity|]. split.
        -- intros i Hi. rewrite upd_other; [reflexivity | intro; subst; apply Hi; now left].
        -- cbn [val_le length firstn ctrl_ok forallb fst snd]. rewrite upd_same, eqb_t, andb_true_r.
           destruct (s yi), (s c); reflexivity.
      * assert (Hxtyi : xt <> yi) by (intros ->; apply (Hxy yi); now left).
        eexists; split; [reflexivity|]. split.
        -- intros i Hi. rewrite !upd_other; try reflexivity; intro; subst; apply Hi; now left.
        -- cbn [val_le length firstn ctrl_ok forallb fst snd].
           rewrite upd_same, !eqb_t, !andb_true_r, upd_same, (upd_other _ yi _ xt Hxtyi).
           destruct (s yi), (s c), (s xt); reflexivity.
    + destruct ws as [|wi ws']; [cbn in Hlen; lia|].
      apply NoDup_cons_iff in Hys as [Hyi Hys], Hws as [Hwi Hws].
      apply not_in_cons in Hcy as [Hcyi Hcy], Hcw as [Hcwi Hcw].
      apply disj_cons in Hyw as (Hyiwi & Hyiws & Hwiys & Hyw).
      assert (Hzwi : s wi = false) by (apply Hz; now left).
      destruct xs as [|xi xs'].
      * (* no bit of x left: propagate the carry *)
        rewrite adder_body_step_0.
        destruct (half_block c yi wi (firstn (length (yn :: ys'')) []) (yn :: ys'')
                    (adder_body wi [] (yn :: ys'') ws') s) as (s' & Hrun & Hfr & Hval); auto.
        { apply (IH wi [] ws' _ ltac:(constructor) Hys Hws ltac:(intros []) Hwiys Hwi
                      ltac:(intros ? []) ltac:(intros ? []) Hyw).
          - cbn [length] in *; lia.
          - apply zeroed_tail_upd; assumption. }
        exists s'. split; [exact Hrun|]. split; [exact Hfr|].
        rewrite Hval, !firstn_nil. f_equal. cbn [val_le]. lia.
      * (* full adder block *)
        apply NoDup_cons_iff in Hxs as [Hxi Hxs]. apply not_in_cons in Hcx as [Hcxi Hcx].
        apply disj_cons in Hxy as (Hxiyi & Hxiys & Hyixs & Hxy), Hxw as (Hxiwi & Hxiws & Hwixs & Hxw).
        rewrite adder_body_step_x. cbn [app].
        rewrite !run_CNOT, run_AND, run_CNOT by (upd_simpl; exact Hzwi).
        set (s1 := upd _ wi _).
        assert (E1 : forall w, w <> xi -> w <> yi -> w <> wi -> s1 w = s w)
          by (intros; unfold s1; upd_simpl; reflexivity).
        assert (Hz1 : zeroed s1 ws').
        { intros w Hw. rewrite E1; [apply Hz; now right | | |]; intros ->; contradiction. }
        destruct (IH wi xs' ws' s1 Hxs Hys Hws Hwixs Hwiys Hwi Hxy Hxw Hyw
                    ltac:(cbn [length] in *; lia) Hz1) as (s2 & Hrun2 & Hfr2 & Hval2).
        (* the bits of the block's wires in s2, in terms of s *)
        assert (H2 : s2 c = s c /\ s2 xi = xorb (s xi) (s c) /\ s2 yi = xorb (s yi) (s c) /\
                     s2 wi = xorb (xorb (s xi) (s c) && xorb (s yi) (s c)) (s c)).
        { rewrite !Hfr2 by assumption. unfold s1. upd_simpl. auto. }
        destruct H2 as (H2c & H2xi & H2yi & H2wi).
        rewrite run_app, Hrun2, run_CNOT, run_ANDadj, !run_CNOT.
        2:{ upd_simpl. rewrite H2c, H2xi, H2yi, H2wi. destruct (s xi), (s yi), (s c); reflexivity. }
        eexists; split; [reflexivity|]. split.
        -- intros i Hi. apply not_in_cons in Hi as [Hiyi Hiys].
           destruct (Nat.eq_dec i xi) as [->|Hix]; [|destruct (Nat.eq_dec i wi) as [->|Hiw]]; upd_simpl.
           ++ rewrite H2c, H2xi. destruct (s xi), (s c); reflexivity.
           ++ now rewrite Hzwi.
           ++ rewrite Hfr2 by assumption. apply E1; assumption.
        -- remember (yn :: ys'') as ys' eqn:Eys in *.
           cbn [length firstn val_le]. rewrite !val_le_upd, Hval2 by assumption. upd_simpl.
           rewrite H2c, H2xi, H2yi. unfold s1.
           rewrite !val_le_upd by auto using notin_firstn.
           upd_simpl.
           apply bit_carry. pose proof (full_adder (s xi) (s yi) (s c)).
           destruct (s xi), (s yi), (s c); cbn [b2z xorb andb] in *; lia.
Qed.

Lemma adder_le_spec : forall xs ys ws s,
  NoDup xs -> NoDup ys -> NoDup ws ->
  (forall w, In w xs -> ~ In w ys) -> (forall w, In w xs -> ~ In w ws) -> (forall w, In w ys -> ~ In w ws) ->
  xs <> [] -> (length ys <= S (length ws))%nat -> zeroed s ws ->
  exists s', run (adder_le xs ys ws) s = Some s' /\
    (forall i, ~ In i ys -> s' i = s i) /\
    val_le s' ys = (val_le s (firstn (length ys) xs) + val_le s ys) mod 2 ^ Z.of_nat (length ys).
Proof.
  intros xs ys ws s Hxs Hys Hws Hxy Hxw Hyw Hne Hlen Hz.
  destruct xs as [|x0 xs']; [congruence|]. clear Hne.
  destruct ys as [|y0 ys'].
  { exists s. cbn. repeat split; auto. }
  destruct ys' as [|y1 ys''].
  - eexists; split; [reflexivity|]. split.
    + intros i Hi. rewrite upd_other; [reflexivity | intro; subst; apply Hi; now left].
    + cbn [val_le length firstn ctrl_ok forallb fst snd]. rewrite upd_same, eqb_t, andb_true_r.
      destruct (s y0), (s x0); reflexivity.
  - destruct ws as [|w0 ws']; [cbn in Hlen; lia|].
    apply NoDup_cons_iff in Hxs as [Hx0 Hxs], Hys as [Hy0 Hys], Hws as [Hw0 Hws].
    apply disj_cons in Hxy as (Hx0y0 & Hx0ys & _ & Hxy), Hxw as (Hx0w0 & _ & Hw0xs & Hxw),
                       Hyw as (Hy0w0 & _ & Hw0ys & Hyw).
    apply (half_block x0 y0 w0 (firstn (length (y1 :: ys'')) xs') (y1 :: ys'')); auto using notin_firstn.
    { apply Hz. now left. }
    apply adder_body_spec; auto.
    + cbn [length] in *; lia.
    + apply zeroed_tail_upd; assumption.
Qed.

(* the circuit only touches the |y| low wires of x (val_le_firstn: that is x mod 2^|y|), which is the
   same sum mod 2^|y| *)
Lemma semi_adder_spec : forall xw yw ww s,
  NoDup (xw ++ yw ++ ww) -> xw <> [] -> (length yw <= S (length ww))%nat -> zeroed s ww ->
  exists s', run (semi_adder xw yw ww) s = Some s' /\
    (forall i, ~ In i yw -> s' i = s i) /\
    val_be s' yw = (val_be s xw + val_be s yw) mod 2 ^ Z.of_nat (length yw).
Proof.
  intros xw yw ww s Hnd Hne Hlen Hz.
  destruct (proj1 (NoDup_app_iff _ _) Hnd) as (Hx & Hyw & Hxd).
  destruct (proj1 (NoDup_app_iff _ _) Hyw) as (Hy & Hw & Hyd).
  set (ws := rev (firstn (length yw - 1) ww)).
  assert (Hin_ws : forall w, In w ws -> In w ww).
  { intros w Hin. unfold ws in Hin. apply in_rev in Hin. now apply In_firstn_self in Hin. }
  destruct (adder_le_spec (rev xw) (rev yw) ws s) as (s' & Hrun & Hfr & Hval).
  - now apply NoDup_rev.
  - now apply NoDup_rev.
  - unfold ws. apply NoDup_rev. now apply NoDup_firstn.
  - intros w Hx' Hy'. apply in_rev in Hx'. apply in_rev in Hy'. apply (Hxd w Hx'), in_or_app. now left.
  - intros w Hx' Hw'. apply in_rev in Hx'. apply Hin_ws in Hw'. apply (Hxd w Hx'), in_or_app. now right.
  - intros w Hy' Hw'. apply in_rev in Hy'. apply Hin_ws in Hw'. exact (Hyd w Hy' Hw').
  - intro E. apply Hne. apply (f_equal (@rev nat)) in E. now rewrite rev_involutive in E.
  - unfold ws. rewrite !rev_length, firstn_length. lia.
  - intros w Hin. apply Hz. now apply Hin_ws.
  - exists s'. split; [exact Hrun|]. split.
    + intros i Hi. apply Hfr. intro Hin. apply Hi. now apply in_rev.
    + unfold val_be. rewrite Hval, rev_length, val_le_firstn, Z.add_mod_idemp_l; [reflexivity|].
      pose proof (pow2_pos (length yw)); lia.
Qed.

Lemma incrementer_spec : forall wires work s,
  NoDup (wires ++ work) -> (length wires <= S (length work))%nat -> zeroed s work ->
  exists s', run (incrementer wires work) s = Some s' /\
    (forall i, ~ In i wires -> s' i = s i) /\
    val_be s' wires = (val_be s wires + 1) mod 2 ^ Z.of_nat (length wires).
Proof.
  intros wires work s Hnd Hlen Hz.
  destruct (proj1 (NoDup_app_iff _ _) Hnd) as (Hx & Hw & Hd).
  destruct (incrementer_le_spec (rev wires) work s) as (s' & Hrun & Hfr & Hval).
  - now apply NoDup_rev.
  - assumption.
  - intros w Hin. apply Hd. now apply in_rev.
  - now rewrite rev_length.
  - assumption.
  - exists s'. split; [exact Hrun|]. split.
    + intros i Hi. apply Hfr. intro Hin. apply Hi. now apply in_rev.
    + unfold val_be. now rewrite Hval, rev_length.
Qed.

Lemma ctrl_ok_ones_ext : forall l s t, (forall w, In w l -> s w = t w) -> ctrl_ok s (ones l) = ctrl_ok t (ones l).
Proof.
  induction l as [|a l IH]; intros s t H; cbn [ones map ctrl_ok forallb fst snd]; [reflexivity|].
  rewrite (H a (or_introl eq_refl)). f_equal. apply IH. intros; apply H; now right.
Qed.
Lemma ctrl_ok_ones_snoc : forall l a s, ctrl_ok s (ones (l ++ [a])) = ctrl_ok s (ones l) && s a.
Proof.
  induction l as [|b l IH]; intros a s; cbn [app ones map ctrl_ok forallb fst snd].
  - now rewrite eqb_t, andb_true_r.
  - unfold ctrl_ok, ones in IH. rewrite IH. now rewrite andb_assoc.
Qed.

Lemma mcx_ladder_spec : forall rest pref s,
  NoDup rest -> (forall w, In w pref -> ~ In w rest) ->
  exists s', run (mcx_ladder pref rest) s = Some s' /\
    (forall i, ~ In i rest -> s' i = s i) /\
    val_le s' rest = (val_le s rest + b2z (ctrl_ok s (ones pref))) mod 2 ^ Z.of_nat (length rest).
Proof.
  induction rest as [|t rest' IH]; intros pref s Hnd Hd.
  - exists s. cbn. repeat split; auto. now rewrite Z.mod_1_r.
  - inversion Hnd as [|? ? Ht Hnd']; subst.
    destruct (IH (pref ++ [t]) s Hnd') as (s2 & Hrun & Hfr & Hval).
    { intros w Hw Hin. apply in_app_or in Hw. destruct Hw as [Hw|[<-|[]]]; [apply (Hd w Hw); now right | contradiction]. }
    assert (H2t : s2 t = s t) by (apply Hfr; assumption).
    assert (Hc2 : ctrl_ok s2 (ones pref) = ctrl_ok s (ones pref)).
    { apply ctrl_ok_ones_ext. intros w Hw. apply Hfr. intro Hin. apply (Hd w Hw). now right. }
    exists (upd s2 t (xorb (s2 t) (ctrl_ok s2 (ones pref)))). split; [|split].
    + cbn [mcx_ladder]. rewrite run_app, Hrun. reflexivity.
    + intros i Hi. rewrite upd_other by (intro; subst; apply Hi; now left).
      apply Hfr. intro; apply Hi; now right.
    + cbn [val_le length]. rewrite upd_same, H2t, Hc2.
      rewrite val_le_upd, Hval, ctrl_ok_ones_snoc by assumption.
      apply bit_carry. pose proof (half_adder (s t) (ctrl_ok s (ones pref))). lia.
Qed.

Lemma incrementer_fallback_spec : forall wires s, NoDup wires ->
  exists s', run (incrementer_fallback wires) s = Some s' /\
    (forall i, ~ In i wires -> s' i = s i) /\
    val_be s' wires = (val_be s wires + 1) mod 2 ^ Z.of_nat (length wires).
Proof.
  intros wires s Hnd. unfold incrementer_fallback, val_be.
  rewrite <- (rev_length wires).
  assert (Hin : forall i, ~ In i wires -> ~ In i (rev wires)) by (intros i Hi Hr; apply Hi; now apply in_rev).
  apply NoDup_rev in Hnd. revert Hnd Hin. generalize (rev wires) as r. intros r Hnd Hin.
  destruct r as [|r0 rs].
  - exists s. cbn. repeat split; auto.
  - inversion Hnd as [|? ? Hr0 Hnd']; subst.
    destruct (mcx_ladder_spec rs [r0] s Hnd') as (s2 & Hrun & Hfr & Hval).
    { intros w [<-|[]]. assumption. }
    assert (H2 : s2 r0 = s r0) by (apply Hfr; assumption).
    exists (upd s2 r0 (xorb (s2 r0) true)). split; [|split].
    + unfold inc_fallback_le. rewrite run_app, Hrun. reflexivity.
    + intros i Hi. apply Hin in Hi. rewrite upd_other by (intro; subst; apply Hi; now left).
      apply Hfr. intro; apply Hi; now right.
    + cbn [val_le length]. rewrite upd_same, H2.
      rewrite val_le_upd, Hval by assumption. cbn [ones map ctrl_ok forallb fst snd]. rewrite eqb_t, andb_true_r.
      apply bit_carry. destruct (s r0); cbn [b2z xorb]; lia.
Qed.

(* IntegerComparator: canonical layout (control wires 0..n-1, target n), n = 1..nmax (used at nmax = 4),
   every value 0..2^n+1, both polarities, every basis input: finite domain, decided by evaluation.
   The target flips iff x >= L resp. x < L, the control register reads x again. *)
Definition cmp_inputs_ok (n : nat) (L : Z) (geq : bool) : bool :=
  forallb (fun x =>
    forallb (fun t =>
      match run (comparator L geq (seq 0 n) n) (set_be (upd zero_st n t) (seq 0 n) x) with
      | None => false
      | Some s' => Z.eqb (val_be s' (seq 0 n)) x &&
                   Bool.eqb (s' n) (xorb t (if geq then L <=? x else x <? L))
      end) [false; true])
    (map Z.of_nat (seq 0 (2 ^ n))).
Definition cmp_all_ok (nmax : nat) : bool :=
  forallb (fun n => forallb (fun L => cmp_inputs_ok n L true && cmp_inputs_ok n L false)
                            (map Z.of_nat (seq 0 (2 ^ n + 2)))) (seq 1 nmax).
(* the same sweep with everything that does not depend on the input (circuit, wire lists) let-bound outside
   the loop over inputs, so that vm_compute builds it once per (n, L, geq) instead of once per input *)
Definition cmp_inputs_ok_shared (n : nat) (L : Z) (geq : bool) : bool :=
  let ws := seq 0 n in
  let c := comparator L geq ws n in
  let rws := rev ws in
  forallb (fun x =>
    forallb (fun t =>
      match run c (set_le (upd zero_st n t) rws x) with
      | None => false
      | Some s' => Z.eqb (val_le s' rws) x &&
                   Bool.eqb (s' n) (xorb t (if geq then L <=? x else x <? L))
      end) [false; true])
    (map Z.of_nat (seq 0 (2 ^ n))).
Definition cmp_all_ok_shared (nmax : nat) : bool :=
  forallb (fun n => forallb (fun L => cmp_inputs_ok_shared n L true && cmp_inputs_ok_shared n L false)
                            (map Z.of_nat (seq 0 (2 ^ n + 2)))) (seq 1 nmax).
Lemma cmp_all_ok_shared_eq : forall nmax, cmp_all_ok nmax = cmp_all_ok_shared nmax.
Proof. reflexivity. Qed.

Lemma comparator_upto4 : cmp_all_ok 4 = true.
Proof. rewrite cmp_all_ok_shared_eq. vm_compute. reflexivity. Qed.

Lemma semi_adder_restores : forall xw yw ww s,
  NoDup (xw ++ yw ++ ww) -> xw <> [] -> (length yw <= S (length ww))%nat -> zeroed s ww ->
  exists s', run (semi_adder xw yw ww) s = Some s' /\ zeroed s' ww /\ val_be s' xw = val_be s xw.
Proof.
  intros xw yw ww s Hnd Hne Hlen Hz.
  destruct (semi_adder_spec xw yw ww s Hnd Hne Hlen Hz) as (s' & Hrun & Hfr & _).
  destruct (proj1 (NoDup_app_iff _ _) Hnd) as (_ & Hyw & Hxd).
  destruct (proj1 (NoDup_app_iff _ _) Hyw) as (_ & _ & Hyd).
  exists s'. split; [exact Hrun|]. split.
  - intros w Hw. rewrite Hfr; [now apply Hz | intro Hy; exact (Hyd w Hy Hw)].
  - unfold val_be. apply val_le_ext. intros w Hw. apply in_rev in Hw.
    apply Hfr. intro Hy. apply (Hxd w Hw), in_or_app. now left.
Qed.

Lemma incrementer_restores : forall wires work s,
  NoDup (wires ++ work) -> (length wires <= S (length work))%nat -> zeroed s work ->
  exists s', run (incrementer wires work) s = Some s' /\ zeroed s' work.
Proof.
  intros wires work s Hnd Hlen Hz.
  destruct (incrementer_spec wires work s Hnd Hlen Hz) as (s' & Hrun & Hfr & _).
  destruct (proj1 (NoDup_app_iff _ _) Hnd) as (_ & _ & Hd).
  exists s'. split; [exact Hrun|]. intros w Hw. rewrite Hfr; [now apply Hz | intro Hx; exact (Hd w Hx Hw)].
Qed.
