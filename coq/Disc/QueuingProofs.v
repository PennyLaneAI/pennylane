(* C41 -- lemmas about Disc/QueuingModel.v.

   exec_den: the stack machine computes the replay of the lexical denotation, the lexical context
   being the top of the stack and the context counter the number of queues.
   exec_rel: an induction principle for relations between the state before and after a run; the
   frame lemmas (only the queue on top of the stack can change) and the invariant wf are instances.
   wf: identities are creation numbers, so every queue is strictly increasing and below the heap
   size; the object being created is therefore absent from every queue, AnnotatedQueue.append puts
   it last, and the per-constructor lemmas at the end can speak of plain membership. *)
From Coq Require Import List ZArith Bool Lia Sorted.
From PLV Require Import Disc.QueuingModel.
Import ListNotations.
Open Scope Z_scope.

Lemma upd_length : forall A c (f : A -> A) l, length (upd c f l) = length l.
Proof. induction c; destruct l; simpl; auto. Qed.

Lemma upd_upd : forall A c (f g : A -> A) l, upd c f (upd c g l) = upd c (fun x => f (g x)) l.
Proof. induction c; destruct l; simpl; auto. intros. f_equal. apply IHc. Qed.

Lemma upd_ext : forall A c (f g : A -> A) l, (forall x, f x = g x) -> upd c f l = upd c g l.
Proof. induction c; destruct l; simpl; intros; auto. - rewrite H; auto. - f_equal; auto. Qed.

Lemma upd_id : forall A c (l : list A), upd c (fun x => x) l = l.
Proof. induction c; destruct l; simpl; auto. f_equal; auto. Qed.

Lemma nth_error_upd_other : forall A c c' (f : A -> A) l, c <> c' ->
  nth_error (upd c f l) c' = nth_error l c'.
Proof.
  induction c; destruct l; intros; simpl; auto.
  - destruct c'; [congruence | reflexivity].
  - destruct c'; simpl; auto.
Qed.

Lemma nth_error_upd_same : forall A c (f : A -> A) l,
  nth_error (upd c f l) c = option_map f (nth_error l c).
Proof. induction c; destruct l; simpl; auto. Qed.

Arguments act_events : simpl never.
Lemma replay_app : forall e1 e2 qs, replay (e1 ++ e2) qs = replay e2 (replay e1 qs).
Proof. intros. unfold replay. apply fold_left_app. Qed.

Lemma replay_rems : forall c xs qs, replay (map (ERem c) xs) qs = upd c (q_remove_all xs) qs.
Proof.
  induction xs; intros; simpl.
  - unfold q_remove_all; simpl. symmetry. apply upd_id.
  - unfold replay in *. simpl. rewrite IHxs. rewrite upd_upd. apply upd_ext. reflexivity.
Qed.

Lemma replay_act : forall c pre id post qs,
  replay (act_events (Some c) pre id post) qs = upd c (on_queue pre id post) qs.
Proof.
  intros. unfold act_events. rewrite !replay_app. rewrite !replay_rems.
  unfold replay at 1. simpl. rewrite !upd_upd. apply upd_ext. reflexivity.
Qed.

Lemma perform_den : forall s pre d post,
  perform s pre d post =
  mk (heap s ++ [d]) (replay (act_events (hd_error (stack s)) pre (hlen (heap s)) post) (queues s)) (stack s).
Proof.
  intros. unfold perform. destruct (stack s) as [|c r] eqn:E.
  - reflexivity.
  - cbn [hd_error]. rewrite replay_act. reflexivity.
Qed.

Lemma replay_act_length : forall cur pre id post qs,
  length (replay (act_events cur pre id post) qs) = length qs.
Proof.
  intros. destruct cur; [|reflexivity]. rewrite replay_act. apply upd_length.
Qed.

Definition agrees (p : prog) (s : st) : Prop :=
  match den p (hd_error (stack s)) (heap s) (length (queues s)) with
  | (evs, h', n', r) =>
      exec p s = (mk h' (replay evs (queues s)) (stack s), r) /\ n' = length (replay evs (queues s))
  end.

Lemma exec_den : forall p s, agrees p s.
Proof.
  unfold agrees.
  induction p; intros [h qs st]; simpl.
  - auto.
  - specialize (IHp1 (mk h qs st)). simpl in IHp1.
    destruct (den p1 (hd_error st) h (length qs)) as [[[e1 h1] n1] r1].
    destruct IHp1 as [E1 L1]. rewrite E1.
    destruct r1; [auto|].
    specialize (IHp2 (mk h1 (replay e1 qs) st)). simpl in IHp2.
    rewrite <- L1 in IHp2.
    destruct (den p2 (hd_error st) h1 n1) as [[[e2 h2] n2] r2].
    destruct IHp2 as [E2 L2]. rewrite E2, replay_app. auto.
  - rewrite perform_den, replay_act_length. auto.
  - destruct (plan_wrap h k r1 r2) as [[[pre d] post]|]; [|auto].
    rewrite perform_den, replay_act_length. auto.
  - destruct (plan_apply h r) as [[pre d]|]; [|auto].
    destruct st; simpl; [auto|].
    rewrite perform_den, replay_act_length. auto.
  - specialize (IHp (mk h (qs ++ [[]]) (length qs :: st))). simpl in IHp.
    rewrite app_length, Nat.add_1_r in IHp.
    destruct (den p (Some (length qs)) h (S (length qs))) as [[[e h1] n1] r].
    destruct IHp as [E L]. rewrite E. auto.
  - specialize (IHp (mk h qs [])). simpl in IHp.
    destruct (den p None h (length qs)) as [[[e h1] n1] r].
    destruct IHp as [E L]. rewrite E. auto.
  - specialize (IHp (mk h qs st)). simpl in IHp.
    destruct (den p (hd_error st) h (length qs)) as [[[e h1] n1] r].
    destruct IHp as [E L]. rewrite E. auto.
  - auto.
Qed.

Lemma exec_stack : forall p s, stack (fst (exec p s)) = stack s.
Proof.
  intros. pose proof (exec_den p s) as H. unfold agrees in H.
  destruct (den p (hd_error (stack s)) (heap s) (length (queues s))) as [[[e h1] n1] r].
  destruct H as [E _]. rewrite E. reflexivity.
Qed.

Lemma exec_with_queues : forall b s,
  queues (fst (exec (With b) s)) =
  queues (fst (exec b (mk (heap s) (queues s ++ [[]]) (length (queues s) :: stack s)))).
Proof. intros. simpl. destruct (exec b _). reflexivity. Qed.

Lemma exec_stop_queues : forall b s,
  queues (fst (exec (Stop b) s)) = queues (fst (exec b (mk (heap s) (queues s) []))).
Proof. intros. simpl. destruct (exec b _). reflexivity. Qed.

(* A relation between the state before and the state after that holds of doing nothing and of
   every object creation, composes along a sequence, and passes from the body of a With or Stop
   block to the block (which puts the old stack back) holds of every run. *)
Lemma exec_rel : forall R : st -> st -> Prop,
  (forall s, R s s) ->
  (forall s s1 s2, stack s1 = stack s -> R s s1 -> R s1 s2 -> R s s2) ->
  (forall s pre d post, R s (perform s pre d post)) ->
  (forall s s1, R (mk (heap s) (queues s ++ [[]]) (length (queues s) :: stack s)) s1 ->
                R s (mk (heap s1) (queues s1) (stack s))) ->
  (forall s s1, R (mk (heap s) (queues s) []) s1 -> R s (mk (heap s1) (queues s1) (stack s))) ->
  forall p s, R s (fst (exec p s)).
Proof.
  intros R Rskip Rseq Rperform Rwith Rstop. induction p; intros s; simpl; auto.
  - specialize (IHp1 s). pose proof (exec_stack p1 s) as S1.
    destruct (exec p1 s) as [s1 []]; simpl in *; eauto.
  - destruct (plan_wrap (heap s) k r1 r2) as [[[pre d] post]|]; simpl; auto.
  - destruct (plan_apply (heap s) r) as [[pre d]|]; simpl; auto.
    destruct (stack s) eqn:E; simpl; auto.
  - specialize (IHp (mk (heap s) (queues s ++ [[]]) (length (queues s) :: stack s))).
    pose proof (exec_stack p (mk (heap s) (queues s ++ [[]]) (length (queues s) :: stack s))) as S1.
    destruct (exec p _) as [s1 r]. simpl in *. rewrite S1. simpl. auto.
  - specialize (IHp (mk (heap s) (queues s) [])). destruct (exec p _) as [s1 r]. simpl. auto.
  - specialize (IHp s). destruct (exec p s). auto.
Qed.

Lemma perform_frame : forall s pre d post c,
  hd_error (stack s) <> Some c ->
  nth_error (queues (perform s pre d post)) c = nth_error (queues s) c.
Proof.
  intros. unfold perform. destruct (stack s) as [|c0 r]; simpl; auto.
  apply nth_error_upd_other. simpl in H. congruence.
Qed.

Lemma perform_length : forall s pre d post, length (queues (perform s pre d post)) = length (queues s).
Proof. intros. unfold perform. destruct (stack s); simpl; auto. apply upd_length. Qed.

Lemma perform_stack : forall s pre d post, stack (perform s pre d post) = stack s.
Proof. intros. unfold perform. destruct (stack s); reflexivity. Qed.

(* qs' extends qs and agrees with it at every position except (possibly) the one named by top *)
Definition kept (top : option nat) (qs qs' : list (list Z)) : Prop :=
  (length qs <= length qs')%nat /\
  forall c, (c < length qs)%nat -> top <> Some c -> nth_error qs' c = nth_error qs c.

Lemma kept_any : forall top qs qs', kept None qs qs' -> kept top qs qs'.
Proof. intros top qs qs' [L F]. split; auto. intros. apply F; auto. discriminate. Qed.

(* a context opened behind qs is not one of qs *)
Lemma kept_opened : forall qs qs', kept (Some (length qs)) (qs ++ [[]]) qs' -> kept None qs qs'.
Proof.
  intros qs qs' [L F]. rewrite app_length in *. simpl in *. split; [lia|].
  intros c Hc _. rewrite F.
  - apply nth_error_app1; auto.
  - lia.
  - intro X. inversion X. lia.
Qed.

Lemma firstn_ext : forall A (l l' : list A),
  (length l <= length l')%nat ->
  (forall c, (c < length l)%nat -> nth_error l' c = nth_error l c) ->
  firstn (length l) l' = l.
Proof.
  induction l; intros l' L H; simpl; auto.
  destruct l' as [|b l']; simpl in L; [lia|].
  pose proof (H O ltac:(simpl; lia)) as H0. simpl in H0. inversion H0; subst.
  f_equal. apply IHl; [lia|]. intros c Hc. apply (H (S c)). simpl; lia.
Qed.

Lemma kept_firstn : forall qs qs', kept None qs qs' -> firstn (length qs) qs' = qs.
Proof. intros qs qs' [L F]. apply firstn_ext; auto. intros. apply F; auto. discriminate. Qed.

Lemma exec_frame : forall p s, kept (hd_error (stack s)) (queues s) (queues (fst (exec p s))).
Proof.
  apply (exec_rel (fun s s' => kept (hd_error (stack s)) (queues s) (queues s'))).
  - split; auto.
  - intros s s1 s2 S1 [L1 F1] [L2 F2]. rewrite S1 in F2. split; [lia|].
    intros c Hc Hh. rewrite F2, F1; auto. lia.
  - intros. split.
    + rewrite perform_length. auto.
    + intros. apply perform_frame; auto.
  - intros s s1 K. apply kept_any, kept_opened, K.
  - intros s s1 K. apply kept_any, K.
Qed.

(* nothing is recorded (in any existing context) under stop_recording *)
Lemma stop_frame : forall b s,
  firstn (length (queues s)) (queues (fst (exec (Stop b) s))) = queues s.
Proof.
  intros. rewrite exec_stop_queues. apply kept_firstn.
  exact (exec_frame b (mk (heap s) (queues s) [])).
Qed.

(* an inner With never touches the queues that existed before it *)
Lemma with_frame : forall b s,
  firstn (length (queues s)) (queues (fst (exec (With b) s))) = queues s.
Proof.
  intros. rewrite exec_with_queues. apply kept_firstn, kept_opened.
  exact (exec_frame b (mk (heap s) (queues s ++ [[]]) (length (queues s) :: stack s))).
Qed.

(* contexts are created by With only; so under Stop a body without With changes no queue at all *)
Fixpoint no_with (p : prog) : bool :=
  match p with
  | With _ => false
  | Seq a b => no_with a && no_with b
  | Stop b | Try b => no_with b
  | _ => true
  end.

Lemma no_with_length : forall p s, no_with p = true ->
  length (queues (fst (exec p s))) = length (queues s).
Proof.
  induction p; intros s NW; simpl in *; auto using perform_length.
  - apply andb_true_iff in NW. destruct NW as [N1 N2]. specialize (IHp1 s N1).
    destruct (exec p1 s) as [s1 []]; simpl in *; auto. rewrite IHp2; auto.
  - destruct (plan_wrap (heap s) k r1 r2) as [[[pre d] post]|]; simpl; auto using perform_length.
  - destruct (plan_apply (heap s) r) as [[pre d]|]; simpl; auto.
    destruct (stack s); simpl; auto using perform_length.
  - discriminate.
  - specialize (IHp (mk (heap s) (queues s) []) NW). destruct (exec p _). auto.
  - specialize (IHp s NW). destruct (exec p s). auto.
Qed.

Lemma stop_nowith : forall b s, no_with b = true -> queues (fst (exec (Stop b) s)) = queues s.
Proof.
  intros b s H. pose proof (stop_frame b s) as F.
  rewrite <- (no_with_length (Stop b) s H), firstn_all in F. exact F.
Qed.

(* n = number of objects created so far *)
Definition qwf (n : Z) (q : list Z) : Prop := StronglySorted Z.lt q /\ Forall (fun x => x < n) q.
Definition wf (s : st) : Prop := Forall (qwf (hlen (heap s))) (queues s).

Lemma memz_in : forall x q, memz x q = true <-> In x q.
Proof.
  induction q; simpl; [intuition discriminate|].
  destruct (x =? a) eqn:E.
  - apply Z.eqb_eq in E. subst. intuition.
  - apply Z.eqb_neq in E. rewrite IHq. intuition congruence.
Qed.

Lemma q_remove_in : forall x y q, In y (q_remove x q) <-> In y q /\ y <> x.
Proof.
  induction q; simpl; [intuition|].
  destruct (x =? a) eqn:E.
  - apply Z.eqb_eq in E. subst. rewrite IHq. intuition congruence.
  - apply Z.eqb_neq in E. simpl. rewrite IHq. intuition congruence.
Qed.

Lemma q_remove_forall : forall (P : Z -> Prop) x q, Forall P q -> Forall P (q_remove x q).
Proof.
  induction q; simpl; intros H; auto. inversion H; subst.
  destruct (x =? a); auto.
Qed.

Lemma q_remove_sorted : forall x q, StronglySorted Z.lt q -> StronglySorted Z.lt (q_remove x q).
Proof.
  induction q; simpl; intros H; auto. inversion H; subst.
  destruct (x =? a); auto. constructor; auto. apply q_remove_forall; auto.
Qed.

Lemma q_remove_all_in : forall xs y q, In y (q_remove_all xs q) <-> In y q /\ ~ In y xs.
Proof.
  unfold q_remove_all. induction xs; intros; simpl; [intuition|].
  rewrite IHxs. rewrite q_remove_in. intuition congruence.
Qed.

Lemma q_remove_all_wf : forall n xs q, qwf n q -> qwf n (q_remove_all xs q).
Proof.
  unfold q_remove_all. induction xs; intros q W; simpl; auto.
  apply IHxs. destruct W. split; [apply q_remove_sorted | apply q_remove_forall]; auto.
Qed.

Lemma q_append_fresh : forall n q, Forall (fun y => y < n) q -> q_append q n = q ++ [n].
Proof.
  intros. unfold q_append. destruct (memz n q) eqn:E; auto.
  apply memz_in in E. rewrite Forall_forall in H. apply H in E. lia.
Qed.

Lemma qwf_weaken : forall n q, qwf n q -> qwf (n + 1) q.
Proof.
  intros n q [S F]. split; auto. eapply Forall_impl; [|exact F]. simpl; intros; lia.
Qed.

Lemma qwf_snoc : forall n q, qwf n q -> qwf (n + 1) (q ++ [n]).
Proof.
  intros n q W. destruct (qwf_weaken n q W) as [_ F']. destruct W as [S F]. split.
  - clear F'. induction q; simpl.
    + repeat constructor.
    + inversion S; subst. inversion F; subst. constructor; auto.
      apply Forall_app. split; auto.
  - apply Forall_app. split; auto. constructor; [lia|constructor].
Qed.

Lemma on_queue_eq : forall n pre post q, qwf n q ->
  on_queue pre n post q = q_remove_all post (q_remove_all pre q ++ [n]).
Proof.
  intros n pre post q W. unfold on_queue. rewrite q_append_fresh; auto.
  apply (q_remove_all_wf n pre q W).
Qed.

Lemma on_queue_wf : forall n pre post q, qwf n q -> qwf (n + 1) (on_queue pre n post q).
Proof.
  intros n pre post q W. rewrite on_queue_eq; auto.
  apply q_remove_all_wf, qwf_snoc, q_remove_all_wf, W.
Qed.

(* membership after a constructor ran in the active context *)
Lemma on_queue_in : forall n pre post q y, qwf n q ->
  (In y (on_queue pre n post q) <-> ((In y q /\ ~ In y pre) \/ y = n) /\ ~ In y post).
Proof.
  intros. rewrite on_queue_eq; auto. rewrite q_remove_all_in. rewrite in_app_iff.
  rewrite q_remove_all_in. simpl. intuition.
Qed.

Lemma Forall_upd : forall A (P Q : A -> Prop) c (f : A -> A) l,
  Forall P l -> (forall x, P x -> Q (f x)) -> (forall x, P x -> Q x) -> Forall Q (upd c f l).
Proof.
  induction c; destruct l; simpl; intros H Hf Hi; auto; inversion H; subst; constructor; auto.
  - eapply Forall_impl; [|exact H3]. auto.
Qed.

Lemma hlen_snoc : forall h d, hlen (h ++ [d]) = hlen h + 1.
Proof. intros. unfold hlen. rewrite app_length. simpl. lia. Qed.

Lemma perform_wf : forall s pre d post, wf s -> wf (perform s pre d post).
Proof.
  unfold wf, perform. intros s pre d post W. destruct (stack s) as [|c r]; simpl; rewrite hlen_snoc.
  - eapply Forall_impl; [|exact W]. apply qwf_weaken.
  - eapply Forall_upd; [exact W| |]; intros.
    + apply on_queue_wf; auto.
    + apply qwf_weaken; auto.
Qed.

Lemma exec_wf : forall p s, wf s -> wf (fst (exec p s)).
Proof.
  apply (exec_rel (fun s s' => wf s -> wf s')); auto using perform_wf.
  intros s s1 IH W. apply IH. unfold wf. simpl. apply Forall_app. split; auto.
  repeat constructor.
Qed.

Lemma init_wf : wf init.
Proof. constructor. Qed.

Lemma exec_sorted : forall p q, In q (queues (fst (exec p init))) -> StronglySorted Z.lt q.
Proof.
  intros p q H. pose proof (exec_wf p init init_wf) as W. unfold wf in W.
  rewrite Forall_forall in W. apply W in H. apply H.
Qed.

Lemma ctrl_plan_head : forall f h b rs d, ctrl_plan (S f) h true b = Some (rs, d) -> In b rs.
Proof.
  intros f h b rs d H. simpl in H.
  destruct (hget h b) as [[|]|k n2 ops|]; try (inversion H; subst; simpl; auto; fail).
  destruct k; try (inversion H; subst; simpl; auto; fail).
  destruct ops as [|b' ops']; [inversion H; subst; simpl; auto|].
  destruct (ctrl_plan f h false b') as [[rs' d']|]; inversion H; subst; simpl; auto.
Qed.

Lemma plan_wrap_facts : forall h k r1 r2 pre d post,
  plan_wrap h k r1 r2 = Some (pre, d, post) ->
  0 < hlen h /\
  In (r1 mod hlen h) (pre ++ post) /\
  (k = KProd -> In (r2 mod hlen h) post) /\
  Forall (fun x => x < hlen h) post.
Proof.
  intros h k r1 r2 pre d post H. unfold plan_wrap in H.
  destruct (hlen h =? 0) eqn:E0; [discriminate|]. apply Z.eqb_neq in E0.
  assert (P : 0 < hlen h) by (unfold hlen in *; lia).
  pose proof (Z.mod_pos_bound r1 (hlen h) P) as B1.
  pose proof (Z.mod_pos_bound r2 (hlen h) P) as B2.
  split; auto.
  destruct (is_kind KMeas (hget h (r1 mod hlen h))); [discriminate|].
  destruct k.
  (* KAdj, KPow, KMeas: pre = [a], post = [] *)
  1, 2, 6: inversion H; subst; simpl; repeat split; auto; discriminate.
  - destruct (ctrl_plan (S (length h)) h true (r1 mod hlen h)) as [[rs d']|] eqn:EC;
      inversion H; subst; rewrite app_nil_r.
    + apply ctrl_plan_head in EC. repeat split; auto; discriminate.
    + simpl. repeat split; auto; discriminate.
  - destruct (is_kind KSProd (hget h (r1 mod hlen h))); inversion H; subst;
      rewrite in_app_iff; simpl; repeat split; auto; try discriminate.
    repeat constructor. lia.
  - destruct (is_kind KMeas (hget h (r2 mod hlen h))); [discriminate|]. inversion H; subst.
    rewrite in_app_iff. simpl. repeat split; auto. repeat constructor; lia.
Qed.

Lemma nth_error_perform_top : forall s pre d post c rest q,
  stack s = c :: rest -> nth_error (queues s) c = Some q ->
  nth_error (queues (perform s pre d post)) c = Some (on_queue pre (hlen (heap s)) post q).
Proof.
  intros. unfold perform. rewrite H. simpl. rewrite nth_error_upd_same. rewrite H0. reflexivity.
Qed.

Lemma wf_nth : forall s c q, wf s -> nth_error (queues s) c = Some q -> qwf (hlen (heap s)) q.
Proof.
  unfold wf. intros s c q W H. rewrite Forall_forall in W. apply W. eapply nth_error_In; eauto.
Qed.

Lemma wrap_consumes : forall s k r1 r2 pre d post c rest q,
  wf s -> plan_wrap (heap s) k r1 r2 = Some (pre, d, post) ->
  stack s = c :: rest -> nth_error (queues s) c = Some q ->
  exists q', nth_error (queues (perform s pre d post)) c = Some q' /\
    In (hlen (heap s)) q' /\
    ~ In (r1 mod hlen (heap s)) q' /\
    (k = KProd -> ~ In (r2 mod hlen (heap s)) q') /\
    (forall y, ~ In y (pre ++ post) -> y <> hlen (heap s) -> (In y q' <-> In y q)).
Proof.
  intros s k r1 r2 pre d post c rest q W HP HS HQ.
  destruct (plan_wrap_facts _ _ _ _ _ _ _ HP) as [P [I1 [I2 FP]]].
  exists (on_queue pre (hlen (heap s)) post q). split; [apply nth_error_perform_top with rest; auto|].
  assert (M := fun y => on_queue_in _ pre post q y (wf_nth s c q W HQ)).
  rewrite Forall_forall in FP. rewrite in_app_iff in I1.
  pose proof (Z.mod_pos_bound r1 (hlen (heap s)) P) as B1.
  split; [|split; [|split]].
  - apply M. split; auto. intro X. apply FP in X. lia.
  - rewrite M. intuition lia.
  - intros K. rewrite M. specialize (I2 K). intuition.
  - intros y Hy Hn. rewrite M. rewrite in_app_iff in Hy. intuition.
Qed.

Lemma perform_top_wf : forall s pre d post c rest q,
  wf s -> stack s = c :: rest -> nth_error (queues s) c = Some q ->
  nth_error (queues (perform s pre d post)) c =
  Some (q_remove_all post (q_remove_all pre q ++ [hlen (heap s)])).
Proof.
  intros. rewrite <- on_queue_eq by (eapply wf_nth; eauto). eapply nth_error_perform_top; eauto.
Qed.

(* qp.apply queues a fresh copy at the end of the active queue (removing the operands the copy shares) *)
Lemma apply_requeues : forall s r pre d c rest q,
  wf s -> plan_apply (heap s) r = Some (pre, d) ->
  stack s = c :: rest -> nth_error (queues s) c = Some q ->
  fst (exec (Apply r) s) = perform s pre d [] /\
  d = copy_desc (hget (heap s) (r mod hlen (heap s))) /\
  nth_error (queues (perform s pre d [])) c = Some (q_remove_all pre q ++ [hlen (heap s)]).
Proof.
  intros s r pre d c rest q W HP HS HQ. simpl. rewrite HP, HS. simpl. split; auto.
  split.
  - unfold plan_apply in HP. destruct (hlen (heap s) =? 0); inversion HP; auto.
  - exact (perform_top_wf s pre d [] c rest q W HS HQ).
Qed.

(* a new operator created in an active context is appended at the end of that context's queue *)
Lemma new_recorded : forall s m c rest q,
  wf s -> stack s = c :: rest -> nth_error (queues s) c = Some q ->
  nth_error (queues (fst (exec (New m) s))) c = Some (q ++ [hlen (heap s)]).
Proof. intros s m c rest q. exact (perform_top_wf s [] (new_desc m) [] c rest q). Qed.
