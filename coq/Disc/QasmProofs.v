(* Lemmas about the OpenQASM 2 model: compositional denotation, the qelib1.inc bodies multiply out to the table,
   recorded global phases are unit complex numbers, and what a generated export obligation means over the reals.
   Props/C67.v states each result under the name it has here without the suffix _l. *)
From Coq Require Import List ZArith QArith Reals String Bool Lia.
From Coquelicot Require Import Complex.
From PLV Require Import Alg.Poly Alg.PolyEval Alg.Angles Lin.Vec Lin.VecHom Lin.PVec Lin.PVecSound
  Tab.TrigSyms Tab.GateTable Tab.QasmTable Disc.QasmModel.
Import ListNotations.

Lemma body_den_app nq a b :
  body_den nq (a ++ b) = match body_den nq a, body_den nq b with
                         | Some x, Some y => Some (x ++ y)
                         | _, _ => None
                         end.
Proof.
  induction a as [|st a IH]; cbn [app body_den].
  - destruct (body_den nq b); reflexivity.
  - rewrite IH. destruct (stmt_den nq st) as [x|]; [|reflexivity].
    destruct (body_den nq a) as [y|]; [|reflexivity].
    destruct (body_den nq b) as [z|]; [|reflexivity].
    rewrite app_assoc. reflexivity.
Qed.

Lemma measures_app a b : measures (a ++ b) = measures a ++ measures b.
Proof.
  induction a as [|st a IH]; [reflexivity|].
  destruct st; cbn [app measures]; rewrite IH; reflexivity.
Qed.

(* running p then q (same registers): the circuit is the concatenation, the measurement record is the concatenation *)
Lemma prog_den_seq p q c1 m1 c2 m2 :
  qp_nq q = qp_nq p -> qp_nc q = qp_nc p ->
  prog_den p = Some (c1, m1) -> prog_den q = Some (c2, m2) ->
  prog_den (seq_prog p q) = Some (c1 ++ c2, m1 ++ m2).
Proof.
  intros Hq Hc. unfold prog_den, seq_prog. cbn [qp_nq qp_nc qp_body]. rewrite Hq, Hc.
  rewrite body_den_app, measures_app, forallb_app.
  destruct (body_den (qp_nq p) (qp_body p)) as [x|]; [|discriminate].
  destruct (body_den (qp_nq p) (qp_body q)) as [y|]; [|intros _ H; discriminate H].
  destruct (forallb _ (measures (qp_body p))); [|discriminate].
  destruct (forallb _ (measures (qp_body q))); [|intros _ H; discriminate H].
  intros H1 H2. inversion H1; inversion H2; subst. reflexivity.
Qed.

Lemma qelib_bodies_ok_l : forallb body_ok qelib_bodies = true.
Proof. vm_compute. reflexivity. Qed.

Lemma table_covered_l : table_covered = true.
Proof. vm_compute. reflexivity. Qed.

(* over the complex numbers, for every real value of the gate's parameters *)
Lemma qelib_body_sound_l name body np k M circ :
  In (name, body) qelib_bodies -> qelib_entry name = Some (np, k, M) -> body_den k body = Some circ ->
  forall (thetas : list R) col, (col < 2 ^ k)%nat ->
    c_capply k (map (evg (aenv HZ DD thetas)) circ) (c_basis k col)
    = c_apply_gate k (seq 0 k) (map (map (peval (aenv HZ DD thetas))) M) (c_basis k col).
Proof.
  intros Hin He Hd thetas col Hc.
  pose proof qelib_bodies_ok_l as H. rewrite forallb_forall in H. specialize (H _ Hin).
  unfold body_ok in H. cbn [fst snd] in H. rewrite He, Hd in H.
  apply (cols_ok_forall HZ DD k circ (seq 0 k) M (all_cols k)); [unfold HZ; lia | exact H |].
  unfold all_cols. apply in_seq. lia.
Qed.

Local Open Scope R_scope.
Local Open Scope C_scope.

Lemma ph_unit_denotes_l ph : ph_unit ph = true -> forall th, exists a : R, peval (aenv HZ DD th) (ph_poly ph) = cis a.
Proof.
  destruct ph as [|j n d]; cbn [ph_unit ph_poly]; intros H th.
  - exists 0%R. rewrite cis_0. unfold p1. apply peval_pone.
  - apply andb_prop in H. destruct H as [Hd Hm].
    apply negb_true_iff in Hd. apply Z.eqb_neq in Hd. apply Z.eqb_eq in Hm.
    eexists. apply pexp_denotes; [exact Hd|]. apply Z.mod_divide; assumption.
Qed.

Lemma export_phase_unit_l key : ph_unit (export_phase_doc key) = true.
Proof.
  unfold export_phase_doc. unfold export_phase_table. cbn [qt_assoc].
  repeat match goal with |- context [if ?b then _ else _] => destruct b end; reflexivity.
Qed.

(* what a generated obligation  meqb 4 M_pl (qt_scale phase N_qasm) = true  means *)
Lemma export_obligation_sound_l M N ph :
  meqb HZ M (qt_scale (ph_poly ph) N) = true -> ph_unit ph = true ->
  forall th : list R, exists a : R,
    map (map (peval (aenv HZ DD th))) M = map (map (fun x => cis a * peval (aenv HZ DD th) x)) N.
Proof.
  intros H U th. destruct (ph_unit_denotes_l ph U th) as [a Ha]. exists a.
  rewrite (meqb_forall HZ DD M _ ltac:(unfold HZ; lia) H th).
  unfold qt_scale. rewrite map_map. apply map_ext. intros row. rewrite map_map. apply map_ext. intros x.
  unfold pmul'. rewrite (peval_nmul _ _ (G8 th)). rewrite Ha. reflexivity.
Qed.

Lemma phase_candidates_unit_l key : forallb ph_unit (phase_candidates key) = true.
Proof.
  unfold phase_candidates. cbn [forallb]. rewrite export_phase_unit_l. vm_compute. reflexivity.
Qed.

Lemma export_equiv_sound_l key M N :
  export_equiv HZ meqb key M N = true ->
  forall th : list R, exists a : R,
    map (map (peval (aenv HZ DD th))) M = map (map (fun x => cis a * peval (aenv HZ DD th) x)) N.
Proof.
  unfold export_equiv. intros H th. apply existsb_exists in H. destruct H as [ph [Hin H]].
  pose proof (phase_candidates_unit_l key) as U. rewrite forallb_forall in U.
  exact (export_obligation_sound_l M N ph H (U ph Hin) th).
Qed.

