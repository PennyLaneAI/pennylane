(* Lemmas about the Pauli-algebra model (Disc/PauliAlgModel.v).  Two devices carry the file.  A sentence is only
   ever observed through a linear functional `lin h` (a coefficient is `lin (delta u)`, a matrix entry is
   `lin (fun w => wmat order w r c)`), so +, scalar * and @ are proved once for `lin` / `bil` and read off for
   coefficients and matrices.  A word product is only ever observed wire by wire: the phase and the anticommutation
   count of the sparse merge are wire-wise sums `wsum` over the wires of the first word, which do not change when
   the wire list grows to any duplicate-free order containing them, and there they meet the Kronecker product of
   full words. *)
From Coq Require Import List ZArith Bool Lia Ring Permutation.
From PLV Require Import Disc.PauliAlgModel.
Import ListNotations.
Open Scope Z_scope.

(* Gaussian integers form a ring *)
Ltac gz := intros; repeat match goal with x : GZ |- _ => destruct x end;
           unfold csub, cadd, cmul, cneg, c0, c1; cbn [fst snd]; f_equal; ring.

Lemma cadd_comm x y : cadd x y = cadd y x. Proof. gz. Qed.
Lemma cadd_assoc x y z : cadd x (cadd y z) = cadd (cadd x y) z. Proof. gz. Qed.
Lemma cadd_0_l x : cadd c0 x = x. Proof. gz. Qed.
Lemma cadd_0_r x : cadd x c0 = x. Proof. gz. Qed.
Lemma cmul_comm x y : cmul x y = cmul y x. Proof. gz. Qed.
Lemma cmul_assoc x y z : cmul x (cmul y z) = cmul (cmul x y) z. Proof. gz. Qed.
Lemma cmul_1_l x : cmul c1 x = x. Proof. gz. Qed.
Lemma cmul_0_l x : cmul c0 x = c0. Proof. gz. Qed.
Lemma cmul_0_r x : cmul x c0 = c0. Proof. gz. Qed.
Lemma cmul_add_l x y z : cmul (cadd x y) z = cadd (cmul x z) (cmul y z). Proof. gz. Qed.
Lemma cmul_add_r x y z : cmul x (cadd y z) = cadd (cmul x y) (cmul x z). Proof. gz. Qed.
Lemma cadd_neg x : cadd x (cneg x) = c0. Proof. gz. Qed.

Definition gz_ring : ring_theory c0 c1 cadd cmul csub cneg (@eq GZ).
Proof.
  constructor.
  - exact cadd_0_l. - exact cadd_comm. - exact cadd_assoc. - exact cmul_1_l. - exact cmul_comm.
  - exact cmul_assoc. - exact cmul_add_l. - reflexivity. - exact cadd_neg.
Qed.
Add Ring GZring : gz_ring.

Lemma ceqb_eq x y : ceqb x y = true <-> x = y.
Proof.
  destruct x as [a b], y as [c d]; unfold ceqb; cbn [fst snd]. rewrite andb_true_iff, !Z.eqb_eq.
  split; [intros [-> ->]; reflexivity | intros H; inversion H; auto].
Qed.

Lemma iph_mod k : iph k = iph (k mod 4).
Proof. unfold iph. rewrite Z.mod_mod by lia. reflexivity. Qed.

Lemma iph_add a b : iph (a + b) = cmul (iph a) (iph b).
Proof.
  unfold iph. rewrite Zplus_mod.
  pose proof (Z.mod_pos_bound a 4 ltac:(lia)) as Ha. pose proof (Z.mod_pos_bound b 4 ltac:(lia)) as Hb.
  set (x := a mod 4) in *. set (y := b mod 4) in *.
  assert (Hx : x = 0 \/ x = 1 \/ x = 2 \/ x = 3) by lia.
  assert (Hy : y = 0 \/ y = 1 \/ y = 2 \/ y = 3) by lia.
  destruct Hx as [-> | [-> | [-> | ->]]], Hy as [-> | [-> | [-> | ->]]]; reflexivity.
Qed.

Lemma iph_0 : iph 0 = c1. Proof. reflexivity. Qed.

Lemma iph_2n n : iph (2 * n) = if n mod 2 =? 0 then c1 else cneg c1.
Proof.
  unfold iph. change 4 with (2 * 2). rewrite Zmult_mod_distr_l.
  pose proof (Z.mod_pos_bound n 2 ltac:(lia)) as B.
  assert (H : n mod 2 = 0 \/ n mod 2 = 1) by lia. destruct H as [-> | ->]; reflexivity.
Qed.

Lemma csum_cons x l : csum (x :: l) = cadd x (csum l). Proof. reflexivity. Qed.
Lemma csum_nil : csum [] = c0. Proof. reflexivity. Qed.

Lemma csum_app l1 l2 : csum (l1 ++ l2) = cadd (csum l1) (csum l2).
Proof.
  induction l1 as [| x l IH]; cbn [app]; rewrite ?csum_cons, ?csum_nil; [ring | rewrite IH; ring].
Qed.

Lemma csum_scale {A} u (g : A -> GZ) l : csum (map (fun k => cmul u (g k)) l) = cmul u (csum (map g l)).
Proof. induction l as [| x l IH]; cbn [map]; rewrite ?csum_cons, ?csum_nil; [ring | rewrite IH; ring]. Qed.

Lemma csum_add {A} (f g : A -> GZ) l :
  csum (map (fun k => cadd (f k) (g k)) l) = cadd (csum (map f l)) (csum (map g l)).
Proof. induction l as [| x l IH]; cbn [map]; rewrite ?csum_cons, ?csum_nil; [ring | rewrite IH; ring]. Qed.

Lemma csum_zero {A} (l : list A) : csum (map (fun _ => c0) l) = c0.
Proof. induction l as [| x l IH]; cbn [map]; rewrite ?csum_cons, ?csum_nil; [reflexivity | rewrite IH; ring]. Qed.

Lemma csum_ext {A} (f g : A -> GZ) l : (forall x, In x l -> f x = g x) -> csum (map f l) = csum (map g l).
Proof.
  induction l as [| x l IH]; intros H; cbn [map]; [reflexivity |].
  rewrite !csum_cons, (H x (or_introl eq_refl)), IH; [reflexivity | intros y Hy; apply H; right; exact Hy].
Qed.

Lemma bits_length n : forall r, In r (bits n) -> length r = n.
Proof.
  induction n as [| n IH]; cbn [bits]; intros r H.
  - destruct H as [<- | []]; reflexivity.
  - apply in_app_or in H. destruct H as [H | H]; apply in_map_iff in H; destruct H as [r' [<- H]];
      cbn [length]; f_equal; apply IH; exact H.
Qed.

Lemma table_ok_l : forall p q a b,
  csum (map (fun k => cmul (mat1 p a k) (mat1 q k b)) [false; true]) =
  cmul (iph (fst (mul1 p q))) (mat1 (snd (mul1 p q)) a b).
Proof. intros p q a b; destruct p, q, a, b; reflexivity. Qed.

Lemma mul1_PI_phase p q : snd (mul1 p q) = PI -> fst (mul1 p q) = 0.
Proof. destruct p, q; cbn; intros H; try reflexivity; discriminate H. Qed.

Lemma mul1_I_l q : mul1 PI q = (0, q). Proof. destruct q; reflexivity. Qed.
Lemma mul1_I_r p : mul1 p PI = (0, p). Proof. destruct p; reflexivity. Qed.

Lemma mul1_word_comm p q : snd (mul1 p q) = snd (mul1 q p).
Proof. destruct p, q; reflexivity. Qed.

Lemma table_anticom p q : (4 | fst (mul1 q p) - fst (mul1 p q) - 2 * anticom1 p q).
Proof. destruct p, q; cbn; first [exists 0; reflexivity | exists (-1); reflexivity]. Qed.

(* full words: Kronecker mixed product.  One more wire multiplies the matrix product by a 2x2 product. *)
Lemma mmul_kmat_cons n p q l1 l2 a b r c :
  mmul (S n) (kmat (p :: l1)) (kmat (q :: l2)) (a :: r) (b :: c) =
  cmul (csum (map (fun k => cmul (mat1 p a k) (mat1 q k b)) [false; true])) (mmul n (kmat l1) (kmat l2) r c).
Proof.
  unfold mmul. cbn [bits]. rewrite map_app, csum_app, !map_map. cbn [kmat map]. rewrite !csum_cons, csum_nil.
  rewrite (csum_ext _ (fun k => cmul (cmul (mat1 p a false) (mat1 q false b)) (cmul (kmat l1 r k) (kmat l2 k c))))
    by (intros; ring).
  rewrite (csum_ext (fun k => cmul (cmul (mat1 p a true) _) _)
                    (fun k => cmul (cmul (mat1 p a true) (mat1 q true b)) (cmul (kmat l1 r k) (kmat l2 k c))))
    by (intros; ring).
  rewrite !csum_scale. ring.
Qed.

Lemma full_mul_hom_l : forall l1 l2 r c,
  length l2 = length l1 -> length r = length l1 -> length c = length l1 ->
  mmul (length l1) (kmat l1) (kmat l2) r c =
  cmul (iph (fst (fmul l1 l2))) (kmat (snd (fmul l1 l2)) r c).
Proof.
  induction l1 as [| p l1 IH]; intros l2 r c H2 Hr Hc;
    destruct l2 as [| q l2]; try discriminate H2; destruct r as [| a r]; try discriminate Hr;
    destruct c as [| b c]; try discriminate Hc.
  - reflexivity.
  - cbn [length] in *. rewrite mmul_kmat_cons, table_ok_l, IH by lia.
    cbn [fmul fst snd kmat]. rewrite iph_add. ring.
Qed.

Lemma p1_eqb_eq p q : p1_eqb p q = true <-> p = q.
Proof. destruct p, q; cbn; split; intros H; try reflexivity; discriminate H. Qed.

Lemma weqb_eq : forall a b, weqb a b = true <-> a = b.
Proof.
  induction a as [| [i p] a IH]; destruct b as [| [j q] b]; cbn [weqb]; try (split; [discriminate | discriminate]).
  - split; reflexivity.
  - rewrite !andb_true_iff, Z.eqb_eq, p1_eqb_eq, IH. split.
    + intros [[-> ->] ->]; reflexivity.
    + intros H; inversion H; auto.
Qed.

Lemma weqb_refl a : weqb a a = true. Proof. apply weqb_eq; reflexivity. Qed.

Lemma lin_supd h w x : forall s, lin h (supd w x s) = cadd (lin h s) (cmul x (h w)).
Proof.
  induction s as [| [w' x'] s IH]; cbn [supd lin]; [ring |].
  destruct (weqb w w') eqn:E; cbn [lin].
  - apply weqb_eq in E; subst w'. ring.
  - rewrite IH. ring.
Qed.

Lemma lin_sadd_into h : forall l acc, lin h (sadd_into acc l) = cadd (lin h acc) (lin h l).
Proof.
  induction l as [| [w x] l IH]; intros acc; cbn [sadd_into lin]; [ring |].
  rewrite IH, lin_supd. ring.
Qed.

Lemma lin_sadd h a b : lin h (sadd a b) = cadd (lin h a) (lin h b).
Proof. unfold sadd. destruct (length a <? length b)%nat; rewrite lin_sadd_into; ring. Qed.

Lemma lin_smul h x : forall s, lin h (smul x s) = cmul x (lin h s).
Proof. induction s as [| [w y] s IH]; cbn [smul map lin fst snd]; [ring |]. fold (smul x s). rewrite IH. ring. Qed.

Lemma lin_ext h g : forall s, (forall w x, In (w, x) s -> h w = g w) -> lin h s = lin g s.
Proof.
  induction s as [| [w x] s IH]; intros H; cbn [lin]; [reflexivity |].
  rewrite (H w x (or_introl eq_refl)), IH; [reflexivity | intros; eapply H; right; eassumption].
Qed.

Lemma lin_scale h x : forall s, lin (fun w => cmul x (h w)) s = cmul x (lin h s).
Proof. induction s as [| [w y] s IH]; cbn [lin]; [ring | rewrite IH; ring]. Qed.

Lemma lin_plus h g : forall s, lin (fun w => cadd (h w) (g w)) s = cadd (lin h s) (lin g s).
Proof. induction s as [| [w y] s IH]; cbn [lin]; [ring | rewrite IH; ring]. Qed.

Lemma lin_zero : forall s, lin (fun _ => c0) s = c0.
Proof. induction s as [| [w y] s IH]; cbn [lin]; [reflexivity | rewrite IH; ring]. Qed.

Lemma lin_swap (g : word -> word -> GZ) : forall a b,
  lin (fun w1 => lin (fun w2 => g w1 w2) b) a = lin (fun w2 => lin (fun w1 => g w1 w2) a) b.
Proof.
  induction a as [| [w x] a IH]; intros b; cbn [lin].
  - rewrite lin_zero. reflexivity.
  - rewrite IH. rewrite <- lin_scale, <- lin_plus. reflexivity.
Qed.

(* a finite sum of linear functionals is the linear functional of the sums *)
Lemma csum_lin {A} (G : word -> A -> GZ) l : forall s,
  csum (map (fun k => lin (fun w => G w k) s) l) = lin (fun w => csum (map (G w) l)) s.
Proof.
  induction s as [| [w x] s IH]; cbn [lin]; [apply csum_zero |].
  rewrite <- IH, <- csum_scale, <- csum_add. reflexivity.
Qed.

Lemma coeff_lin u : forall s, coeff s u = lin (delta u) s.
Proof.
  induction s as [| [w x] s IH]; cbn [coeff lin]; [reflexivity |].
  rewrite IH. unfold delta. destruct (weqb w u); ring.
Qed.

Lemma smat_lin order r c : forall s, smat order s r c = lin (fun w => wmat order w r c) s.
Proof. induction s as [| [w x] s IH]; cbn [smat lin]; [reflexivity | rewrite IH; reflexivity]. Qed.

Lemma coeff_sadd a b u : coeff (sadd a b) u = cadd (coeff a u) (coeff b u).
Proof. rewrite !coeff_lin. apply lin_sadd. Qed.

Lemma coeff_smul x a u : coeff (smul x a) u = cmul x (coeff a u).
Proof. rewrite !coeff_lin. apply lin_smul. Qed.

Lemma coeff_ssub a b u : coeff (ssub a b) u = csub (coeff a u) (coeff b u).
Proof. unfold ssub. rewrite coeff_sadd, coeff_smul. destruct (coeff b u) as [p q]. gz. Qed.

Lemma smat_sadd order a b r c : smat order (sadd a b) r c = cadd (smat order a r c) (smat order b r c).
Proof. rewrite !smat_lin. apply lin_sadd. Qed.

Lemma smat_smul order x a r c : smat order (smul x a) r c = cmul x (smat order a r c).
Proof. rewrite !smat_lin. apply lin_smul. Qed.

(* products: every linear functional of a @ b is the bilinear form `bil` *)
Lemma lin_mm_row h w1 x1 : forall b acc,
  lin h (mm_row w1 x1 acc b) =
  cadd (lin h acc) (cmul x1 (lin (fun w2 => cmul (iph (fst (wmul w1 w2))) (h (snd (wmul w1 w2)))) b)).
Proof.
  induction b as [| [w2 x2] b IH]; intros acc; cbn [mm_row lin]; [ring |].
  destruct (wmul w1 w2) as [k w] eqn:E. rewrite IH, lin_supd. cbn [fst snd]. ring.
Qed.

Lemma lin_mm h b : forall a acc, lin h (mm acc a b) = cadd (lin h acc) (bil h a b).
Proof.
  unfold bil. induction a as [| [w1 x1] a IH]; intros acc; cbn [mm lin]; [ring |].
  rewrite IH, lin_mm_row. ring.
Qed.

Lemma lin_smatmul h a b : lin h (smatmul a b) = bil h a b.
Proof.
  unfold smatmul. destruct a as [| e a]; [reflexivity |]. destruct b as [| e' b].
  - symmetry. apply (lin_zero (e :: a)).
  - rewrite lin_mm. cbn [lin]. ring.
Qed.

Lemma bil_sadd_l h a b c : bil h (sadd a b) c = cadd (bil h a c) (bil h b c).
Proof. unfold bil. apply lin_sadd. Qed.

Lemma bil_sadd_r h a b c : bil h c (sadd a b) = cadd (bil h c a) (bil h c b).
Proof.
  unfold bil. rewrite <- lin_plus. apply lin_ext. intros w x _. apply lin_sadd.
Qed.

Lemma bil_smul_l h x a b : bil h (smul x a) b = cmul x (bil h a b).
Proof. unfold bil. apply lin_smul. Qed.

Lemma bil_smul_r h x a b : bil h a (smul x b) = cmul x (bil h a b).
Proof. unfold bil. rewrite <- lin_scale. apply lin_ext. intros w y _. apply lin_smul. Qed.

Lemma coeff_smatmul a b u : coeff (smatmul a b) u = bil (delta u) a b.
Proof. rewrite coeff_lin. apply lin_smatmul. Qed.

(* `mul1` with the factors in the order the swap flag of _matmul asks for *)
Definition mulsw (sw : bool) (p q : P1) : Z * P1 := if sw then mul1 q p else mul1 p q.

Lemma wmerge_eq sw a b : wmerge sw a b =
  match a, b with
  | [], _ => (0, b)
  | _, [] => (0, a)
  | (i, p) :: a', (j, q) :: b' =>
      if i <? j then let '(k, w) := wmerge sw a' b in (k, (i, p) :: w)
      else if j <? i then let '(k, w) := wmerge sw a b' in (k, (j, q) :: w)
      else let '(k, w) := wmerge sw a' b' in
           let '(k1, r) := mulsw sw p q in
           match r with PI => (k, w) | _ => (k1 + k, (i, r) :: w) end
  end.
Proof. destruct a as [| [i p] a']; destruct b as [| [j q] b']; reflexivity. Qed.

Lemma merge_ind (P : word -> word -> Prop) :
  (forall b, P [] b) -> (forall a, P a []) ->
  (forall i p a' j q b', i < j -> P a' ((j, q) :: b') -> P ((i, p) :: a') ((j, q) :: b')) ->
  (forall i p a' j q b', j < i -> P ((i, p) :: a') b' -> P ((i, p) :: a') ((j, q) :: b')) ->
  (forall i p a' q b', P a' b' -> P ((i, p) :: a') ((i, q) :: b')) ->
  forall a b, P a b.
Proof.
  intros H1 H2 H3 H4 H5. induction a as [| [i p] a' IHa]; [exact H1 |].
  induction b as [| [j q] b' IHb]; [apply H2 |].
  destruct (Z.lt_trichotomy i j) as [L | [E | G]]; [apply H3 | subst; apply H5 | apply H4]; auto.
Qed.

Lemma wmerge_nil_l sw b : wmerge sw [] b = (0, b).
Proof. destruct b; reflexivity. Qed.

Lemma wmerge_nil_r sw a : wmerge sw a [] = (0, a).
Proof. destruct a as [| [i p] a']; reflexivity. Qed.

Lemma wmerge_lt sw i p a' j q b' : i < j ->
  wmerge sw ((i, p) :: a') ((j, q) :: b') =
  (fst (wmerge sw a' ((j, q) :: b')), (i, p) :: snd (wmerge sw a' ((j, q) :: b'))).
Proof.
  intros L. rewrite wmerge_eq. apply Z.ltb_lt in L. rewrite L.
  destruct (wmerge sw a' ((j, q) :: b')); reflexivity.
Qed.

Lemma wmerge_gt sw i p a' j q b' : j < i ->
  wmerge sw ((i, p) :: a') ((j, q) :: b') =
  (fst (wmerge sw ((i, p) :: a') b'), (j, q) :: snd (wmerge sw ((i, p) :: a') b')).
Proof.
  intros L. rewrite wmerge_eq. assert (E1 : (i <? j) = false) by (apply Z.ltb_ge; lia).
  apply Z.ltb_lt in L. rewrite E1, L. destruct (wmerge sw ((i, p) :: a') b'); reflexivity.
Qed.

Lemma wmerge_same sw i p a' q b' :
  wmerge sw ((i, p) :: a') ((i, q) :: b') =
  match snd (mulsw sw p q) with
  | PI => wmerge sw a' b'
  | r => (fst (mulsw sw p q) + fst (wmerge sw a' b'), (i, r) :: snd (wmerge sw a' b'))
  end.
Proof.
  rewrite wmerge_eq. rewrite Z.ltb_irrefl. destruct (wmerge sw a' b') as [k w].
  destruct (mulsw sw p q) as [k1 r]. destruct r; reflexivity.
Qed.

Lemma mulsw_negb sw p q : mulsw (negb sw) q p = mulsw sw p q.
Proof. destruct sw; reflexivity. Qed.

Lemma mulsw_I_r sw p : mulsw sw p PI = (0, p).
Proof. destruct sw; cbn; [apply mul1_I_l | apply mul1_I_r]. Qed.
Lemma mulsw_PI_phase sw p q : snd (mulsw sw p q) = PI -> fst (mulsw sw p q) = 0.
Proof. destruct sw; cbn; apply mul1_PI_phase. Qed.
Lemma mulsw_word sw p q : snd (mulsw sw p q) = snd (mul1 p q).
Proof. destruct sw; [apply mul1_word_comm | reflexivity]. Qed.

(* Which word is `base` and which `iterator` is immaterial: merging a into b with the factors swapped is
   merging b into a.  So _matmul is the plain merge, and the swap flag only matters for the phase. *)
Lemma wmerge_swap sw : forall a b, wmerge sw a b = wmerge (negb sw) b a.
Proof.
  apply merge_ind.
  - intros b. rewrite wmerge_nil_l, wmerge_nil_r. reflexivity.
  - intros a. rewrite wmerge_nil_l, wmerge_nil_r. reflexivity.
  - intros i p a' j q b' L IH. rewrite wmerge_lt, wmerge_gt, IH by exact L. reflexivity.
  - intros i p a' j q b' L IH. rewrite wmerge_gt, wmerge_lt, IH by exact L. reflexivity.
  - intros i p a' q b' IH. rewrite !wmerge_same, mulsw_negb, IH. reflexivity.
Qed.

Lemma wmul_merge a b : wmul a b = wmerge false a b.
Proof. unfold wmul. destruct (length b <=? length a)%nat; [reflexivity | symmetry; apply (wmerge_swap false)]. Qed.

Lemma wmerge_word sw : forall a b, snd (wmerge sw a b) = snd (wmerge false a b).
Proof.
  apply merge_ind.
  - intros b. rewrite !wmerge_nil_l. reflexivity.
  - intros a. rewrite !wmerge_nil_r. reflexivity.
  - intros i p a' j q b' L IH. rewrite !wmerge_lt by exact L. cbn [snd]. rewrite IH. reflexivity.
  - intros i p a' j q b' L IH. rewrite !wmerge_gt by exact L. cbn [snd]. rewrite IH. reflexivity.
  - intros i p a' q b' IH. rewrite !wmerge_same, !mulsw_word.
    destruct (snd (mul1 p q)); cbn [snd]; rewrite IH; reflexivity.
Qed.

Lemma wmul_comm_word a b : snd (wmul b a) = snd (wmul a b).
Proof. rewrite !wmul_merge, (wmerge_swap false b a). apply wmerge_word. Qed.

Lemma lb_weaken m j r : lb j r -> m <= j -> lb m r.
Proof. destruct r as [| [k ?] ?]; cbn; lia. Qed.

Lemma lb_lookup : forall w m, wf w -> lb m w -> forall x, x <= m -> lookup w x = PI.
Proof.
  induction w as [| [j p] r IH]; intros m W L x Hx; cbn [lookup]; [reflexivity |].
  cbn in L. destruct W as [_ [Lr Wr]].
  assert (E : (x =? j) = false) by (apply Z.eqb_neq; lia). rewrite E.
  apply (IH j Wr Lr). lia.
Qed.

Lemma keys_gt : forall w m, wf w -> lb m w -> forall x, In x (keys w) -> m < x.
Proof.
  induction w as [| [j p] r IH]; intros m W L x Hx; [destruct Hx |].
  cbn in L. destruct W as [_ [Lr Wr]]. destruct Hx as [<- | Hx]; [exact L |].
  cbn [fst] in *. pose proof (IH j Wr Lr x Hx). lia.
Qed.

Lemma lookup_head i p r : lookup ((i, p) :: r) i = p.
Proof. cbn [lookup]. rewrite Z.eqb_refl. reflexivity. Qed.
Lemma lookup_tail i p r x : x <> i -> lookup ((i, p) :: r) x = lookup r x.
Proof. intros H. cbn [lookup]. apply Z.eqb_neq in H. rewrite H. reflexivity. Qed.

Lemma wmerge_lookup : forall a b, wf a -> wf b ->
  forall x, lookup (snd (wmerge false a b)) x = snd (mul1 (lookup a x) (lookup b x)).
Proof.
  apply (merge_ind (fun a b => wf a -> wf b ->
    forall x, lookup (snd (wmerge false a b)) x = snd (mul1 (lookup a x) (lookup b x)))).
  - intros b _ _ x. rewrite wmerge_nil_l. cbn [snd lookup]. rewrite mul1_I_l. reflexivity.
  - intros a _ _ x. rewrite wmerge_nil_r. cbn [snd lookup]. rewrite mul1_I_r. reflexivity.
  - intros i p a' j q b' L IH [_ [_ Wa']] Wb x. rewrite wmerge_lt by exact L. cbn [snd].
    destruct (Z.eq_dec x i) as [-> | N].
    + rewrite !lookup_head, (lb_lookup _ i Wb L i), mul1_I_r by lia. reflexivity.
    + rewrite !(lookup_tail i) by exact N. apply IH; assumption.
  - intros i p a' j q b' L IH Wa [_ [_ Wb']] x. rewrite wmerge_gt by exact L. cbn [snd].
    destruct (Z.eq_dec x j) as [-> | N].
    + rewrite !lookup_head, (lb_lookup _ j Wa L j), mul1_I_l by lia. reflexivity.
    + rewrite !(lookup_tail j) by exact N. apply IH; assumption.
  - intros i p a' q b' IH [_ [La Wa']] [_ [Lb Wb']] x. rewrite wmerge_same. cbn [mulsw].
    destruct (Z.eq_dec x i) as [-> | N].
    + rewrite !lookup_head. destruct (snd (mul1 p q)); cbn [snd]; try (rewrite lookup_head; reflexivity).
      rewrite IH, (lb_lookup a' i Wa' La i), (lb_lookup b' i Wb' Lb i) by (assumption || lia). reflexivity.
    + rewrite !(lookup_tail i p), !(lookup_tail i q) by exact N.
      destruct (snd (mul1 p q)); cbn [snd]; rewrite ?(lookup_tail i) by exact N; apply IH; assumption.
Qed.

Lemma wmerge_wf : forall a b, wf a -> wf b ->
  wf (snd (wmerge false a b)) /\ forall m, lb m a -> lb m b -> lb m (snd (wmerge false a b)).
Proof.
  apply (merge_ind (fun a b => wf a -> wf b ->
    wf (snd (wmerge false a b)) /\ forall m, lb m a -> lb m b -> lb m (snd (wmerge false a b)))).
  - intros b _ Wb. rewrite wmerge_nil_l. auto.
  - intros a Wa _. rewrite wmerge_nil_r. auto.
  - intros i p a' j q b' L IH [Hp [La Wa']] Wb. rewrite wmerge_lt by exact L. cbn [snd].
    destruct (IH Wa' Wb) as [W1 L1]. split; [| intros m Hm _; exact Hm].
    cbn [wf]. repeat split; [exact Hp | apply L1; [exact La | exact L] | exact W1].
  - intros i p a' j q b' L IH Wa [Hq [Lb Wb']]. rewrite wmerge_gt by exact L. cbn [snd].
    destruct (IH Wa Wb') as [W1 L1]. split; [| intros m _ Hm; exact Hm].
    cbn [wf]. repeat split; [exact Hq | apply L1; [exact L | exact Lb] | exact W1].
  - intros i p a' q b' IH [_ [La Wa']] [_ [Lb Wb']]. rewrite wmerge_same.
    destruct (IH Wa' Wb') as [W1 L1].
    destruct (snd (mulsw false p q)); cbn [snd];
      [split; [exact W1 | intros m Hm _; apply L1; eapply lb_weaken; try eassumption; cbn in Hm; lia] | ..];
      (split; [cbn [wf]; repeat split; [discriminate | apply L1; assumption | exact W1] | intros m Hm _; exact Hm]).
Qed.

Fixpoint wsum (f : P1 -> P1 -> Z) (a b : word) (l : list Z) : Z :=
  match l with [] => 0 | x :: r => f (lookup a x) (lookup b x) + wsum f a b r end.

Lemma wsum_ext f a b a2 b2 : forall l,
  (forall x, In x l -> lookup a x = lookup a2 x /\ lookup b x = lookup b2 x) ->
  wsum f a b l = wsum f a2 b2 l.
Proof.
  induction l as [| x l IH]; intros H; cbn [wsum]; [reflexivity |].
  destruct (H x (or_introl eq_refl)) as [-> ->]. rewrite IH; [reflexivity | intros y Hy; apply H; right; exact Hy].
Qed.

Lemma wsum_zero f a b : forall l, (forall x, In x l -> f (lookup a x) (lookup b x) = 0) -> wsum f a b l = 0.
Proof.
  induction l as [| x l IH]; intros H; cbn [wsum]; [reflexivity |].
  rewrite (H x (or_introl eq_refl)), IH; [reflexivity | intros y Hy; apply H; right; exact Hy].
Qed.

Lemma wsum_perm f a b l l' : Permutation l l' -> wsum f a b l = wsum f a b l'.
Proof. induction 1; cbn [wsum]; lia. Qed.

(* the wires of a canonical tail lie above the head wire, so a lookup there does not see the head *)
Lemma lookup_above i p r w x : wf r -> lb i r -> In x (keys r) -> lookup ((i, p) :: w) x = lookup w x.
Proof. intros W L Hx. pose proof (keys_gt r i W L x Hx). apply lookup_tail. lia. Qed.

(* the phase is the sum of the wire-wise phases over the wires of the first word *)
Lemma wmerge_phase sw : forall a b, wf a -> wf b ->
  fst (wmerge sw a b) = wsum (fun p q => fst (mulsw sw p q)) a b (keys a).
Proof.
  apply (merge_ind (fun a b => wf a -> wf b ->
    fst (wmerge sw a b) = wsum (fun p q => fst (mulsw sw p q)) a b (keys a))).
  - intros b _ _. rewrite wmerge_nil_l. reflexivity.
  - intros a _ _. rewrite wmerge_nil_r. symmetry.
    apply wsum_zero. intros x _. cbn [lookup]. rewrite mulsw_I_r. reflexivity.
  - intros i p a' j q b' L IH [_ [La Wa']] Wb. rewrite wmerge_lt by exact L. cbn [fst keys map wsum].
    rewrite lookup_head, (lb_lookup _ i Wb L i), mulsw_I_r, (IH Wa' Wb) by lia.
    apply wsum_ext. intros x Hx. split; [symmetry; apply (lookup_above i p a'); assumption | reflexivity].
  - intros i p a' j q b' L IH Wa [_ [_ Wb']]. rewrite wmerge_gt by exact L. cbn [fst].
    rewrite (IH Wa Wb'). apply wsum_ext. intros x Hx. split; [reflexivity |].
    pose proof (keys_gt _ j Wa L x Hx). symmetry. apply lookup_tail. lia.
  - intros i p a' q b' IH [_ [La Wa']] [_ [_ Wb']]. rewrite wmerge_same. cbn [keys map wsum fst].
    rewrite !lookup_head.
    replace (wsum _ _ _ (map fst a')) with (fst (wmerge sw a' b')).
    + destruct (snd (mulsw sw p q)) eqn:E; cbn [fst]; try reflexivity.
      rewrite (mulsw_PI_phase sw p q E). reflexivity.
    + rewrite (IH Wa' Wb'). apply wsum_ext. intros x Hx. split; symmetry; apply (lookup_above i _ a'); assumption.
Qed.

Lemma wmem_keys : forall w x, wmem x w = true <-> In x (keys w).
Proof.
  induction w as [| [j p] r IH]; intros x; cbn [wmem keys map In fst]; [split; [discriminate | tauto] |].
  rewrite orb_true_iff, Z.eqb_eq, IH. unfold keys. split; intros [H | H]; auto.
Qed.

Lemma wmem_false_lookup : forall w x, wmem x w = false -> lookup w x = PI.
Proof.
  induction w as [| [j p] r IH]; intros x H; cbn [wmem lookup] in *; [reflexivity |].
  apply orb_false_iff in H. destruct H as [H1 H2]. rewrite H1. apply IH; exact H2.
Qed.

Lemma wf_nodup : forall w, wf w -> NoDup (keys w).
Proof.
  induction w as [| [j p] r IH]; intros W; cbn [keys map fst]; constructor.
  - destruct W as [_ [L Wr]]. intros H. pose proof (keys_gt r j Wr L j H). lia.
  - apply IH. apply W.
Qed.

Lemma wsum_filter f a b : (forall q, f PI q = 0) -> forall l,
  wsum f a b l = wsum f a b (filter (fun x => wmem x a) l).
Proof.
  intros F. induction l as [| x l IH]; cbn [wsum filter]; [reflexivity |].
  destruct (wmem x a) eqn:E; cbn [wsum]; rewrite IH; [reflexivity |].
  rewrite (wmem_false_lookup a x E), F. reflexivity.
Qed.

(* wires where the first word is the identity contribute nothing, so any duplicate-free wire order that
   contains the wires of the first word gives the same sum *)
Lemma wsum_superset f a b order : (forall q, f PI q = 0) -> wf a -> NoDup order -> covered order a ->
  wsum f a b order = wsum f a b (keys a).
Proof.
  intros F W N C. rewrite (wsum_filter f a b F order). apply wsum_perm. apply NoDup_Permutation.
  - apply NoDup_filter. exact N.
  - apply wf_nodup. exact W.
  - intros x. rewrite filter_In, wmem_keys. split; [tauto | intros H; split; [apply C; exact H | exact H]].
Qed.

Lemma fmul_expand a b : forall order,
  fmul (expand order a) (expand order b) =
  (wsum (fun p q => fst (mul1 p q)) a b order, map (fun x => snd (mul1 (lookup a x) (lookup b x))) order).
Proof.
  induction order as [| x l IH]; cbn [expand map fmul wsum]; [reflexivity |].
  fold (expand l a) (expand l b). rewrite IH. reflexivity.
Qed.

Lemma wmul_algebraic_l a b order : wf a -> wf b -> NoDup order -> covered order a -> covered order b ->
  wf (snd (wmul a b)) /\
  (forall x, lookup (snd (wmul a b)) x = snd (mul1 (lookup a x) (lookup b x))) /\
  expand order (snd (wmul a b)) = snd (fmul (expand order a) (expand order b)) /\
  fst (wmul a b) = fst (fmul (expand order a) (expand order b)).
Proof.
  intros Wa Wb N Ca Cb. rewrite wmul_merge, fmul_expand. cbn [fst snd]. repeat split.
  - apply wmerge_wf; assumption.
  - apply wmerge_lookup; assumption.
  - apply map_ext, wmerge_lookup; assumption.
  - rewrite wmerge_phase by assumption. symmetry.
    apply (wsum_superset (fun p q => fst (mulsw false p q))); try assumption.
    intros q; destruct q; reflexivity.
Qed.

Lemma word_mul_hom_l a b order r c :
  wf a -> wf b -> NoDup order -> covered order a -> covered order b ->
  length r = length order -> length c = length order ->
  mmul (length order) (wmat order a) (wmat order b) r c =
  cmul (iph (fst (wmul a b))) (wmat order (snd (wmul a b)) r c).
Proof.
  intros Wa Wb N Ca Cb Hr Hc.
  destruct (wmul_algebraic_l a b order Wa Wb N Ca Cb) as [_ [_ [E1 E2]]].
  unfold wmat. rewrite E1, E2.
  assert (L : length (expand order a) = length order) by (unfold expand; apply map_length).
  rewrite <- L. apply full_mul_hom_l; unfold expand; rewrite !map_length; auto.
Qed.

Lemma acount_wsum : forall a b, wf a -> acount a b = wsum anticom1 a b (keys a).
Proof.
  induction a as [| [i p] r IH]; intros b W; cbn [acount keys map wsum fst]; [reflexivity |].
  destruct W as [_ [L Wr]]. rewrite lookup_head, (IH b Wr). f_equal.
  - destruct (wmem i b) eqn:E; [reflexivity |].
    rewrite (wmem_false_lookup b i E). destruct p; reflexivity.
  - apply wsum_ext. intros x Hx. split; [symmetry; apply (lookup_above i p r); assumption | reflexivity].
Qed.

Lemma wsum_count a b : forall l,
  wsum anticom1 a b l = Z.of_nat (length (filter (fun i => differ (lookup a i) (lookup b i)) l)).
Proof.
  induction l as [| x l IH]; cbn [wsum filter]; [reflexivity |]. rewrite IH.
  destruct (lookup a x), (lookup b x); cbn [anticom1 differ p1_eqb negb length]; lia.
Qed.

Lemma acount_overlap a b : wf a -> acount a b = overlap a b.
Proof.
  intros W. rewrite (acount_wsum a b W). unfold overlap. rewrite <- wsum_count. symmetry.
  apply wsum_superset; [intros q; destruct q; reflexivity | exact W | apply NoDup_nodup |].
  intros x H. apply nodup_In, in_or_app. left. exact H.
Qed.

Lemma commutes_even_l a b : wf a -> commutes a b = Z.even (overlap a b).
Proof.
  intros W. unfold commutes. rewrite (acount_overlap a b W). rewrite Zmod_even.
  destruct (Z.even (overlap a b)); reflexivity.
Qed.

Lemma wsum_div f g h a b : (forall p q, (4 | g p q - f p q - 2 * h p q)) -> forall l,
  (4 | wsum g a b l - wsum f a b l - 2 * wsum h a b l).
Proof.
  intros T. induction l as [| x l IH]; cbn [wsum]; [exists 0; reflexivity |].
  replace (g (lookup a x) (lookup b x) + wsum g a b l - (f (lookup a x) (lookup b x) + wsum f a b l) -
           2 * (h (lookup a x) (lookup b x) + wsum h a b l))
    with ((g (lookup a x) (lookup b x) - f (lookup a x) (lookup b x) - 2 * h (lookup a x) (lookup b x)) +
          (wsum g a b l - wsum f a b l - 2 * wsum h a b l)) by ring.
  apply Z.divide_add_r; [apply T | exact IH].
Qed.

(* b@a is a@b merged with the factors swapped, so both phases and the anticommutation count are sums over
   the wires of a, and wire by wire they differ by twice the anticommutation entry (mod 4) *)
Lemma wmul_comm_phase a b : wf a -> wf b ->
  iph (fst (wmul b a)) = cmul (if commutes a b then c1 else cneg c1) (iph (fst (wmul a b))).
Proof.
  intros Wa Wb. rewrite !wmul_merge, (wmerge_swap false b a), !wmerge_phase by assumption.
  unfold commutes. rewrite (acount_wsum a b Wa).
  destruct (wsum_div (fun p q => fst (mulsw false p q)) (fun p q => fst (mulsw true p q)) anticom1 a b
              table_anticom (keys a)) as [m Hm].
  replace (wsum _ a b (keys a)) with
    ((wsum (fun p q => fst (mulsw false p q)) a b (keys a) + 2 * wsum anticom1 a b (keys a)) + m * 4)
    by (cbn [negb]; lia).
  rewrite iph_mod, Z_mod_plus_full, <- iph_mod, iph_add, iph_2n. ring.
Qed.

(* the commutator of two words, as a formal combination, is a@b - b@a *)
Lemma wcomm_spec a b (h : word -> GZ) : wf a -> wf b ->
  cmul (snd (wcomm a b)) (h (fst (wcomm a b))) =
  csub (cmul (iph (fst (wmul a b))) (h (snd (wmul a b)))) (cmul (iph (fst (wmul b a))) (h (snd (wmul b a)))).
Proof.
  intros Wa Wb. rewrite (wmul_comm_word a b), (wmul_comm_phase a b Wa Wb). unfold wcomm.
  destruct (commutes a b); [cbn [fst snd]; ring |].
  destruct (wmul a b) as [k w]. cbn [fst snd].
  replace (2, 0) with (cadd c1 c1) by reflexivity. ring.
Qed.

Lemma mmul_lin_l n (F : word -> list bool -> list bool -> GZ) N r c : forall a,
  mmul n (fun r' k => lin (fun w => F w r' k) a) N r c = lin (fun w => mmul n (F w) N r c) a.
Proof.
  unfold mmul. induction a as [| [w x] a IH]; cbn [lin].
  - rewrite (csum_ext _ (fun _ => c0)) by (intros; ring). apply csum_zero.
  - rewrite <- IH, <- csum_scale, <- csum_add. apply csum_ext. intros k _. ring.
Qed.

Lemma mmul_lin_r n (F : word -> list bool -> list bool -> GZ) M r c : forall b,
  mmul n M (fun k c' => lin (fun w => F w k c') b) r c = lin (fun w => mmul n M (F w) r c) b.
Proof.
  unfold mmul. induction b as [| [w x] b IH]; cbn [lin].
  - rewrite (csum_ext _ (fun _ => c0)) by (intros; ring). apply csum_zero.
  - rewrite <- IH, <- csum_scale, <- csum_add. apply csum_ext. intros k _. ring.
Qed.

Lemma mmul_ext n M M' N N' r c :
  (forall k, M r k = M' r k) -> (forall k, N k c = N' k c) -> mmul n M N r c = mmul n M' N' r c.
Proof. intros H1 H2. unfold mmul. apply csum_ext. intros k _. rewrite H1, H2. reflexivity. Qed.

Lemma smatmul_mat_hom_l order a b r c :
  NoDup order -> sent_wf order a -> sent_wf order b ->
  length r = length order -> length c = length order ->
  smat order (smatmul a b) r c = mmul (length order) (smat order a) (smat order b) r c.
Proof.
  intros N Sa Sb Hr Hc. rewrite smat_lin, lin_smatmul. unfold bil.
  rewrite (mmul_ext _ _ (fun r' k => lin (fun w => wmat order w r' k) a) _ (fun k c' => lin (fun w => wmat order w k c') b))
    by (intros; apply smat_lin).
  rewrite mmul_lin_l. apply lin_ext. intros w1 x1 H1. rewrite mmul_lin_r. apply lin_ext. intros w2 x2 H2.
  destruct (Sa w1 x1 H1) as [W1 C1]. destruct (Sb w2 x2 H2) as [W2 C2].
  symmetry. apply word_mul_hom_l; assumption.
Qed.

(* trace: the trace of a Kronecker product is the product of the single-qubit traces *)
Definition tr1 (p : P1) : GZ := match p with PI => (2, 0) | _ => c0 end.
Definition ktrace (l : list P1) : GZ := fold_right (fun p acc => cmul (tr1 p) acc) c1 l.
Definition cpow2 (n : nat) : GZ := (2 ^ Z.of_nat n, 0).

Lemma mtrace_kmat : forall l, mtrace (length l) (kmat l) = ktrace l.
Proof.
  induction l as [| p l IH]; [reflexivity |].
  cbn [length ktrace fold_right]. fold (ktrace l). rewrite <- IH.
  unfold mtrace. cbn [bits]. rewrite map_app, csum_app, !map_map. cbn [kmat]. rewrite !csum_scale.
  replace (tr1 p) with (cadd (mat1 p false false) (mat1 p true true)) by (destruct p; reflexivity). ring.
Qed.

Lemma ktrace_identity : forall order, ktrace (expand order []) = cpow2 (length order).
Proof.
  induction order as [| x l IH]; [reflexivity |]. cbn [expand map ktrace fold_right length].
  fold (expand l []) (ktrace (expand l [])). rewrite IH. cbn [lookup].
  unfold cpow2, cmul, tr1. cbn [fst snd]. rewrite Nat2Z.inj_succ, Z.pow_succ_r by lia. f_equal; ring.
Qed.

Lemma ktrace_zero w : forall order x, In x order -> lookup w x <> PI -> ktrace (expand order w) = c0.
Proof.
  induction order as [| y l IH]; intros x Hx Hl; [destruct Hx |]. cbn [expand map ktrace fold_right].
  fold (expand l w) (ktrace (expand l w)). destruct Hx as [-> | Hx].
  - destruct (lookup w x); [congruence | | |]; cbn [tr1]; ring.
  - rewrite (IH x Hx Hl). ring.
Qed.

Lemma mtrace_word order w : wf w -> covered order w ->
  mtrace (length order) (wmat order w) = cmul (cpow2 (length order)) (delta [] w).
Proof.
  intros W C. unfold wmat. replace (length order) with (length (expand order w)) at 1 by (unfold expand; apply map_length).
  rewrite mtrace_kmat. unfold delta. destruct w as [| [i p] r]; cbn [weqb].
  - rewrite ktrace_identity. ring.
  - rewrite (ktrace_zero _ order i); [ring | apply C; left; reflexivity | rewrite lookup_head; apply W].
Qed.

Lemma trace_l order s : sent_wf order s ->
  mtrace (length order) (smat order s) = cmul (cpow2 (length order)) (coeff s []).
Proof.
  intros S. unfold mtrace.
  rewrite (csum_ext _ (fun r => lin (fun w => wmat order w r r) s)) by (intros; apply smat_lin).
  rewrite csum_lin, coeff_lin, <- lin_scale. apply lin_ext. intros w x H.
  destruct (S w x H) as [W C]. apply mtrace_word; assumption.
Qed.

Lemma coeff_absent u : forall s, ~ In u (map fst s) -> coeff s u = c0.
Proof.
  induction s as [| [w x] s IH]; intros H; cbn [coeff]; [reflexivity |].
  destruct (weqb w u) eqn:E.
  - apply weqb_eq in E. destruct H. left. exact E.
  - rewrite IH; [ring | intros H'; apply H; right; exact H'].
Qed.

Lemma strace_coeff : forall s, NoDup (map fst s) -> strace s = coeff s [].
Proof.
  induction s as [| [w x] s IH]; intros N; cbn [strace coeff]; [reflexivity |].
  inversion N as [| ? ? Hn Ns]; subst. destruct w as [| [i p] w]; cbn [weqb].
  - rewrite (coeff_absent [] s Hn). ring.
  - rewrite (IH Ns). ring.
Qed.

Lemma winsert_wf i p : forall w, wf w -> p <> PI -> ~ In i (keys w) ->
  wf (winsert i p w) /\ forall m, m < i -> lb m w -> lb m (winsert i p w).
Proof.
  induction w as [| [j q] r IH]; intros W Hp Hn; cbn [winsert].
  - split; [cbn; auto | intros m Hm _; exact Hm].
  - destruct W as [Hq [L Wr]]. destruct (i <? j) eqn:E.
    + apply Z.ltb_lt in E. split; [cbn [wf lb]; auto | intros m Hm _; exact Hm].
    + apply Z.ltb_ge in E. assert (i <> j) by (intros ->; apply Hn; left; reflexivity).
      destruct (IH Wr Hp (fun H' => Hn (or_intror H'))) as [W1 L1].
      split; [cbn [wf]; repeat split; [exact Hq | apply L1; [lia | exact L] | exact W1] | intros m Hm Hl; exact Hl].
Qed.

Lemma keys_winsert i p : forall w x, In x (keys (winsert i p w)) -> x = i \/ In x (keys w).
Proof.
  induction w as [| [j q] r IH]; intros x H; cbn [winsert] in H.
  - destruct H as [<- | []]; auto.
  - destruct (i <? j); cbn [keys map fst In] in *.
    + destruct H as [<- | H]; auto.
    + destruct H as [<- | H]; auto. destruct (IH x H); auto.
Qed.

Lemma keys_mkword : forall raw x, In x (keys (mkword raw)) -> In x (map fst raw).
Proof.
  induction raw as [| [i p] r IH]; intros x H; cbn [mkword] in H; [destruct H |].
  cbn [map fst In]. destruct p; try (right; apply IH; exact H);
    (destruct (keys_winsert _ _ _ _ H) as [-> | H']; [left; reflexivity | right; apply IH; exact H']).
Qed.

Lemma mkword_wf : forall raw, NoDup (map fst raw) -> wf (mkword raw).
Proof.
  induction raw as [| [i p] r IH]; intros N; cbn [mkword]; [exact I |].
  inversion N as [| ? ? Hn Nr]; subst.
  assert (Hk : ~ In i (keys (mkword r))) by (intros H; apply Hn; apply keys_mkword; exact H).
  destruct p; [apply IH; exact Nr | | |]; apply winsert_wf; auto; discriminate.
Qed.
