(* C12: proofs about the model of the decompose transform (Disc/DecompModel.v).
   gen_cases is the one case analysis of the generator: a call emits its operator (with a tag emit_ok justifies),
   or wraps the output for the base of a Conditional, or concatenates the outputs for a decomposition some oracle
   chose (`choice`).  Each theorem - target set, semantics, work-wire budget, resource estimate - is an induction on
   the fuel through gen_cases, with bind_flat_rel carrying the statement over the concatenation, and
   decompose_cases adding the top-level early return. *)
From Coq Require Import List ZArith Bool Lia Permutation.
From PLV Require Import Disc.DecompModel.
Import ListNotations.
Open Scope Z_scope.

(* the branch of the generator common to every operator that is neither Allocate/Deallocate nor Conditional *)
Definition step_other (recurse : list op -> option Z -> result (list emitted)) (E : env) (o : op)
           (reached : bool) (budget : option Z) : result (list emitted) :=
  if accept E o then Ok [(o, TAcc, budget)]
  else if reached then Ok [(o, TDepth, budget)]
  else if is_sub o then
    match legacy E o with Some d => recurse d budget | None => Err EUndefined end
  else
    match (if has_solution E then gsolve E o budget else None) with
    | Some (d, s) => recurse d (dec_budget budget s)
    | None =>
        if graph_enabled E && is_gphase o then Ok [(o, TWarnGP, budget)]
        else match custom E with
             | Some cf => match cf o with Some d => recurse d budget | None => Err ECustomUndefined end
             | None =>
                 match legacy E o with
                 | Some d => recurse d budget
                 | None => if strict E then Err EUndefined
                           else Ok [(o, if graph_enabled E then TKeepNoDecomp else TWarnNoDecomp, budget)]
                 end
             end
    end.

Lemma gen_S : forall f E o depth budget,
  gen (S f) E o depth budget =
  if negb (defined E o) then Err EOracle else
  match o with
  | Alloc _ => Ok [(o, TPass, budget)]
  | Cond m base =>
      if accept E base then Ok [(o, TAcc, budget)]
      else if depth_reached (max_expansion E) depth then Ok [(o, TDepth, budget)]
      else match gen f E base depth (Some 0) with
           | Err e => Err e
           | Ok l => Ok (map (wrap_cond m) l)
           end
  | _ => step_other (fun d b' => bind_flat (fun s => gen f E s (depth + 1) b') d) E o
                    (depth_reached (max_expansion E) depth) budget
  end.
Proof. intros f E o depth budget; destruct o; reflexivity. Qed.

(* [d] is a decomposition one of the oracles gives for [o], and [b'] the budget its operators are generated with *)
Definition choice (E : env) (o : op) (budget : option Z) (d : list op) (b' : option Z) : Prop :=
  (legacy E o = Some d /\ b' = budget) \/
  (exists s, gsolve E o budget = Some (d, s) /\ b' = dec_budget budget s) \/
  (exists cf, custom E = Some cf /\ cf o = Some d /\ b' = budget).

Lemma acc_under_of_accept : forall E o, accept E o = true -> acc_under E o = true.
Proof. intros E o H. destruct o; simpl; rewrite H; reflexivity. Qed.

Lemma acc_under_inner : forall E o, accept E (inner o) = true -> acc_under E o = true.
Proof.
  intros E o. induction o; simpl; intros H; try (rewrite H; reflexivity).
  rewrite (IHo H). apply orb_true_r.
Qed.

Lemma not_cond_inner : forall o, (forall m b, o <> Cond m b) -> inner o = o.
Proof. intros o H. destruct o; simpl; auto. exfalso. eapply H; reflexivity. Qed.

Lemma depth_reached_some : forall mx d, depth_reached mx d = true -> mx <> None.
Proof. intros [m|] d H; discriminate. Qed.

Lemma step_other_cases : forall recurse E o reached budget out,
  inner o = o ->
  (reached = true -> max_expansion E <> None) ->
  step_other recurse E o reached budget = Ok out ->
  (exists t, out = [(o, t, budget)] /\ emit_ok E (o, t, budget)) \/
  (exists d b', accept E o = false /\ choice E o budget d b' /\ recurse d b' = Ok out).
Proof.
  intros recurse E o reached budget out Hin Hre H. unfold step_other in H.
  assert (Hleaf : forall t, emit_ok E (o, t, budget) -> Ok [(o, t, budget)] = Ok out ->
                  exists t, out = [(o, t, budget)] /\ emit_ok E (o, t, budget)).
  { intros t He Ho. inversion Ho. eauto. }
  destruct (accept E o) eqn:Ha.
  { left. apply (Hleaf TAcc); [apply acc_under_of_accept|]; assumption. }
  destruct reached.
  { left. exact (Hleaf TDepth (Hre eq_refl) H). }
  assert (Hnode : forall d b', choice E o budget d b' -> recurse d b' = Ok out ->
                  exists d b', false = false /\ choice E o budget d b' /\ recurse d b' = Ok out).
  { intros d b' Hc Hd. exists d, b'. auto. }
  destruct (is_sub o).
  { destruct (legacy E o) as [d|] eqn:Hl; [|discriminate]. right. apply (Hnode d budget); [left|]; auto. }
  destruct (if has_solution E then gsolve E o budget else None) as [[d s]|] eqn:Hg.
  { right. apply (Hnode d (dec_budget budget s)); [right; left; exists s|]; auto.
    destruct (has_solution E); [auto | discriminate]. }
  destruct (graph_enabled E && is_gphase o) eqn:Hgp.
  { apply andb_true_iff in Hgp. left. apply (Hleaf TWarnGP); auto. unfold emit_ok, e_op, e_tag; cbn [fst snd]. rewrite Hin. exact Hgp. }
  destruct (custom E) as [cf|] eqn:Hc.
  { destruct (cf o) as [d|] eqn:Hcf; [|discriminate].
    right. apply (Hnode d budget); [right; right; exists cf|]; auto. }
  destruct (legacy E o) as [d|] eqn:Hl.
  { right. apply (Hnode d budget); [left|]; auto. }
  destruct (strict E) eqn:Hst; [discriminate|].
  left. eapply Hleaf; [|exact H]. unfold emit_ok, e_op, e_tag; cbn [fst snd]. rewrite Hin.
  destruct (graph_enabled E) eqn:Hge; auto.
Qed.

(* One call of the generator either emits its operator with a tag that [emit_ok] justifies, or wraps what the base
   of a Conditional gave, or concatenates what the operators of a chosen decomposition gave. *)
Lemma gen_cases : forall f E o depth budget out,
  gen (S f) E o depth budget = Ok out ->
  (exists t, out = [(o, t, budget)] /\ emit_ok E (o, t, budget)) \/
  (exists m base l, o = Cond m base /\ gen f E base depth (Some 0) = Ok l /\ out = map (wrap_cond m) l) \/
  (exists d b', accept E o = false /\ choice E o budget d b' /\
                bind_flat (fun s => gen f E s (depth + 1) b') d = Ok out).
Proof.
  intros f E o depth budget out H. rewrite gen_S in H. destruct (negb (defined E o)); [discriminate|].
  pose proof (depth_reached_some (max_expansion E) depth) as Hre.
  destruct o as [c|c|c|c|m base];
    try (destruct (step_other_cases _ _ _ _ _ _ eq_refl Hre H) as [Hl|Hn]; [left; exact Hl | right; right; exact Hn]).
  - left. exists TPass. inversion H. split; reflexivity.
  - destruct (accept E base) eqn:Ha.
    { left. exists TAcc. inversion H. split; [reflexivity|].
      unfold emit_ok; simpl. rewrite (acc_under_of_accept _ _ Ha). apply orb_true_r. }
    destruct (depth_reached (max_expansion E) depth).
    { left. exists TDepth. inversion H. split; [reflexivity | exact (Hre eq_refl)]. }
    destruct (gen f E base depth (Some 0)) as [l|] eqn:Hg; [|discriminate].
    right; left. exists m, base, l. inversion H. auto.
Qed.

(* [bind_flat] relates the list to the concatenated output by any relation that holds of the empty lists and
   is preserved when one more result is put in front. *)
Lemma bind_flat_rel : forall A (f : A -> result (list emitted)) (R : list A -> list emitted -> Prop),
  R [] [] ->
  (forall x r a b, f x = Ok a -> R r b -> R (x :: r) (a ++ b)) ->
  forall l out, bind_flat f l = Ok out -> R l out.
Proof.
  intros A f R Hnil Hcons. induction l as [|x r IH]; intros out H; simpl in H.
  - inversion H. exact Hnil.
  - destruct (f x) as [a|] eqn:Hx; [|discriminate].
    destruct (bind_flat f r) as [b|]; [|discriminate].
    inversion H. apply Hcons; auto.
Qed.

Lemma bind_flat_inv : forall A (f : A -> result (list emitted)) l out,
  bind_flat f l = Ok out ->
  exists outs, Forall2 (fun x o => f x = Ok o) l outs /\ out = concat outs.
Proof.
  intros A f. apply bind_flat_rel.
  - exists []. split; constructor.
  - intros x r a b Hx (outs & H2 & ->). exists (a :: outs). split; [constructor; auto | reflexivity].
Qed.

Lemma bind_flat_Forall : forall A (f : A -> result (list emitted)) (P : emitted -> Prop) l out,
  (forall x o, f x = Ok o -> Forall P o) ->
  bind_flat f l = Ok out -> Forall P out.
Proof.
  intros A f P l out Hf. revert l out. apply bind_flat_rel.
  - constructor.
  - intros x r a b Hx Hb. apply Forall_app. eauto.
Qed.

Lemma decompose_cases : forall fuel E transform ops b0 out,
  decompose fuel E transform ops b0 = Ok out ->
  (forallb (accept E) ops = true /\ out = map (fun o => (o, TAcc, b0)) ops) \/
  bind_flat (fun o => gen fuel E o 0 b0) ops = Ok out.
Proof.
  intros fuel E transform ops b0 out H. unfold decompose in H.
  destruct (transform && forallb (accept E) ops) eqn:Ht; [left | right; exact H].
  apply andb_true_iff in Ht. inversion H. split; [apply Ht | reflexivity].
Qed.

Lemma emit_ok_wrap : forall E m e, emit_ok E e -> emit_ok E (wrap_cond m e).
Proof.
  intros E m [[o t] b] H. unfold emit_ok, wrap_cond, e_op, e_tag in *. simpl in *.
  destruct t; simpl; auto. rewrite H. apply orb_true_r.
Qed.

Lemma gen_in_target : forall fuel E o depth budget out,
  gen fuel E o depth budget = Ok out -> Forall (emit_ok E) out.
Proof.
  induction fuel as [|f IH]; intros E o depth budget out H; [discriminate|].
  destruct (gen_cases _ _ _ _ _ _ H) as [(t & -> & He) | [(m & base & l & -> & Hg & ->) | (d & b' & _ & _ & Hd)]].
  - repeat constructor. exact He.
  - apply Forall_map. eapply Forall_impl; [|exact (IH _ _ _ _ _ Hg)]. intro e. apply emit_ok_wrap.
  - eapply bind_flat_Forall; [|exact Hd]. intros x o' Hx. exact (IH _ _ _ _ _ Hx).
Qed.

Lemma decompose_in_target_lemma : forall fuel E transform ops b0 out,
  decompose fuel E transform ops b0 = Ok out -> Forall (emit_ok E) out.
Proof.
  intros fuel E transform ops b0 out H. destruct (decompose_cases _ _ _ _ _ _ H) as [[Hf ->] | Hb].
  - rewrite forallb_forall in Hf. apply Forall_map, Forall_forall. intros o Ho.
    apply acc_under_of_accept, Hf, Ho.
  - eapply bind_flat_Forall; [|exact Hb]. intros x o Hx. exact (gen_in_target _ _ _ _ _ _ Hx).
Qed.

(* the property's wording without flags: strict, unbounded depth, GlobalPhase accepted whenever the graph is on *)
Lemma decompose_in_target_strict_lemma : forall fuel E transform ops b0 out,
  max_expansion E = None -> strict E = true ->
  (graph_enabled E = true -> forall c, accept E (GPhase c) = true) ->
  decompose fuel E transform ops b0 = Ok out ->
  Forall (fun e => acc_under E (e_op e) = true \/ is_alloc (inner (e_op e)) = true) out.
Proof.
  intros fuel E transform ops b0 out Hm Hs Hg H.
  apply decompose_in_target_lemma in H. eapply Forall_impl; [|exact H].
  intros [[o t] b] He. unfold emit_ok, e_op, e_tag in *. simpl in *.
  destruct t.
  - left; exact He.
  - right; exact He.
  - exfalso; apply He; exact Hm.
  - destruct He as [Hge Hp]. left. apply acc_under_inner.
    destruct (inner o); simpl in Hp; try discriminate. apply Hg; auto.
  - destruct He as [He _]. rewrite Hs in He. discriminate.
  - destruct He as [He _]. rewrite Hs in He. discriminate.
Qed.

Section Sem.
  Variable M : Type.
  Variable mul : M -> M -> M.
  Variable one : M.
  Hypothesis mul_assoc : forall a b c, mul a (mul b c) = mul (mul a b) c.
  Hypothesis mul_one_l : forall a, mul one a = a.
  Hypothesis mul_one_r : forall a, mul a one = a.
  Variable sem : op -> M.
  Variable csem : Z -> M -> M.     (* semantics of the Conditional wrapper in a fixed measurement branch *)
  Hypothesis csem_mul : forall m a b, csem m (mul a b) = mul (csem m a) (csem m b).
  Hypothesis csem_one : forall m, csem m one = one.
  Hypothesis sem_cond : forall m b, sem (Cond m b) = csem m (sem b).

  Definition lsem (l : list op) : M := fold_right (fun o acc => mul (sem o) acc) one l.
  Definition ops_of (out : list emitted) : list op := map e_op out.

  Lemma lsem_app : forall a b, lsem (a ++ b) = mul (lsem a) (lsem b).
  Proof.
    induction a as [|x r IH]; intros b; simpl.
    - rewrite mul_one_l. reflexivity.
    - rewrite IH. apply mul_assoc.
  Qed.

  Lemma lsem_wrap : forall m l, lsem (ops_of (map (wrap_cond m) l)) = csem m (lsem (ops_of l)).
  Proof.
    induction l as [|e r IH]; simpl.
    - rewrite csem_one. reflexivity.
    - unfold ops_of in *. simpl. rewrite IH. unfold wrap_cond, e_op; cbn [fst snd]. rewrite csem_mul, sem_cond. reflexivity.
  Qed.

  Lemma single_sem : forall o t b, lsem (ops_of [(o, t, b)]) = sem o.
  Proof. intros. unfold ops_of, e_op. simpl. apply mul_one_r. Qed.

  Variable E : env.
  Hypothesis H_graph : forall o b d s, gsolve E o b = Some (d, s) -> lsem d = sem o.
  Hypothesis H_legacy : forall o d, legacy E o = Some d -> lsem d = sem o.
  Hypothesis H_custom : forall cf o d, custom E = Some cf -> cf o = Some d -> lsem d = sem o.

  Lemma bind_flat_sem : forall (f : op -> result (list emitted)) l out,
    (forall x o, f x = Ok o -> lsem (ops_of o) = sem x) ->
    bind_flat f l = Ok out -> lsem (ops_of out) = lsem l.
  Proof.
    intros f l out Hf. revert l out. apply bind_flat_rel.
    - reflexivity.
    - intros x r a b Hx Hb. unfold ops_of. rewrite map_app, lsem_app. fold (ops_of a) (ops_of b).
      rewrite (Hf _ _ Hx), Hb. reflexivity.
  Qed.

  Lemma choice_sem : forall o budget d b', choice E o budget d b' -> lsem d = sem o.
  Proof. intros o budget d b' [[H _] | [(s & H & _) | (cf & Hc & H & _)]]; eauto. Qed.

  Lemma gen_sem : forall fuel o depth budget out,
    gen fuel E o depth budget = Ok out -> lsem (ops_of out) = sem o.
  Proof.
    induction fuel as [|f IH]; intros o depth budget out H; [discriminate|].
    destruct (gen_cases _ _ _ _ _ _ H) as [(t & -> & _) | [(m & base & l & -> & Hg & ->) | (d & b' & _ & Hc & Hd)]].
    - apply single_sem.
    - rewrite lsem_wrap, (IH _ _ _ _ Hg). symmetry. apply sem_cond.
    - rewrite <- (choice_sem _ _ _ _ Hc). eapply bind_flat_sem; [|exact Hd]. intros x o' Hx. exact (IH _ _ _ _ Hx).
  Qed.

  Lemma decompose_sem_lemma : forall fuel transform ops b0 out,
    decompose fuel E transform ops b0 = Ok out -> lsem (ops_of out) = lsem ops.
  Proof.
    intros fuel transform ops b0 out H. destruct (decompose_cases _ _ _ _ _ _ H) as [[_ ->] | Hb].
    - unfold ops_of. rewrite map_map. unfold e_op. simpl. rewrite map_id. reflexivity.
    - eapply bind_flat_sem; [|exact Hb]. intros x o Hx. exact (gen_sem _ _ _ _ _ Hx).
  Qed.
End Sem.

Definition budget_ok (e : emitted) : Prop :=
  match e_budget e with Some b => 0 <= b | None => True end.
Definition obudget_ok (b : option Z) : Prop := match b with Some x => 0 <= x | None => True end.

Lemma gen_budget : forall fuel E o depth budget out,
  (forall o b d s, gsolve E o (Some b) = Some (d, s) -> 0 <= b -> 0 <= s <= b) ->
  obudget_ok budget ->
  gen fuel E o depth budget = Ok out -> Forall budget_ok out.
Proof.
  induction fuel as [|f IH]; intros E o depth budget out Hfeas Hb H; [discriminate|].
  destruct (gen_cases _ _ _ _ _ _ H) as [(t & -> & _) | [(m & base & l & -> & Hg & ->) | (d & b' & _ & Hc & Hd)]].
  - repeat constructor. exact Hb.
  - apply Forall_map. exact (IH _ _ _ (Some 0) _ Hfeas (Z.le_refl 0) Hg).
  - eapply bind_flat_Forall; [|exact Hd]. intros x o' Hx. apply (IH _ _ _ _ _ Hfeas) with (2 := Hx).
    destruct Hc as [[_ ->] | [(s & Hg & ->) | (cf & _ & _ & ->)]]; auto.
    destruct budget as [b|]; simpl in *; auto. specialize (Hfeas _ _ _ _ Hg Hb). lia.
Qed.

Lemma decompose_budget : forall fuel E transform ops b0 out,
  (forall o b d s, gsolve E o (Some b) = Some (d, s) -> 0 <= b -> 0 <= s <= b) ->
  obudget_ok b0 ->
  decompose fuel E transform ops b0 = Ok out -> Forall budget_ok out.
Proof.
  intros fuel E transform ops b0 out Hf Hb H. destruct (decompose_cases _ _ _ _ _ _ H) as [[_ ->] | Hg].
  - apply Forall_map, Forall_forall. intros o _. exact Hb.
  - eapply bind_flat_Forall; [|exact Hg]. intros x o Hx. exact (gen_budget _ _ _ _ _ _ Hf Hb Hx).
Qed.

Lemma obind_flat_ext : forall A B (g g' : A -> option (list B)) l r,
  (forall x y, g x = Some y -> g' x = Some y) -> obind_flat g l = Some r -> obind_flat g' l = Some r.
Proof.
  induction l as [|x t IH]; intros r Hg H; simpl in *; auto.
  destruct (g x) as [a|] eqn:Hx; [|discriminate].
  destruct (obind_flat g t) as [b|] eqn:Ht; [|discriminate].
  rewrite (Hg _ _ Hx). rewrite (IH b Hg eq_refl). exact H.
Qed.

(* gen spends a unit of fuel on a Conditional wrapper, expand does not (ty (Cond m b) = ty b) *)
Lemma expand_mono : forall f tc t l, expand f tc t = Some l -> expand (S f) tc t = Some l.
Proof.
  induction f as [|f IH]; intros tc t l H; [discriminate|].
  simpl in H. simpl. destruct (tc t) as [rs|]; auto.
  eapply obind_flat_ext; [|exact H]. intros x y Hx. apply IH in Hx. exact Hx.
Qed.

Lemma obind_flat_perm : forall A B (g : A -> option (list B)) l l',
  Permutation l l' -> forall r, obind_flat g l = Some r ->
  exists r', obind_flat g l' = Some r' /\ Permutation r r'.
Proof.
  intros A B g l l' HP. induction HP; intros r H; simpl in *.
  - exists r. split; auto.
  - destruct (g x) as [a|]; [|discriminate].
    destruct (obind_flat g l) as [b|] eqn:Hl; [|discriminate]. inversion H; subst.
    destruct (IHHP b eq_refl) as [b' [Hb' Hp]]. rewrite Hb'. exists (a ++ b'). split; auto.
    apply Permutation_app_head; auto.
  - destruct (g y) as [a|]; [|discriminate]. destruct (g x) as [b|]; [|discriminate].
    destruct (obind_flat g l) as [c|]; [|discriminate]. inversion H; subst.
    exists (b ++ a ++ c). split; auto. rewrite !app_assoc. apply Permutation_app_tail. apply Permutation_app_comm.
  - destruct (IHHP1 r H) as [r1 [H1 P1]]. destruct (IHHP2 r1 H1) as [r2 [H2 P2]].
    exists r2. split; auto. eapply Permutation_trans; eauto.
Qed.

Definition all_acc (out : list emitted) : Prop := Forall (fun e => e_tag e = TAcc) out.
Definition types_of (ty : op -> Z) (out : list emitted) : list Z := map ty (map e_op out).

Section Estimate.
  Variable E : env.
  Variable ty : op -> Z.
  Variable tchoose : Z -> option (list (Z * N)).
  Definition exact_choice (d : list op) (o : op) : Prop :=
    exists rs, tchoose (ty o) = Some rs /\ Permutation (map ty d) (unfold_res rs).
  Hypothesis H_tycond : forall m b, ty (Cond m b) = ty b.
  Hypothesis H_target : forall o, accept E o = true -> tchoose (ty o) = None.
  Hypothesis H_graph : forall o b d s, accept E o = false -> gsolve E o b = Some (d, s) -> exact_choice d o.
  Hypothesis H_legacy : forall o d, accept E o = false -> legacy E o = Some d -> exact_choice d o.
  Hypothesis H_custom : forall cf o d, accept E o = false -> custom E = Some cf -> cf o = Some d -> exact_choice d o.

  Lemma bind_flat_est : forall f (g : op -> result (list emitted)) d out,
    (forall x o, g x = Ok o -> all_acc o -> exists e, expand f tchoose (ty x) = Some e /\ Permutation (types_of ty o) e) ->
    bind_flat g d = Ok out -> all_acc out ->
    exists e, obind_flat (expand f tchoose) (map ty d) = Some e /\ Permutation (types_of ty out) e.
  Proof.
    intros f g d out Hg. revert d out. refine (bind_flat_rel _ g _ _ _).
    - exists []. split; auto.
    - intros x r a b Hx IH Hacc. apply Forall_app in Hacc. destruct Hacc as [Ha Hb].
      destruct (Hg _ _ Hx Ha) as [ea [Hea Pa]]. destruct (IH Hb) as [eb [Heb Pb]].
      simpl. rewrite Hea, Heb. exists (ea ++ eb). split; auto.
      unfold types_of in *. rewrite !map_app. apply Permutation_app; auto.
  Qed.

  Lemma choice_exact : forall o budget d b', accept E o = false -> choice E o budget d b' -> exact_choice d o.
  Proof. intros o budget d b' Ha [[H _] | [(s & H & _) | (cf & Hc & H & _)]]; eauto. Qed.

  Lemma acc_under_target : forall o, acc_under E o = true -> tchoose (ty o) = None.
  Proof.
    induction o; simpl; intros H; try (apply H_target; rewrite orb_false_r in H; exact H).
    apply orb_true_iff in H. destruct H as [H|H]; [apply H_target; exact H|].
    rewrite H_tycond. apply IHo. exact H.
  Qed.

  Lemma types_of_wrap : forall m l, types_of ty (map (wrap_cond m) l) = types_of ty l.
  Proof.
    intros m l. unfold types_of. rewrite !map_map. apply map_ext. intros e. exact (H_tycond m (e_op e)).
  Qed.

  Lemma gen_estimate : forall fuel o depth budget out,
    gen fuel E o depth budget = Ok out -> all_acc out ->
    exists e, expand fuel tchoose (ty o) = Some e /\ Permutation (types_of ty out) e.
  Proof.
    induction fuel as [|f IH]; intros o depth budget out H Hacc; [discriminate|].
    destruct (gen_cases _ _ _ _ _ _ H) as [(t & -> & He) | [(m & base & l & -> & Hg & ->) | (d & b' & Ha & Hc & Hd)]].
    - inversion Hacc as [|? ? Ht _]. unfold e_tag in Ht; simpl in Ht; subst t.
      exists [ty o]. simpl. rewrite (acc_under_target o He). auto.
    - apply Forall_map in Hacc. destruct (IH _ _ _ _ Hg Hacc) as [e [He Pe]].
      exists e. rewrite H_tycond, types_of_wrap. split; [apply expand_mono|]; assumption.
    - destruct (choice_exact _ _ _ _ Ha Hc) as [rs [Hrs Prs]].
      destruct (bind_flat_est f _ d out (fun x o' Hx Hac => IH _ _ _ _ Hx Hac) Hd Hacc) as [e [He Pe]].
      destruct (obind_flat_perm _ _ (expand f tchoose) _ _ Prs _ He) as [e' [He' Pe']].
      simpl. rewrite Hrs. exists e'. split; auto. eapply Permutation_trans; eauto.
  Qed.
End Estimate.
