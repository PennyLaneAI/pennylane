(* Facts about the model of wires.py.  `dedup` (dict.fromkeys / set) keeps first occurrences, so
   `dedup (x :: r) = x :: filter (<> x) (dedup r)` (dedup_cons) and `dedup (a ++ b)` (dedup_app) reduce every
   operation to `filter` and `mem`.  The seen_once / seen_ever loop of unique_wires is handled by an
   invariant (uw_inv) that ties the two accumulators to the number of operands containing each label.
   The `_api` lemmas at the end restate the list-level facts for the entry points called on Wires operands. *)
From Coq Require Import List ZArith Bool Lia Arith.
From PLV Require Import Alg.ListFacts Disc.WiresModel.
Import ListNotations.
Open Scope Z_scope.

Lemma mem_In x l : mem x l = true <-> In x l.
Proof.
  induction l as [|y l IH]; simpl; [split; [discriminate | tauto]|].
  rewrite orb_true_iff, IH, Z.eqb_eq. split; intros [H|H]; auto.
Qed.
Lemma mem_false x l : mem x l = false <-> ~ In x l.
Proof. rewrite <- mem_In. destruct (mem x l); split; congruence. Qed.
Lemma mem_app x a b : mem x (a ++ b) = mem x a || mem x b.
Proof. induction a as [|y a IH]; simpl; [reflexivity|]. now rewrite IH, orb_assoc. Qed.
Lemma mem_filter x f l : mem x (filter f l) = mem x l && f x.
Proof. apply eq_true_iff_eq. rewrite andb_true_iff, !mem_In, filter_In. reflexivity. Qed.

Lemma filter_id (f : Z -> bool) l : (forall y, In y l -> f y = true) -> filter f l = l.
Proof.
  induction l as [|y l IH]; intros H; simpl; [reflexivity|].
  rewrite (H y (or_introl eq_refl)), IH; [reflexivity|]. intros; apply H; now right.
Qed.
Lemma filter_filter (f g : Z -> bool) l : filter f (filter g l) = filter (fun y => g y && f y) l.
Proof.
  induction l as [|y l IH]; simpl; [reflexivity|].
  destruct (g y); simpl; [destruct (f y)|]; now rewrite IH.
Qed.

Lemma dedup_aux_ext l : forall s1 s2, (forall x, mem x s1 = mem x s2) -> dedup_aux s1 l = dedup_aux s2 l.
Proof.
  induction l as [|x l IH]; intros s1 s2 H; simpl; [reflexivity|].
  rewrite <- (H x). destruct (mem x s1); [now apply IH|].
  f_equal. apply IH. intros y; simpl. now rewrite H.
Qed.
Lemma dedup_aux_filter l : forall s t, dedup_aux (s ++ t) l = filter (fun x => negb (mem x s)) (dedup_aux t l).
Proof.
  induction l as [|x l IH]; intros s t; simpl; [reflexivity|].
  rewrite mem_app. destruct (mem x t) eqn:Et.
  - rewrite orb_true_r. apply IH.
  - rewrite orb_false_r. destruct (mem x s) eqn:Es; simpl; rewrite Es; simpl.
    + rewrite <- IH. apply dedup_aux_ext. intros y. rewrite !mem_app. simpl.
      destruct (y =? x) eqn:E; [|reflexivity]. apply Z.eqb_eq in E; subst. rewrite Es. reflexivity.
    + f_equal. rewrite <- IH. apply dedup_aux_ext. intros y. simpl. rewrite !mem_app. simpl.
      destruct (y =? x), (mem y s); reflexivity.
Qed.
Lemma dedup_cons x r : dedup (x :: r) = x :: filter (fun y => negb (y =? x)) (dedup r).
Proof.
  unfold dedup. simpl. f_equal. change [x] with ([x] ++ []). rewrite dedup_aux_filter.
  apply filter_ext. intros y; simpl. now rewrite orb_false_r.
Qed.
Lemma dedup_nil : dedup [] = [].
Proof. reflexivity. Qed.

Lemma In_dedup w l : In w (dedup l) <-> In w l.
Proof.
  induction l as [|x l IH]; [simpl; tauto|]. rewrite dedup_cons. simpl. rewrite filter_In, IH.
  destruct (w =? x) eqn:E.
  - apply Z.eqb_eq in E; subst. split; auto.
  - apply Z.eqb_neq in E. split; [intros [?|[? _]]; auto | intros [?|?]; [subst; congruence | right; split; auto]].
Qed.
Lemma mem_dedup w l : mem w (dedup l) = mem w l.
Proof. apply eq_true_iff_eq. now rewrite !mem_In, In_dedup. Qed.
Lemma NoDup_dedup l : NoDup (dedup l).
Proof.
  induction l as [|x l IH]; [constructor|]. rewrite dedup_cons. constructor.
  - rewrite filter_In. intros [_ H]. now rewrite Z.eqb_refl in H.
  - now apply NoDup_filter.
Qed.
Lemma dedup_id l : NoDup l -> dedup l = l.
Proof.
  induction l as [|x l IH]; intros H; [reflexivity|]. inversion H; subst.
  rewrite dedup_cons, IH by assumption. f_equal. apply filter_id.
  intros y Hy. apply negb_true_iff, Z.eqb_neq. intros ->. contradiction.
Qed.
Lemma dedup_length_iff l : length (dedup l) = length l <-> NoDup l.
Proof.
  split; intros H; [|now rewrite dedup_id].
  apply (@NoDup_incl_NoDup Z (dedup l) l (NoDup_dedup l)); [lia|].
  intros w; apply In_dedup.
Qed.
Lemma dedup_app a : forall b, dedup (a ++ b) = dedup a ++ filter (fun y => negb (mem y a)) (dedup b).
Proof.
  induction a as [|x a IH]; intros b.
  - change (dedup b = filter (fun y => negb (mem y [])) (dedup b)). symmetry. apply filter_id. reflexivity.
  - rewrite <- app_comm_cons, !dedup_cons, IH, filter_app, filter_filter. rewrite <- app_comm_cons. f_equal. f_equal.
    apply filter_ext. intros y. cbn [mem]. now rewrite negb_orb, andb_comm.
Qed.

Lemma process_iter_spec l l' : process_iter l = Some l' <-> NoDup l /\ l' = l.
Proof.
  unfold process_iter, pyset, lenZ. destruct (_ =? _) eqn:E.
  - apply Z.eqb_eq, Nat2Z.inj, dedup_length_iff in E. split; [intros [= <-]; auto | intros [_ ->]; reflexivity].
  - apply Z.eqb_neq in E. split; [discriminate|]. intros [H _]. apply dedup_length_iff in H. rewrite H in E. congruence.
Qed.
Lemma process_iter_ok l : NoDup l -> process_iter l = Some l.
Proof. intros; apply process_iter_spec; auto. Qed.
Lemma process_iter_dup l : ~ NoDup l -> process_iter l = None.
Proof. intros H. destruct (process_iter l) eqn:E; [|reflexivity]. apply process_iter_spec in E. tauto. Qed.

(* the labels Wires(a) holds: a string is ONE label (iter_labels below is what `indices` iterates over,
   where a string yields its characters) *)
Definition arg_labels (a : arg) : list Z :=
  match a with AList l => l | AInt x => [x] | AStr x _ => [x] | AWires l => l end.
Lemma mkwires_spec a l : mkwires a = Some l <-> NoDup (arg_labels a) /\ l = arg_labels a.
Proof.
  unfold mkwires, process. destruct a; simpl; try apply process_iter_spec.
  split; [intros [= <-]; split; [repeat constructor; simpl; tauto | reflexivity] | intros [_ ->]; reflexivity].
Qed.
Lemma mkwires_nodup a l : mkwires a = Some l -> NoDup l.
Proof. intros H. apply mkwires_spec in H as [H ->]. exact H. Qed.

Lemma all_wires_In ll w : In w (all_wires_l ll) <-> exists l, In l ll /\ In w l.
Proof. unfold all_wires_l. rewrite In_dedup, in_concat. reflexivity. Qed.
Lemma all_wires_NoDup ll : NoDup (all_wires_l ll).
Proof. apply NoDup_dedup. Qed.
Lemma all_wires_app l1 l2 :
  all_wires_l (l1 ++ l2) = all_wires_l l1 ++ filter (fun w => negb (mem w (concat l1))) (all_wires_l l2).
Proof. unfold all_wires_l. now rewrite concat_app, dedup_app. Qed.
Lemma all_wires_single l : NoDup l -> all_wires_l [l] = l.
Proof. intros H. unfold all_wires_l. simpl. rewrite app_nil_r. now apply dedup_id. Qed.
Lemma all_wires_pair a b : NoDup a -> NoDup b -> all_wires_l [a; b] = a ++ filter (fun w => negb (mem w a)) b.
Proof.
  intros Ha Hb. change [a; b] with ([a] ++ [b]). rewrite all_wires_app, !all_wires_single by assumption.
  simpl. now rewrite app_nil_r.
Qed.
Lemma add_spec self other o : NoDup self -> mkwires other = Some o ->
  add self other = Some (self ++ filter (fun w => negb (mem w self)) o)
  /\ radd self other = Some (o ++ filter (fun w => negb (mem w o)) self).
Proof.
  intros Hs Ho. unfold add, radd. rewrite Ho. unfold all_wires. simpl.
  pose proof (mkwires_nodup _ _ Ho). now rewrite !all_wires_pair.
Qed.
Lemma add_reject self other : mkwires other = None -> add self other = None /\ radd self other = None.
Proof. intros H. unfold add, radd. now rewrite H. Qed.

Lemma fold_and_mem w sets : forall acc,
  mem w (fold_left s_and sets acc) = mem w acc && forallb (mem w) sets.
Proof.
  induction sets as [|s sets IH]; intros acc; simpl; [now rewrite andb_true_r|].
  rewrite IH. unfold s_and. rewrite mem_filter. now rewrite andb_assoc.
Qed.
Lemma forallb_map_dedup w r : forallb (mem w) (map pyset r) = forallb (mem w) r.
Proof. induction r as [|l r IH]; simpl; [reflexivity|]. unfold pyset at 1. now rewrite mem_dedup, IH. Qed.
Lemma shared_spec l0 r : shared_l (l0 :: r) = Some (filter (fun w => forallb (mem w) r) l0).
Proof.
  unfold shared_l. f_equal. apply filter_ext_in. intros w Hw.
  rewrite fold_and_mem, forallb_map_dedup. unfold pyset. rewrite mem_dedup.
  apply mem_In in Hw. now rewrite Hw.
Qed.
Lemma shared_In l0 r s w : shared_l (l0 :: r) = Some s -> (In w s <-> forall l, In l (l0 :: r) -> In w l).
Proof.
  rewrite shared_spec. intros [= <-]. rewrite filter_In, forallb_forall. split.
  - intros [H0 H] l [<-|Hl]; [assumption|]. now apply mem_In, H.
  - intros H. split; [apply H; now left|]. intros l Hl. apply mem_In, H. now right.
Qed.

(* number of operands that contain w *)
Fixpoint cnt (ll : list (list Z)) (w : Z) : nat :=
  match ll with [] => 0%nat | l :: r => ((if mem w l then 1 else 0) + cnt r w)%nat end.

(* st = (seen_once, seen_ever) after the operands counted by c: once = {c = 1}, ever = {c >= 1} *)
Definition uw_inv (st : list Z * list Z) (c : Z -> nat) : Prop :=
  forall w, mem w (fst st) = (c w =? 1)%nat /\ mem w (snd st) = (1 <=? c w)%nat.

Lemma uw_step_inv st c l : uw_inv st c ->
  uw_inv (uw_step st (pyset l)) (fun w => (c w + if mem w l then 1 else 0)%nat).
Proof.
  destruct st as [once ever]. intros H w. destruct (H w) as [Ho He]. cbn [fst snd] in Ho, He.
  unfold uw_step, s_or, s_xor, s_sub, pyset. cbn [fst snd].
  repeat (rewrite ?mem_filter, ?mem_app). rewrite !mem_dedup, Ho, He.
  destruct (mem w l); destruct (c w) as [|[|n]]; simpl; auto.
  all: rewrite ?Nat.add_0_r; simpl; auto.
  all: replace (n + 1)%nat with (S n) by lia; simpl; auto.
Qed.
Lemma uw_fold_inv ll : forall st c, uw_inv st c ->
  uw_inv (fold_left uw_step (map pyset ll) st) (fun w => (c w + cnt ll w)%nat).
Proof.
  induction ll as [|l ll IH]; intros st c H; simpl.
  - intros w. rewrite Nat.add_0_r. apply H.
  - pose proof (IH _ _ (uw_step_inv st c l H)) as H'. intros w. specialize (H' w). simpl in H'.
    rewrite Nat.add_assoc. exact H'.
Qed.
Lemma unique_spec ll : unique_l ll = filter (fun w => (cnt ll w =? 1)%nat) (concat ll).
Proof.
  unfold unique_l. apply filter_ext. intros w.
  assert (H0 : uw_inv ([], []) (fun _ => 0%nat)) by (intros x; split; reflexivity).
  apply (uw_fold_inv ll) in H0. destruct (H0 w) as [H _]. exact H.
Qed.
Lemma cnt_pos_iff ll w : (1 <= cnt ll w)%nat <-> exists l, In l ll /\ In w l.
Proof.
  induction ll as [|l ll IH]; simpl; [split; [lia | intros (? & [] & _)]|].
  destruct (mem w l) eqn:E.
  - split; [|lia]. intros _. exists l. split; [now left | now apply mem_In].
  - simpl. rewrite IH. apply mem_false in E. split; intros (l' & Hl & Hw); exists l'.
    + split; [now right | assumption].
    + destruct Hl as [<-|Hl]; [contradiction | split; assumption].
Qed.
Lemma cnt_zero_iff ll w : cnt ll w = 0%nat <-> forall l, In l ll -> ~ In w l.
Proof.
  split.
  - intros H l Hl Hw. assert (1 <= cnt ll w)%nat by (apply cnt_pos_iff; eauto). lia.
  - intros H. destruct (cnt ll w) eqn:E; [reflexivity|].
    assert (1 <= cnt ll w)%nat as Hc by lia. apply cnt_pos_iff in Hc as (l & Hl & Hw). now apply H in Hl.
Qed.
Lemma cnt_app a b w : cnt (a ++ b) w = (cnt a w + cnt b w)%nat.
Proof. induction a as [|l a IH]; simpl; [reflexivity|]. rewrite IH. lia. Qed.
Lemma cnt_one_iff ll w : cnt ll w = 1%nat <->
  exists p l s, ll = p ++ l :: s /\ In w l /\ (forall l', In l' (p ++ s) -> ~ In w l').
Proof.
  split.
  - intros H. assert (1 <= cnt ll w)%nat as Hc by lia. apply cnt_pos_iff in Hc as (l & Hl & Hw).
    apply in_split in Hl as (p & s & ->). exists p, l, s. split; [reflexivity|]. split; [assumption|].
    apply cnt_zero_iff. rewrite cnt_app in *. cbn [cnt] in H. apply mem_In in Hw. rewrite Hw in H. lia.
  - intros (p & l & s & -> & Hw & Hn). apply cnt_zero_iff in Hn. rewrite cnt_app in *. cbn [cnt].
    apply mem_In in Hw. rewrite Hw. lia.
Qed.
Lemma unique_In ll w : In w (unique_l ll) <->
  exists p l s, ll = p ++ l :: s /\ In w l /\ (forall l', In l' (p ++ s) -> ~ In w l').
Proof.
  rewrite unique_spec, filter_In, Nat.eqb_eq, <- cnt_one_iff. split; [tauto|].
  intros H. split; [|assumption]. apply in_concat. apply cnt_pos_iff. lia.
Qed.

Lemma NoDup_s_or a b : NoDup a -> NoDup b -> NoDup (s_or a b).
Proof.
  intros Ha Hb. apply NoDup_app_intro; [assumption | now apply NoDup_filter|].
  intros x Hx. unfold s_sub. rewrite filter_In. intros [_ H]. apply mem_In in Hx. now rewrite Hx in H.
Qed.
Lemma NoDup_s_xor a b : NoDup a -> NoDup b -> NoDup (s_xor a b).
Proof.
  intros Ha Hb. apply NoDup_app_intro; try now apply NoDup_filter.
  intros x. unfold s_sub. rewrite !filter_In. intros [Hx _] [_ H]. apply mem_In in Hx. now rewrite Hx in H.
Qed.
Lemma In_s_and a b w : In w (s_and a b) <-> In w a /\ In w b.
Proof. unfold s_and. now rewrite filter_In, mem_In. Qed.
Lemma In_s_sub a b w : In w (s_sub a b) <-> In w a /\ ~ In w b.
Proof. unfold s_sub. now rewrite filter_In, negb_true_iff, mem_false. Qed.
Lemma In_s_or a b w : In w (s_or a b) <-> In w a \/ In w b.
Proof.
  unfold s_or. rewrite in_app_iff, In_s_sub. destruct (mem w a) eqn:E.
  - apply mem_In in E. tauto.
  - apply mem_false in E. tauto.
Qed.
Lemma In_s_xor a b w : In w (s_xor a b) <-> (In w a /\ ~ In w b) \/ (In w b /\ ~ In w a).
Proof. unfold s_xor. now rewrite in_app_iff, !In_s_sub. Qed.

Lemma setop_spec op (P : Prop -> Prop -> Prop) self other o :
  (forall a b, NoDup a -> NoDup b -> NoDup (op a b)) ->
  (forall a b w, In w (op a b) <-> P (In w a) (In w b)) ->
  (forall A A' B B', (A <-> A') -> (B <-> B') -> (P A B <-> P A' B')) ->
  process other = Some o ->
  exists u, setop op self other = Some u /\ NoDup u /\ forall w, In w u <-> P (In w self) (In w o).
Proof.
  intros Hnd Hin Hp Ho. unfold setop. rewrite Ho. unfold mkwires, process, pyset.
  exists (op (dedup self) (dedup o)).
  assert (N : NoDup (op (dedup self) (dedup o))) by (apply Hnd; apply NoDup_dedup).
  split; [now apply process_iter_ok|]. split; [assumption|].
  intros w. rewrite Hin. apply Hp; apply In_dedup.
Qed.
Lemma setop_reject op self other : process other = None -> setop op self other = None.
Proof. intros H. unfold setop. now rewrite H. Qed.

Lemma union_spec self other o : process other = Some o ->
  exists u, union self other = Some u /\ NoDup u /\ forall w, In w u <-> In w self \/ In w o.
Proof. apply (setop_spec s_or or); [apply NoDup_s_or | apply In_s_or | tauto]. Qed.
Lemma intersection_spec self other o : process other = Some o ->
  exists u, intersection self other = Some u /\ NoDup u /\ forall w, In w u <-> In w self /\ In w o.
Proof.
  apply (setop_spec s_and and); [intros; now apply NoDup_filter | apply In_s_and | tauto].
Qed.
Lemma difference_spec self other o : process other = Some o ->
  exists u, difference self other = Some u /\ NoDup u /\ forall w, In w u <-> In w self /\ ~ In w o.
Proof.
  apply (setop_spec s_sub (fun A B => A /\ ~ B)); [intros; now apply NoDup_filter | apply In_s_sub | tauto].
Qed.
Lemma symdiff_spec self other o : process other = Some o ->
  exists u, symmetric_difference self other = Some u /\ NoDup u /\
            forall w, In w u <-> (In w self /\ ~ In w o) \/ (In w o /\ ~ In w self).
Proof.
  apply (setop_spec s_xor (fun A B => (A /\ ~ B) \/ (B /\ ~ A))); [apply NoDup_s_xor | apply In_s_xor | tauto].
Qed.
Lemma rsub_spec self other o : process other = Some o ->
  exists u, rsub self other = Some u /\ NoDup u /\ forall w, In w u <-> In w o /\ ~ In w self.
Proof.
  apply (setop_spec (fun a b => s_sub b a) (fun A B => B /\ ~ A));
    [intros; now apply NoDup_filter | intros; apply In_s_sub | tauto].
Qed.
Lemma rxor_spec self other o : process other = Some o ->
  exists u, rxor self other = Some u /\ NoDup u /\
            forall w, In w u <-> (In w o /\ ~ In w self) \/ (In w self /\ ~ In w o).
Proof.
  apply (setop_spec (fun a b => s_xor b a) (fun A B => (B /\ ~ A) \/ (A /\ ~ B)));
    [intros; now apply NoDup_s_xor | intros; apply In_s_xor | tauto].
Qed.

Lemma index_from_sound l x : forall i j, index_from i l x = Some j ->
  exists n, j = i + Z.of_nat n /\ nth_error l n = Some x /\ forall m, (m < n)%nat -> nth_error l m <> Some x.
Proof.
  induction l as [|y l IH]; intros i j H; simpl in H; [discriminate|].
  destruct (x =? y) eqn:E.
  - injection H as <-. apply Z.eqb_eq in E; subst. exists 0%nat. split; [lia|]. split; [reflexivity|]. intros; lia.
  - apply IH in H as (n & -> & Hn & Hm). exists (S n). split; [lia|]. split; [exact Hn|].
    intros [|m] Hlt; simpl; [apply Z.eqb_neq in E; congruence | apply Hm; lia].
Qed.
Lemma index_from_none l x : forall i, index_from i l x = None <-> ~ In x l.
Proof.
  induction l as [|y l IH]; intros i; simpl; [tauto|].
  destruct (x =? y) eqn:E.
  - apply Z.eqb_eq in E. split; [discriminate | intros H; exfalso; apply H; now left].
  - apply Z.eqb_neq in E. rewrite IH. split; [intros H [?|?]; [congruence | contradiction] | tauto].
Qed.
Lemma index_from_first l x : forall i n, nth_error l n = Some x -> (forall m, (m < n)%nat -> nth_error l m <> Some x) ->
  index_from i l x = Some (i + Z.of_nat n).
Proof.
  induction l as [|y l IH]; intros i n Hn Hm; [destruct n; discriminate|].
  simpl. destruct n as [|n]; simpl in Hn.
  - injection Hn as ->. rewrite Z.eqb_refl. f_equal. lia.
  - destruct (x =? y) eqn:E.
    + apply Z.eqb_eq in E; subst. exfalso. apply (Hm 0%nat); [lia | reflexivity].
    + rewrite (IH (i + 1) n Hn); [f_equal; lia|]. intros m Hlt. apply (Hm (S m)). lia.
Qed.
Lemma index_spec l x j : index_lbl l x = Some j <->
  0 <= j /\ nth_error l (Z.to_nat j) = Some x /\ forall m, (m < Z.to_nat j)%nat -> nth_error l m <> Some x.
Proof.
  unfold index_lbl. split.
  - intros H. apply index_from_sound in H as (n & -> & Hn & Hm). simpl. rewrite Nat2Z.id. split; [lia | auto].
  - intros (H0 & Hn & Hm). rewrite (index_from_first l x 0 _ Hn Hm). f_equal. lia.
Qed.
Lemma index_nodup l x n : NoDup l -> nth_error l n = Some x -> index_lbl l x = Some (Z.of_nat n).
Proof.
  intros Hl Hn. apply index_spec. rewrite Nat2Z.id. split; [lia|]. split; [assumption|].
  intros m Hlt Hm. assert (m = n); [|lia].
  apply (proj1 (NoDup_nth_error l) Hl); [apply nth_error_Some; congruence | congruence].
Qed.
Lemma index_none l x : index_lbl l x = None <-> ~ In x l.
Proof. apply index_from_none. Qed.
Lemma index_wires l o : index l (IWires o) = match o with [x] => index_lbl l x | _ => None end.
Proof.
  unfold index. destruct o as [|x [|y o]]; try reflexivity.
  unfold lenZ. cbn [length]. destruct (Z.of_nat (S (S (length o))) =? 1) eqn:E; [apply Z.eqb_eq in E; lia | reflexivity].
Qed.

Lemma mapM_Forall2 {A B} (f : A -> option B) l r : mapM f l = Some r <-> Forall2 (fun x y => f x = Some y) l r.
Proof.
  revert r. induction l as [|x l IH]; intros r; simpl.
  - split; [intros [= <-]; constructor | inversion 1; reflexivity].
  - split.
    + destruct (f x) eqn:Fx, (mapM f l); try discriminate. intros [= <-]. constructor; [assumption | now apply IH].
    + inversion 1 as [|? y ? r' Hy Hr]; subst. apply IH in Hr. now rewrite Hy, Hr.
Qed.
Lemma mapM_None {A B} (f : A -> option B) l : mapM f l = None <-> exists x, In x l /\ f x = None.
Proof.
  induction l as [|x l IH]; simpl; [split; [discriminate | intros (? & [] & _)]|].
  destruct (f x) eqn:Fx; [destruct (mapM f l)|].
  - split; [discriminate|]. intros (y & [<-|Hy] & Hf); [congruence|]. discriminate (proj2 IH). eauto.
  - split; [|reflexivity]. intros _. destruct (proj1 IH eq_refl) as (y & Hy & Hf). eauto.
  - split; [|reflexivity]. intros _. eauto.
Qed.
Lemma mapM_map_Some {A B} (f : A -> option B) (g : B -> A) l : (forall y, f (g y) = Some y) -> mapM f (map g l) = Some l.
Proof. intros H. induction l as [|y l IH]; simpl; [reflexivity|]. now rewrite H, IH. Qed.
Definition iter_labels (a : arg) : list Z :=
  match a with AList l => l | AInt x => [x] | AStr _ cs => cs | AWires l => l end.
Lemma indices_spec self a r : indices self a = Some r <->
  Forall2 (fun w j => index_lbl self w = Some j) (iter_labels a) r.
Proof. unfold indices. destruct a; apply mapM_Forall2. Qed.
Lemma indices_none self a : indices self a = None <-> exists w, In w (iter_labels a) /\ ~ In w self.
Proof.
  unfold indices. destruct a; rewrite mapM_None; simpl; split; intros (w & H & H'); exists w;
    (split; [assumption | now apply index_none]).
Qed.

Lemma has_key_forall m l : forallb (has_key m) l = true <-> forall w, In w l -> lookup m w <> None.
Proof.
  rewrite forallb_forall. unfold has_key. split; intros H w Hw; specialize (H w Hw); destruct (lookup m w); congruence.
Qed.
Lemma map_spec self m r : map_wires self m = Some r <->
  Forall2 (fun w v => lookup m w = Some v) self r /\ NoDup r.
Proof.
  unfold map_wires. split.
  - destruct (forallb _ _); [|discriminate]. destruct (mapM (lookup m) self) as [nw|] eqn:M; [|discriminate].
    intros H. apply mkwires_spec in H as [N ->]. split; [now apply mapM_Forall2 | exact N].
  - intros [F N]. apply mapM_Forall2 in F.
    (* the has_key guard never fires when every lookup succeeds *)
    assert (K : forallb (has_key m) self = true).
    { apply has_key_forall. intros w Hw E. assert (mapM (lookup m) self = None) by (apply mapM_None; eauto). congruence. }
    rewrite K, F. now apply process_iter_ok.
Qed.
Lemma Forall2_nth {A B} (R : A -> B -> Prop) l r : Forall2 R l r ->
  forall n x, nth_error l n = Some x -> exists y, nth_error r n = Some y /\ R x y.
Proof.
  induction 1; intros n a Hn; destruct n; simpl in *; try discriminate.
  - injection Hn as <-. eauto.
  - eauto.
Qed.
Lemma map_injective_guard self m w1 w2 v : In w1 self -> In w2 self -> w1 <> w2 ->
  lookup m w1 = Some v -> lookup m w2 = Some v -> map_wires self m = None.
Proof.
  intros H1 H2 Hne L1 L2. destruct (map_wires self m) as [r|] eqn:E; [|reflexivity]. exfalso.
  apply map_spec in E as [F N].
  apply In_nth_error in H1 as [n1 N1]. apply In_nth_error in H2 as [n2 N2].
  destruct (Forall2_nth _ _ _ F _ _ N1) as (y1 & R1 & Y1). destruct (Forall2_nth _ _ _ F _ _ N2) as (y2 & R2 & Y2).
  assert (n1 = n2).
  { apply (proj1 (NoDup_nth_error r) N); [apply nth_error_Some; congruence | congruence]. }
  subst. congruence.
Qed.
Lemma map_missing_key self m w : In w self -> lookup m w = None -> map_wires self m = None.
Proof.
  intros Hw L. destruct (map_wires self m) as [r|] eqn:E; [|reflexivity]. exfalso.
  apply map_spec in E as [F _]. apply In_nth_error in Hw as [n Hn].
  destruct (Forall2_nth _ _ _ F _ _ Hn) as (y & _ & Y). congruence.
Qed.

Lemma getitem_spec l i w : getitem l i = Some w <->
  - lenZ l <= i < lenZ l /\ nth_error l (Z.to_nat (i mod lenZ l)) = Some w.
Proof.
  unfold getitem, lenZ. destruct (0 <=? i) eqn:E0.
  - apply Z.leb_le in E0. split.
    + intros H. assert (Z.to_nat i < length l)%nat by (apply nth_error_Some; congruence).
      rewrite Z.mod_small by lia. split; [lia | assumption].
    + intros [Hr H]. now rewrite Z.mod_small in H by lia.
  - apply Z.leb_gt in E0. destruct (0 <=? _) eqn:E1.
    + apply Z.leb_le in E1.
      assert (Hm : i mod Z.of_nat (length l) = Z.of_nat (length l) + i).
      { symmetry. apply (Z.mod_unique_pos _ _ (-1)); lia. }
      rewrite Hm. split; [intros H; split; [lia | assumption] | tauto].
    + apply Z.leb_gt in E1. split; [discriminate | lia].
Qed.
Lemma subset_is_getitem l idx : subset l (XList idx) false = mapM (getitem l) idx.
Proof.
  unfold subset. destruct (existsb _ idx) eqn:E; [|reflexivity].
  symmetry. apply mapM_None. apply existsb_exists in E as (i & Hi & Hlt). exists i. split; [assumption|].
  apply Z.ltb_lt in Hlt. destruct (getitem l i) eqn:G; [|reflexivity]. apply getitem_spec in G. lia.
Qed.
Lemma subset_spec l idx r : subset l (XList idx) false = Some r <->
  Forall2 (fun i w => - lenZ l <= i < lenZ l /\ nth_error l (Z.to_nat (i mod lenZ l)) = Some w) idx r.
Proof.
  rewrite subset_is_getitem, mapM_Forall2. split; apply Forall2_impl; intros i w; apply getitem_spec.
Qed.
Lemma getitem_in_range l i : - lenZ l <= i < lenZ l -> exists w, getitem l i = Some w.
Proof.
  intros Hr. destruct (nth_error l (Z.to_nat (i mod lenZ l))) as [w|] eqn:N.
  - exists w. apply getitem_spec. auto.
  - apply nth_error_None in N. unfold lenZ in *. pose proof (Z.mod_pos_bound i (Z.of_nat (length l))). lia.
Qed.
Lemma subset_reject l idx : subset l (XList idx) false = None <-> exists i, In i idx /\ ~ (- lenZ l <= i < lenZ l).
Proof.
  rewrite subset_is_getitem, mapM_None. split; intros (i & Hi & H); exists i; (split; [assumption|]).
  - intros Hr. destruct (getitem_in_range l i Hr). congruence.
  - destruct (getitem l i) eqn:G; [|reflexivity]. apply getitem_spec in G. tauto.
Qed.
Lemma lenZ_pos l : l <> [] -> 0 < lenZ l.
Proof. unfold lenZ. destruct l; simpl; [congruence | lia]. Qed.
Lemma subset_periodic l idx : l <> [] ->
  subset l (XList idx) true = subset l (XList (map (fun i => i mod lenZ l) idx)) false.
Proof.
  intros Hl. unfold subset.
  assert (Hn : lenZ l =? 0 = false) by (apply Z.eqb_neq; pose proof (lenZ_pos l Hl); lia).
  rewrite Hn. replace (mapM (fun i => if false then None else Some (i mod lenZ l)) idx)
    with (Some (map (fun i => i mod lenZ l) idx)); [reflexivity|].
  induction idx as [|i idx IH]; simpl; [reflexivity|]. now rewrite <- IH.
Qed.
Lemma subset_periodic_spec l idx : l <> [] ->
  exists r, subset l (XList idx) true = Some r /\
            Forall2 (fun i w => nth_error l (Z.to_nat (i mod lenZ l)) = Some w) idx r.
Proof.
  intros Hl. rewrite subset_periodic, subset_is_getitem by assumption. pose proof (lenZ_pos l Hl) as Hpos.
  induction idx as [|i idx (r & E & F)]; simpl; [exists []; auto|].
  destruct (getitem_in_range l (i mod lenZ l)) as [w G]; [pose proof (Z.mod_pos_bound i _ Hpos); lia|].
  rewrite G, E. exists (w :: r). split; [reflexivity|]. constructor; [|assumption].
  apply getitem_spec in G as [_ G]. now rewrite Z.mod_mod in G by lia.
Qed.
Lemma subset_periodic_empty idx : subset [] (XList idx) true = match idx with [] => Some [] | _ => None end.
Proof. destruct idx; reflexivity. Qed.
Lemma subset_int l i p : subset l (XInt i) p = subset l (XList [i]) p.
Proof. reflexivity. Qed.

Lemma list_eqb_eq a : forall b, list_eqb a b = true <-> a = b.
Proof.
  induction a as [|x a IH]; intros [|y b]; simpl; try (split; [discriminate | congruence]); [tauto|].
  rewrite andb_true_iff, Z.eqb_eq, IH. split; [intros [-> ->]; reflexivity | intros [= -> ->]; auto].
Qed.
Lemma weq_spec a b : weq a b = true <-> a = b.
Proof. apply list_eqb_eq. Qed.
Lemma weq_order x y : x <> y -> weq [x; y] [y; x] = false.
Proof. intros H. destruct (weq [x; y] [y; x]) eqn:E; [|reflexivity]. apply weq_spec in E. congruence. Qed.
Lemma contains_wires_spec self o : contains_wires self (AWires o) = true <-> incl o self.
Proof.
  unfold contains_wires, pyset. rewrite forallb_forall. split.
  - intros H w Hw. apply In_dedup, mem_In, H, In_dedup, Hw.
  - intros H w Hw. apply mem_In, In_dedup, H, In_dedup, Hw.
Qed.

Lemma all_wires_on_wires ll : all_wires (map AWires ll) = Some (all_wires_l ll).
Proof. unfold all_wires. now rewrite mapM_map_Some. Qed.
Lemma shared_on_wires ll : shared_wires (map AWires ll) = shared_l ll.
Proof. unfold shared_wires. now rewrite mapM_map_Some. Qed.
Lemma unique_on_wires ll : unique_wires (map AWires ll) = Some (unique_l ll).
Proof. unfold unique_wires. now rewrite mapM_map_Some. Qed.

Lemma wires_reject_iff l : mkwires (AList l) = None <-> ~ NoDup l.
Proof.
  split.
  - intros H N. unfold mkwires, process in H. rewrite process_iter_ok in H by assumption. discriminate.
  - apply process_iter_dup.
Qed.

Lemma all_wires_api ll : exists r, all_wires (map AWires ll) = Some r /\ NoDup r /\
  (forall w, In w r <-> exists l, In l ll /\ In w l).
Proof.
  exists (all_wires_l ll). split; [apply all_wires_on_wires|]. split; [apply all_wires_NoDup | intros; apply all_wires_In].
Qed.
Lemma all_wires_order_api l1 l2 r1 r2 :
  all_wires (map AWires l1) = Some r1 -> all_wires (map AWires l2) = Some r2 ->
  all_wires (map AWires (l1 ++ l2)) = Some (r1 ++ filter (fun w => negb (mem w r1)) r2).
Proof.
  rewrite !all_wires_on_wires. intros [= <-] [= <-]. rewrite all_wires_app. f_equal. f_equal.
  apply filter_ext. intros w. f_equal. unfold all_wires_l. now rewrite mem_dedup.
Qed.
Lemma all_wires_single_api l : NoDup l -> all_wires [AWires l] = Some l.
Proof. intros H. change [AWires l] with (map AWires [l]). rewrite all_wires_on_wires. now rewrite all_wires_single. Qed.

Lemma shared_api l0 r : shared_wires (map AWires (l0 :: r)) = Some (filter (fun w => forallb (mem w) r) l0).
Proof. rewrite shared_on_wires. apply shared_spec. Qed.
Lemma shared_In_api l0 r s w : shared_wires (map AWires (l0 :: r)) = Some s ->
  (In w s <-> forall l, In l (l0 :: r) -> In w l).
Proof. rewrite shared_on_wires. apply shared_In. Qed.

Lemma unique_api ll : unique_wires (map AWires ll) = Some (filter (fun w => (cnt ll w =? 1)%nat) (concat ll)).
Proof. rewrite unique_on_wires. now rewrite unique_spec. Qed.
Lemma unique_In_api ll u w : unique_wires (map AWires ll) = Some u ->
  (In w u <-> exists p l s, ll = p ++ l :: s /\ In w l /\ (forall l', In l' (p ++ s) -> ~ In w l')).
Proof. rewrite unique_on_wires. intros [= <-]. apply unique_In. Qed.

Lemma hash_respects_eq (h : list Z -> Z) a b : weq a b = true -> h a = h b.
Proof. intros H. apply weq_spec in H. now subst. Qed.
