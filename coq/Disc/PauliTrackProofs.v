(* C74 (part A): semantics of Pauli frames and Clifford gates from the literal textbook matrices, and the proofs that
   the Pauli tracker of pennylane/ftqc/pauli_tracker.py (model: Disc/PauliTrackModel.v) commutes frames correctly.
   States are amplitude functions on bit assignments (any number of wires); equality of states/operators is
   Leibniz equality of functions, obtained with the standard-library functional extensionality. *)
From Coq Require Import List ZArith Bool Lia Ring Arith FunctionalExtensionality.
From PLV Require Import Disc.PauliTrackModel.
Import ListNotations.

(* ---------- Gaussian integers ---------- *)
Definition G := (Z * Z)%type.
Definition gzero : G := (0, 0)%Z.
Definition gone : G := (1, 0)%Z.
Definition gi : G := (0, 1)%Z.
Definition gadd (a b : G) : G := (fst a + fst b, snd a + snd b)%Z.
Definition gmul (a b : G) : G := (fst a * fst b - snd a * snd b, fst a * snd b + snd a * fst b)%Z.
Definition gneg (a : G) : G := (- fst a, - snd a)%Z.
Definition gsub (a b : G) : G := gadd a (gneg b).

Lemma G_ring : ring_theory gzero gone gadd gmul gsub gneg eq.
Proof.
  constructor; intros; repeat match goal with x : G |- _ => destruct x end;
    unfold gzero, gone, gadd, gmul, gsub, gneg; cbn [fst snd]; try reflexivity; apply injective_projections; cbn [fst snd]; ring.
Qed.
Add Ring Gring : G_ring.

Definition unit4 (u : G) : Prop := u = gone \/ u = gi \/ u = gneg gone \/ u = gneg gi.
Lemma unit4_mul : forall u v, unit4 u -> unit4 v -> unit4 (gmul u v).
Proof. intros u v [ -> | [ -> | [ -> | -> ] ] ] [ -> | [ -> | [ -> | -> ] ] ]; unfold unit4; vm_compute; auto. Qed.
Lemma unit4_one : unit4 gone. Proof. left; reflexivity. Qed.

(* ---------- functional state-vector semantics ---------- *)
Definition bits := nat -> bool.
Definition state := bits -> G.
Definition upd (b : bits) (w : nat) (v : bool) : bits := fun i => if Nat.eqb i w then v else b i.

(* textbook matrices: a 2x2 matrix ((m00, m01), (m10, m11)) acts on wire w *)
Definition mat2 := ((G * G) * (G * G))%type.
Definition op1 (w : nat) (m : mat2) (psi : state) : state := fun b =>
  let p0 := psi (upd b w false) in let p1 := psi (upd b w true) in
  if b w then gadd (gmul (fst (snd m)) p0) (gmul (snd (snd m)) p1)
  else gadd (gmul (fst (fst m)) p0) (gmul (snd (fst m)) p1).
Definition Xm : mat2 := ((gzero, gone), (gone, gzero)).
Definition Ym : mat2 := ((gzero, gneg gi), (gi, gzero)).
Definition Zm : mat2 := ((gone, gzero), (gzero, gneg gone)).
Definition Hm : mat2 := ((gone, gone), (gone, gneg gone)).      (* sqrt 2 * Hadamard *)
Definition Sm : mat2 := ((gone, gzero), (gzero, gi)).
(* 4x4 matrix m (row r, column c as pairs of bits: first = control) on wires c t *)
Definition mat4 := bool -> bool -> bool -> bool -> G.
Definition op2 (c t : nat) (m : mat4) (psi : state) : state := fun b =>
  let e := fun ac at_ => gmul (m (b c) (b t) ac at_) (psi (upd (upd b c ac) t at_)) in
  gadd (gadd (e false false) (e false true)) (gadd (e true false) (e true true)).
(* CNOT |c t> = |c, t xor c> : entry 1 iff row = (ac, at xor ac) *)
Definition CXm : mat4 := fun rc rt ac at_ =>
  match rc, rt, ac, at_ with
  | false, false, false, false => gone
  | false, true, false, true => gone
  | true, true, true, false => gone
  | true, false, true, true => gone
  | _, _, _, _ => gzero
  end.

(* X, Z and CNOT as what they do to an amplitude function: move the argument, or negate the value.  The proofs
   work with these; op1_X, op1_Z, op1_Y and op2_CX identify them with the matrix forms above. *)
Definition opX (w : nat) (psi : state) : state := fun b => psi (upd b w (negb (b w))).
Definition opZ (w : nat) (psi : state) : state := fun b => if b w then gneg (psi b) else psi b.
Definition opCX (c t : nat) (psi : state) : state := fun b => psi (upd b t (xorb (b t) (b c))).
Definition scal (u : G) (psi : state) : state := fun b => gmul u (psi b).

Lemma upd_same : forall b w v, upd b w v w = v.
Proof. intros; unfold upd; now rewrite Nat.eqb_refl. Qed.
Lemma upd_diff : forall b w v k, k <> w -> upd b w v k = b k.
Proof. intros; unfold upd; destruct (Nat.eqb_spec k w); congruence. Qed.

Ltac use_bits := repeat match goal with
  | H : ?f ?x = true |- context[?f ?x] => rewrite H
  | H : ?f ?x = false |- context[?f ?x] => rewrite H end.
Ltac bits_eq := apply functional_extensionality; intro i; unfold upd;
  repeat match goal with |- context[Nat.eqb ?x ?y] => destruct (Nat.eqb_spec x y) end;
  subst; try congruence; try lia; cbn; use_bits; try reflexivity; try congruence.
Ltac unify_args psi := repeat match goal with
  | |- context[psi ?A] => match goal with |- context[psi ?B] =>
        lazymatch A with B => fail | _ => idtac end;
        let H := fresh in assert (H : A = B) by bits_eq;
        lazymatch B with context[A] => rewrite <- H | _ => rewrite H end; clear H end end.
Ltac simp_upd := repeat first [rewrite upd_same | rewrite upd_diff by (try assumption; try congruence; try lia; auto)].
Ltac split_bit b w := let E := fresh "E" in destruct (b w) eqn:E.
Ltac gauss psi := repeat match goal with |- context[psi ?A] => destruct (psi A) as [? ?] end;
  unfold gi, gone, gzero, gadd, gmul, gsub, gneg; cbn [fst snd]; apply injective_projections; cbn [fst snd]; ring.
Ltac fin psi := cbn [fst snd negb xorb]; use_bits; cbn [fst snd negb xorb]; unify_args psi; first [ring | gauss psi].

Lemma op1_X : forall w psi, op1 w Xm psi = opX w psi.
Proof. intros; apply functional_extensionality; intro b; unfold op1, opX, Xm; cbn [fst snd].
  split_bit b w; fin psi. Qed.
Lemma op1_Z : forall w psi, op1 w Zm psi = opZ w psi.
Proof. intros; apply functional_extensionality; intro b; unfold op1, opZ, Zm; cbn [fst snd].
  split_bit b w; fin psi. Qed.
Lemma op1_Y : forall w psi, op1 w Ym psi = scal gi (opX w (opZ w psi)).
Proof. intros; apply functional_extensionality; intro b; unfold op1, opX, opZ, scal, Ym; cbn [fst snd].
  split_bit b w; simp_upd; fin psi. Qed.
Lemma op2_CX : forall c t psi, c <> t -> op2 c t CXm psi = opCX c t psi.
Proof. intros; apply functional_extensionality; intro b; unfold op2, opCX, CXm.
  split_bit b c; split_bit b t; fin psi. Qed.

(* ---------- primitive operator identities ---------- *)
Ltac ext_b := intros; apply functional_extensionality; intro b.
Ltac unf := unfold op1, opX, opZ, opCX, scal, Hm, Sm; cbn [fst snd].

Lemma scal_scal : forall u v psi, scal u (scal v psi) = scal (gmul u v) psi.
Proof. ext_b; unf; ring. Qed.
Lemma scal_one : forall psi, scal gone psi = psi.
Proof. ext_b; unf; ring. Qed.

(* equality of states up to a phase in {1, i, -1, -i} *)
Definition upto (phi psi : state) : Prop := exists u, unit4 u /\ phi = scal u psi.
Lemma upto_scal : forall u psi, unit4 u -> upto (scal u psi) psi.
Proof. intros u psi Hu; exists u; auto. Qed.
Lemma upto_refl : forall psi, upto psi psi.
Proof. intros psi; exists gone; split; [apply unit4_one | now rewrite scal_one]. Qed.
Lemma upto_trans : forall phi psi chi, upto phi psi -> upto psi chi -> upto phi chi.
Proof.
  intros phi psi chi (u & Hu & ->) (v & Hv & ->). exists (gmul u v); split; [now apply unit4_mul | apply scal_scal].
Qed.
(* an operator that lets scalars through preserves equality up to a phase *)
Lemma upto_map : forall (f : state -> state) phi psi,
  (forall u chi, f (scal u chi) = scal u (f chi)) -> upto phi psi -> upto (f phi) (f psi).
Proof. intros f phi psi Hf (u & Hu & ->). exists u; split; [assumption | apply Hf]. Qed.

Lemma opX_scal : forall w u psi, opX w (scal u psi) = scal u (opX w psi).
Proof. ext_b; unf; ring. Qed.
Lemma opZ_scal : forall w u psi, opZ w (scal u psi) = scal u (opZ w psi).
Proof. ext_b; unf; destruct (b w); ring. Qed.
Lemma op1_scal : forall w m u psi, op1 w m (scal u psi) = scal u (op1 w m psi).
Proof. ext_b; unf; destruct (b w); ring. Qed.
Lemma opCX_scal : forall c t u psi, opCX c t (scal u psi) = scal u (opCX c t psi).
Proof. ext_b; unf; ring. Qed.

(* Paulis on the same wire *)
Lemma opX_opX : forall w psi, opX w (opX w psi) = psi.
Proof. ext_b; unf; simp_upd; split_bit b w; fin psi. Qed.
Lemma opZ_opZ : forall w psi, opZ w (opZ w psi) = psi.
Proof. ext_b; unf; split_bit b w; fin psi. Qed.
Lemma opZ_opX : forall w psi, opZ w (opX w psi) = scal (gneg gone) (opX w (opZ w psi)).
Proof. ext_b; unf; simp_upd; split_bit b w; fin psi. Qed.

(* different wires commute exactly *)
Lemma opX_opX_comm : forall k w psi, k <> w -> opX k (opX w psi) = opX w (opX k psi).
Proof. ext_b; unf; simp_upd; fin psi. Qed.
Lemma opX_opZ_comm : forall k w psi, k <> w -> opX k (opZ w psi) = opZ w (opX k psi).
Proof. ext_b; unf; simp_upd; fin psi. Qed.
Lemma opZ_opZ_comm : forall k w psi, opZ k (opZ w psi) = opZ w (opZ k psi).
Proof. ext_b; unf; destruct (b k), (b w); ring. Qed.
Lemma op1_opX_comm : forall w m k psi, k <> w -> op1 w m (opX k psi) = opX k (op1 w m psi).
Proof. ext_b; unf; simp_upd; split_bit b w; fin psi. Qed.
Lemma op1_opZ_comm : forall w m k psi, k <> w -> op1 w m (opZ k psi) = opZ k (op1 w m psi).
Proof. ext_b; unf; simp_upd; split_bit b w; split_bit b k; fin psi. Qed.
Lemma opCX_opX_comm : forall c t k psi, k <> c -> k <> t -> opCX c t (opX k psi) = opX k (opCX c t psi).
Proof. ext_b; unf; simp_upd; fin psi. Qed.
Lemma opCX_opZ_comm : forall c t k psi, k <> c -> k <> t -> opCX c t (opZ k psi) = opZ k (opCX c t psi).
Proof. ext_b; unf; simp_upd; fin psi. Qed.

(* the Clifford gates against a Pauli on their own wire(s) *)
Lemma H_opX : forall w psi, op1 w Hm (opX w psi) = opZ w (op1 w Hm psi).
Proof. ext_b; unf; simp_upd; split_bit b w; fin psi. Qed.
Lemma H_opZ : forall w psi, op1 w Hm (opZ w psi) = opX w (op1 w Hm psi).
Proof. ext_b; unf; simp_upd; split_bit b w; fin psi. Qed.
Lemma S_opX : forall w psi, op1 w Sm (opX w psi) = scal gi (opX w (opZ w (op1 w Sm psi))).
Proof. ext_b; unf; simp_upd; split_bit b w; fin psi. Qed.
Lemma S_opZ : forall w psi, op1 w Sm (opZ w psi) = opZ w (op1 w Sm psi).
Proof. ext_b; unf; simp_upd; split_bit b w; fin psi. Qed.
Lemma opCX_opX_c : forall c t psi, c <> t -> opCX c t (opX c psi) = opX c (opX t (opCX c t psi)).
Proof. ext_b; unf; simp_upd; split_bit b c; split_bit b t; fin psi. Qed.
Lemma opCX_opZ_c : forall c t psi, c <> t -> opCX c t (opZ c psi) = opZ c (opCX c t psi).
Proof. ext_b; unf; simp_upd; fin psi. Qed.
Lemma opCX_opX_t : forall c t psi, c <> t -> opCX c t (opX t psi) = opX t (opCX c t psi).
Proof. ext_b; unf; simp_upd; split_bit b c; split_bit b t; fin psi. Qed.
Lemma opCX_opZ_t : forall c t psi, c <> t -> opCX c t (opZ t psi) = opZ c (opZ t (opCX c t psi)).
Proof. ext_b; unf; simp_upd; split_bit b c; split_bit b t; fin psi. Qed.

(* ---------- Pauli frames ---------- *)
(* textbook: the (x, z) record on wire w denotes X^x Z^z (Z applied first) with the literal matrices *)
Definition opP (w : nat) (p : xz) (psi : state) : state :=
  let a := if snd p then op1 w Zm psi else psi in if fst p then op1 w Xm a else a.
Definition opPf (w : nat) (p : xz) (psi : state) : state :=
  let a := if snd p then opZ w psi else psi in if fst p then opX w a else a.
Lemma opP_fast : forall w p psi, opP w p psi = opPf w p psi.
Proof. intros w [[|] [|]] psi; unfold opP, opPf; cbn [fst snd]; now rewrite ?op1_X, ?op1_Z. Qed.

(* frame F = record for wires k, k+1, ...; the operator is the product of the per-wire Paulis *)
Fixpoint sem_frame_from (k : nat) (F : frame) (psi : state) : state :=
  match F with [] => psi | p :: F' => opP k p (sem_frame_from (S k) F' psi) end.
Definition sem_frame (F : frame) : state -> state := sem_frame_from 0 F.
Fixpoint ff (k : nat) (F : frame) (psi : state) : state :=
  match F with [] => psi | p :: F' => opPf k p (ff (S k) F' psi) end.
Lemma sem_frame_from_fast : forall F k psi, sem_frame_from k F psi = ff k F psi.
Proof. induction F; intros; cbn; [reflexivity | now rewrite opP_fast, IHF]. Qed.

Lemma opPf_I : forall w psi, opPf w pI psi = psi. Proof. reflexivity. Qed.
Lemma opPf_scal : forall w p u psi, opPf w p (scal u psi) = scal u (opPf w p psi).
Proof. intros w [[|] [|]] u psi; unfold opPf; cbn [fst snd]; now rewrite ?opZ_scal, ?opX_scal. Qed.
Lemma opPf_comm : forall k w p q psi, k <> w -> opPf k p (opPf w q psi) = opPf w q (opPf k p psi).
Proof.
  intros k w [[|] [|]] [[|] [|]] psi Hkw; unfold opPf; cbn [fst snd]; try reflexivity;
  repeat first [ rewrite (opX_opX_comm k w) by assumption | rewrite (opX_opZ_comm k w) by assumption
               | rewrite (opZ_opZ_comm k w) | rewrite <- (opX_opZ_comm w k) by auto ]; reflexivity.
Qed.
Lemma op1_opPf_comm : forall w m k p psi, k <> w -> op1 w m (opPf k p psi) = opPf k p (op1 w m psi).
Proof. intros w m k [[|] [|]] psi H; unfold opPf; cbn [fst snd]; now rewrite ?op1_opX_comm, ?op1_opZ_comm by assumption. Qed.
Lemma opCX_opPf_comm : forall c t k p psi, k <> c -> k <> t -> opCX c t (opPf k p psi) = opPf k p (opCX c t psi).
Proof. intros c t k [[|] [|]] psi H1 H2; unfold opPf; cbn [fst snd]; now rewrite ?opCX_opX_comm, ?opCX_opZ_comm by assumption. Qed.

(* the unit u in C P = u P' C for a Pauli on the gate's own wire: H (XZ) = -(XZ) H, S X = i (XZ) S *)
Definition phH (p : xz) : G := if fst p && snd p then gneg gone else gone.
Definition phS (p : xz) : G := if fst p then gi else gone.

Lemma H_local : forall w p psi,
  op1 w Hm (opPf w p psi) = scal (phH p) (opPf w (commute_h p) (op1 w Hm psi)).
Proof.
  intros w [[|] [|]] psi; unfold opPf, commute_h, phH; cbn [fst snd andb];
  rewrite ?H_opX, ?H_opZ, ?opZ_opX, ?scal_one; reflexivity.
Qed.
Lemma S_local : forall w p psi,
  op1 w Sm (opPf w p psi) = scal (phS p) (opPf w (commute_s p) (op1 w Sm psi)).
Proof.
  intros w [[|] [|]] psi; unfold opPf, commute_s, phS; cbn [fst snd xorb];
  rewrite ?S_opX, ?S_opZ, ?opZ_opZ, ?scal_one; reflexivity.
Qed.
Lemma CX_local : forall c t pc pt psi, c <> t ->
  opCX c t (opPf c pc (opPf t pt psi)) =
  opPf c (fst (commute_cnot pc pt)) (opPf t (snd (commute_cnot pc pt)) (opCX c t psi)).
Proof.
  intros c t [[|] [|]] [[|] [|]] psi Hct; unfold opPf, commute_cnot; cbn [fst snd xorb];
  ext_b; unf; simp_upd; split_bit b c; split_bit b t; fin psi.
Qed.

(* ---------- list facts for the record array ---------- *)
Lemma set_nth_length : forall A i (v : A) l, length (set_nth i v l) = length l.
Proof. intros A i v l; revert i; induction l; intros [|i]; cbn; auto. Qed.
Lemma nth_set_nth_same : forall A i (v d : A) l, i < length l -> nth i (set_nth i v l) d = v.
Proof. intros A i v d l; revert i; induction l; intros [|i] H; cbn in *; try lia; auto. apply IHl; lia. Qed.
Lemma nth_set_nth_diff : forall A i j (v d : A) l, i <> j -> nth j (set_nth i v l) d = nth j l d.
Proof. intros A i j v d l; revert i j; induction l; intros [|i] [|j] H; cbn; auto; try lia. Qed.
Lemma set_nth_set_nth : forall A i (v v' : A) l, set_nth i v (set_nth i v' l) = set_nth i v l.
Proof. intros A i v v' l; revert i; induction l; intros [|i]; cbn; auto. now rewrite IHl. Qed.
Lemma set_nth_comm : forall A i j (v v' : A) l, i <> j -> set_nth i v (set_nth j v' l) = set_nth j v' (set_nth i v l).
Proof. intros A i j v v' l; revert i j; induction l; intros [|i] [|j] H; cbn; auto; try lia. f_equal; apply IHl; lia. Qed.

(* ---------- pulling one wire out of a frame ---------- *)
Lemma ff_opPf_comm : forall F k w q psi, w < k -> opPf w q (ff k F psi) = ff k F (opPf w q psi).
Proof.
  induction F; intros k w q psi H; cbn; [reflexivity|].
  rewrite opPf_comm by lia. now rewrite IHF by lia.
Qed.
Lemma ff_scal : forall F k u psi, ff k F (scal u psi) = scal u (ff k F psi).
Proof. induction F; intros; cbn; [reflexivity|]. now rewrite IHF, opPf_scal. Qed.

Lemma ff_extract : forall F k w psi, w < length F ->
  ff k F psi = opPf (k + w) (nth w F pI) (ff k (set_nth w pI F) psi).
Proof.
  induction F; intros k w psi H; cbn in H; [lia|].
  destruct w as [|w]; cbn [nth set_nth ff].
  - rewrite Nat.add_0_r, opPf_I. reflexivity.
  - rewrite (IHF (S k) w psi) by lia. rewrite opPf_comm by lia.
    replace (S k + w) with (k + S w) by lia. reflexivity.
Qed.

(* a one-wire gate commutes with a frame that starts above its wire *)
Lemma op1_ff_below : forall F k w m psi, w < k -> op1 w m (ff k F psi) = ff k F (op1 w m psi).
Proof. induction F; intros; cbn [ff]; [reflexivity|]. rewrite op1_opPf_comm, IHF by lia. reflexivity. Qed.

(* a CNOT commutes with a frame that carries the identity on its two wires *)
Lemma opCX_ff_skip : forall F k c t psi,
  (forall i, i < length F -> k + i = c \/ k + i = t -> nth i F pI = pI) ->
  opCX c t (ff k F psi) = ff k F (opCX c t psi).
Proof.
  induction F as [|p F IH]; intros k c t psi H; cbn [ff]; [reflexivity|].
  rewrite <- IH by (intros i Hi Hw; apply (H (S i)); cbn [length]; lia).
  destruct (Nat.eq_dec k c) as [Hc|Hc]; [|destruct (Nat.eq_dec k t) as [Ht|Ht]].
  - replace p with pI by (symmetry; apply (H 0); cbn [length]; lia). reflexivity.
  - replace p with pI by (symmetry; apply (H 0); cbn [length]; lia). reflexivity.
  - apply opCX_opPf_comm; assumption.
Qed.

(* ---------- one gate against an n-wire frame ---------- *)
(* a one-wire gate that passes a Pauli on its own wire by the rule (ph, f) passes a frame by rewriting the
   record of that wire *)
Lemma op1_ff : forall m ph f,
  (forall w p psi, op1 w m (opPf w p psi) = scal (ph p) (opPf w (f p) (op1 w m psi))) ->
  forall F k i psi, i < length F ->
  op1 (k + i) m (ff k F psi) = scal (ph (nth i F pI)) (ff k (set_nth i (f (nth i F pI)) F) (op1 (k + i) m psi)).
Proof.
  intros m ph f R. induction F as [|p F IH]; intros k i psi Hi; cbn [length] in Hi; [lia|].
  destruct i as [|i]; cbn [nth set_nth ff].
  - rewrite Nat.add_0_r, R, op1_ff_below by lia. reflexivity.
  - replace (k + S i) with (S k + i) by lia. rewrite op1_opPf_comm, IH, opPf_scal by lia. reflexivity.
Qed.
Lemma CX_frame : forall F c t psi, c < length F -> t < length F -> c <> t ->
  opCX c t (ff 0 F psi) = ff 0 (track_cnot c t F) (opCX c t psi).
Proof.
  intros F c t psi Hc Ht Hct. unfold track_cnot.
  set (pc := nth c F pI). set (pt := nth t F pI). cbv zeta.
  rewrite (ff_extract F 0 c psi Hc). cbn [Nat.add]. fold pc.
  rewrite (ff_extract (set_nth c pI F) 0 t psi) by (rewrite set_nth_length; assumption). cbn [Nat.add].
  rewrite (nth_set_nth_diff _ c t) by assumption. fold pt.
  rewrite CX_local by assumption.
  rewrite opCX_ff_skip.
  2:{ intros i _ [E | E]; cbn [Nat.add] in E; subst i.
      - rewrite (nth_set_nth_diff _ t c) by auto. apply nth_set_nth_same; assumption.
      - apply nth_set_nth_same. rewrite set_nth_length; assumption. }
  set (r := commute_cnot pc pt).
  rewrite (ff_extract (set_nth t (snd r) (set_nth c (fst r) F)) 0 c) by (rewrite !set_nth_length; assumption).
  cbn [Nat.add]. rewrite (nth_set_nth_diff _ t c) by auto. rewrite nth_set_nth_same by assumption.
  f_equal.
  rewrite (ff_extract (set_nth c pI (set_nth t (snd r) (set_nth c (fst r) F))) 0 t) by (rewrite !set_nth_length; assumption).
  cbn [Nat.add]. rewrite (nth_set_nth_diff _ c t) by assumption.
  rewrite nth_set_nth_same by (rewrite set_nth_length; assumption).
  f_equal. f_equal.
  rewrite (set_nth_comm _ c t pI (snd r)) by assumption. rewrite !set_nth_set_nth. reflexivity.
Qed.

(* ---------- Clifford circuits ---------- *)
Definition gate_ok (n : nat) (g : cgate) : Prop :=
  match g with GH w | GS w => w < n | GCX c t => c < n /\ t < n /\ c <> t end.
(* semantics from the literal textbook matrices (H scaled by sqrt 2: the statements are homogeneous in the gate) *)
Definition sem_gate (g : cgate) : state -> state :=
  match g with GH w => op1 w Hm | GS w => op1 w Sm | GCX c t => op2 c t CXm end.
Definition phase_gate (g : cgate) (F : frame) : G :=
  match g with GH w => phH (nth w F pI) | GS w => phS (nth w F pI) | GCX _ _ => gone end.
Definition sem_circ (cs : list cgate) (psi : state) : state := fold_left (fun phi g => sem_gate g phi) cs psi.

Lemma phase_gate_unit : forall g F, unit4 (phase_gate g F).
Proof.
  intros [w|w|c t] F; unfold phase_gate, phH, phS, unit4.
  - destruct (fst (nth w F pI) && snd (nth w F pI)); auto.
  - destruct (fst (nth w F pI)); auto.
  - auto.
Qed.
Lemma track_gate_length : forall g F, length (track_gate g F) = length F.
Proof. intros [w|w|c t] F; unfold track_gate, track_g1, track_cnot; cbv zeta; now rewrite ?set_nth_length. Qed.

Lemma commute_gate : forall n g F psi, length F = n -> gate_ok n g ->
  sem_gate g (sem_frame F psi) = scal (phase_gate g F) (sem_frame (track_gate g F) (sem_gate g psi)).
Proof.
  intros n g F psi HF Hg. unfold sem_frame. rewrite !sem_frame_from_fast.
  destruct g as [w|w|c t]; cbn [sem_gate track_gate phase_gate gate_ok] in *.
  - apply (op1_ff Hm phH commute_h H_local F 0 w). lia.
  - apply (op1_ff Sm phS commute_s S_local F 0 w). lia.
  - destruct Hg as (Hc & Ht & Hct). rewrite !op2_CX by assumption. rewrite scal_one. apply CX_frame; lia.
Qed.

Lemma sem_gate_scal : forall g u psi, sem_gate g (scal u psi) = scal u (sem_gate g psi).
Proof.
  intros [w|w|c t] u psi; cbn [sem_gate]; try apply op1_scal.
  apply functional_extensionality; intro b; unfold op2, scal; ring.
Qed.
Lemma sem_circ_scal : forall cs u psi, sem_circ cs (scal u psi) = scal u (sem_circ cs psi).
Proof. induction cs; intros; cbn; [reflexivity|]. unfold sem_circ in *. cbn. now rewrite sem_gate_scal, IHcs. Qed.

Lemma commute_circ : forall n cs F psi, length F = n -> Forall (gate_ok n) cs ->
  upto (sem_circ cs (sem_frame F psi)) (sem_frame (track_circ cs F) (sem_circ cs psi)).
Proof.
  intros n cs; induction cs as [|g cs IH]; intros F psi HF Hok; [apply upto_refl|].
  inversion Hok as [|? ? Hg Hcs]; subst. change (sem_circ (g :: cs)) with (fun phi => sem_circ cs (sem_gate g phi)).
  cbv beta. rewrite (commute_gate (length F) g F psi eq_refl Hg).
  eapply upto_trans; [apply upto_map; [intros; apply sem_circ_scal | apply upto_scal, phase_gate_unit] |].
  apply (IH (track_gate g F)); [apply track_gate_length | assumption].
Qed.

(* commute_clifford_op is the per-gate table used by track_gate *)
Definition zb (b : bool) : Z := if b then 1%Z else 0%Z.
Lemma commute_clifford_op_spec : forall pc pt : xz,
  commute_clifford_op CH [[zb (fst pc); zb (snd pc)]] = Some [commute_h pc] /\
  commute_clifford_op CS [[zb (fst pc); zb (snd pc)]] = Some [commute_s pc] /\
  commute_clifford_op CCNOT [[zb (fst pc); zb (snd pc)]; [zb (fst pt); zb (snd pt)]] =
    Some [fst (commute_cnot pc pt); snd (commute_cnot pc pt)].
Proof. intros [[|] [|]] [[|] [|]]; repeat split. Qed.

(* ---------- pauli_prod ---------- *)
Definition sem_pauli (w : nat) (p : pauli) (psi : state) : state :=
  match p with PI => psi | PX => op1 w Xm psi | PY => op1 w Ym psi | PZ => op1 w Zm psi end.
Lemma sem_pauli_xz : forall w p psi, upto (sem_pauli w p psi) (opPf w (pauli_to_xz p) psi).
Proof.
  intros w [| | |] psi; cbn [sem_pauli pauli_to_xz]; unfold opPf; cbn [fst snd];
    rewrite ?op1_X, ?op1_Y, ?op1_Z; try apply upto_refl.
  apply upto_scal. right; left; reflexivity.
Qed.
Lemma opPf_mul : forall w p q psi, upto (opPf w p (opPf w q psi)) (opPf w (xz_xor p q) psi).
Proof.
  intros w [[|] [|]] [[|] [|]] psi; unfold opPf, xz_xor; cbn [fst snd xorb];
  rewrite ?opZ_opX, ?opX_scal, ?opZ_scal, ?opX_opX, ?opZ_opZ, ?opX_opX; try apply upto_refl;
  apply upto_scal; right; right; left; reflexivity.
Qed.
Lemma prod_loop_sem : forall l w acc r psi, prod_loop acc (map Some l) = Some r ->
  upto (opPf w acc (fold_right (sem_pauli w) psi l)) (opPf w r psi).
Proof.
  induction l as [|p l IH]; intros w acc r psi H; cbn in H |- *.
  - inversion H; subst. apply upto_refl.
  - eapply upto_trans; [apply upto_map; [intros; apply opPf_scal | apply sem_pauli_xz] |].
    eapply upto_trans; [apply opPf_mul | apply IH; exact H].
Qed.
Lemma pauli_prod_sem : forall l w r psi, pauli_prod (map Some l) = Some r ->
  upto (fold_right (sem_pauli w) psi l) (opP w r psi).
Proof.
  intros [|p l] w r psi H; cbn in H; [discriminate|]. cbn [fold_right]. rewrite opP_fast.
  eapply upto_trans; [apply sem_pauli_xz | apply prod_loop_sem; exact H].
Qed.
Lemma prod_loop_none : forall l acc, prod_loop acc l = None <-> In None l.
Proof.
  induction l as [|[p|] l IH]; intros acc; cbn.
  - split; [discriminate | tauto].
  - rewrite IH. split; [auto | intros [H|H]; [discriminate | assumption]].
  - split; auto.
Qed.
Lemma pauli_prod_none : forall l, pauli_prod l = None <-> l = [] \/ In None l.
Proof.
  intros [|[p|] l]; cbn.
  - split; auto.
  - rewrite prod_loop_none. split; [auto | intros [H|[H|H]]; [discriminate | discriminate | assumption]].
  - split; auto.
Qed.

(* ---------- the same claim on literal matrices, Hermitian Pauli labels (finite domain) ---------- *)
Definition M := list (list G).
Definition gsum (l : list G) : G := fold_right gadd gzero l.
Definition mcol (m : M) (j : nat) : list G := map (fun r => nth j r gzero) m.
Definition mmul (a b : M) : M :=
  map (fun r => map (fun j => gsum (map (fun xy => gmul (fst xy) (snd xy)) (combine r (mcol b j)))) (seq 0 (length (hd [] b)))) a.
Definition mscale (u : G) (a : M) : M := map (map (gmul u)) a.
Definition kron (a b : M) : M :=
  flat_map (fun ra => map (fun rb => flat_map (fun x => map (gmul x) rb) ra) b) a.
Definition pmat (p : pauli) : M :=
  match p with
  | PI => [[gone; gzero]; [gzero; gone]]
  | PX => [[gzero; gone]; [gone; gzero]]
  | PY => [[gzero; gneg gi]; [gi; gzero]]
  | PZ => [[gone; gzero]; [gzero; gneg gone]]
  end.
Definition Hmat : M := [[gone; gone]; [gone; gneg gone]].
Definition Smat : M := [[gone; gzero]; [gzero; gi]].
Definition CXmat : M := [[gone; gzero; gzero; gzero]; [gzero; gone; gzero; gzero]; [gzero; gzero; gzero; gone]; [gzero; gzero; gone; gzero]].
Definition relabel (f : xz -> xz) (p : pauli) : pauli := xz_to_pauli_b (f (pauli_to_xz p)).
Definition pm_eq (a b : M) : Prop := a = b \/ a = mscale (gneg gone) b.

Lemma tracker_matrix_H : forall p, pm_eq (mmul Hmat (pmat p)) (mmul (pmat (relabel commute_h p)) Hmat).
Proof. intros [| | |]; unfold pm_eq; vm_compute; auto. Qed.
Lemma tracker_matrix_S : forall p, pm_eq (mmul Smat (pmat p)) (mmul (pmat (relabel commute_s p)) Smat).
Proof. intros [| | |]; unfold pm_eq; vm_compute; auto. Qed.
Lemma tracker_matrix_CX : forall p q,
  pm_eq (mmul CXmat (kron (pmat p) (pmat q)))
        (mmul (kron (pmat (xz_to_pauli_b (fst (commute_cnot (pauli_to_xz p) (pauli_to_xz q)))))
                    (pmat (xz_to_pauli_b (snd (commute_cnot (pauli_to_xz p) (pauli_to_xz q)))))) CXmat).
Proof. intros [| | |] [| | |]; unfold pm_eq; vm_compute; auto. Qed.

(* the functional semantics really is the matrix semantics: matrix of an operator on n wires *)
Fixpoint all_bits (n : nat) : list (list bool) :=
  match n with O => [[]] | S n' => flat_map (fun l => [false :: l; true :: l]) (all_bits n') end.
Definition bits_of_list (l : list bool) : bits := fun i => nth i l false.
Definition basis_state (n : nat) (c : list bool) : state :=
  fun b => if list_beq Bool.eqb (map b (seq 0 n)) c then gone else gzero.
(* wire 0 is the most significant bit of the row/column index *)
Definition msb_bits (n : nat) : list (list bool) := map (@rev bool) (all_bits n).
Definition matrix_of (n : nat) (op : state -> state) : M :=
  map (fun r => map (fun c => op (basis_state n c) (bits_of_list r)) (msb_bits n)) (msb_bits n).
Lemma matrix_of_gates :
  matrix_of 1 (op1 0 Hm) = Hmat /\ matrix_of 1 (op1 0 Sm) = Smat /\ matrix_of 2 (op2 0 1 CXm) = CXmat /\
  (forall p, matrix_of 1 (sem_pauli 0 p) = pmat p) /\
  (forall p q, matrix_of 2 (fun psi => sem_pauli 0 p (sem_pauli 1 q psi)) = kron (pmat p) (pmat q)).
Proof.
  split; [reflexivity |]. split; [reflexivity |]. split; [reflexivity |]. split.
  - intros [| | |]; reflexivity.
  - intros [| | |] [| | |]; reflexivity.
Qed.

(* ---------- _correct_samples: a computational-basis sample of (frame . psi) is a sample of psi xor-ed with the x record ---------- *)
Fixpoint flipx (k : nat) (F : frame) (b : bits) : bits :=
  match F with [] => b | p :: F' => flipx (S k) F' (if fst p then upd b k (negb (b k)) else b) end.
Definition pm1 (s : G) : Prop := s = gone \/ s = gneg gone.
Lemma pm1_mul : forall s t, pm1 s -> pm1 t -> pm1 (gmul s t).
Proof. intros s t [ -> | -> ] [ -> | -> ]; unfold pm1; vm_compute; auto. Qed.
Lemma opPf_amp : forall k p phi b, exists s, pm1 s /\
  opPf k p phi b = gmul s (phi (if fst p then upd b k (negb (b k)) else b)).
Proof.
  intros k [[|] [|]] phi b; unfold opPf, opX, opZ; cbn [fst snd].
  - destruct (upd b k (negb (b k)) k); [exists (gneg gone) | exists gone]; split; try (now right); try (now left); ring.
  - exists gone; split; [now left | ring].
  - destruct (b k); [exists (gneg gone) | exists gone]; split; try (now right); try (now left); ring.
  - exists gone; split; [now left | ring].
Qed.
Lemma ff_amp : forall F k psi b, exists s, pm1 s /\ ff k F psi b = gmul s (psi (flipx k F b)).
Proof.
  induction F as [|p F IH]; intros k psi b; cbn [ff flipx].
  - exists gone; split; [now left | ring].
  - destruct (opPf_amp k p (ff (S k) F psi) b) as (s1 & H1 & E1). rewrite E1.
    destruct (IH (S k) psi (if fst p then upd b k (negb (b k)) else b)) as (s2 & H2 & E2). rewrite E2.
    exists (gmul s1 s2); split; [apply pm1_mul; assumption | ring].
Qed.
Lemma flipx_spec : forall F k b i,
  flipx k F b i = if Nat.leb k i then xorb (b i) (fst (nth (i - k) F pI)) else b i.
Proof.
  induction F as [|p F IH]; intros k b i; cbn [flipx].
  - destruct (Nat.leb k i); [|reflexivity]. destruct (i - k); cbn; now rewrite xorb_false_r.
  - rewrite IH. destruct (Nat.leb_spec (S k) i) as [H|H].
    + replace (Nat.leb k i) with true by (symmetry; apply Nat.leb_le; lia).
      replace (i - k) with (S (i - S k)) by lia. cbn [nth].
      destruct (fst p); [rewrite upd_diff by lia|]; reflexivity.
    + destruct (Nat.leb_spec k i) as [H'|H'].
      * assert (i = k) as Hik by lia; subst i. rewrite Nat.sub_diag. cbn [nth].
        destruct (fst p); [rewrite upd_same; now destruct (b k) | now rewrite xorb_false_r].
      * destruct (fst p); [rewrite upd_diff by lia|]; reflexivity.
Qed.
Lemma frame_amplitude : forall F psi b, exists s, pm1 s /\
  sem_frame F psi b = gmul s (psi (fun i => xorb (b i) (fst (nth i F pI)))).
Proof.
  intros F psi b. unfold sem_frame. rewrite sem_frame_from_fast.
  destruct (ff_amp F 0 psi b) as (s & Hs & E). exists s; split; [assumption|]. rewrite E. f_equal. f_equal.
  apply functional_extensionality; intro i. rewrite flipx_spec. cbn [Nat.leb]. now rewrite Nat.sub_0_r.
Qed.
