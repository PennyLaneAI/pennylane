(* Lemmas about Disc/FermiModel.v (property C53): Pauli sentences modulo `sequiv` form an associative algebra with
   unit and adjoint, the word maps are multiplicative and preserve adjoints for every register size, and
   Jordan-Wigner satisfies the canonical anticommutation relations for every register size. *)
From Coq Require Import List ZArith QArith Bool Arith Lia Lqa Setoid Morphisms.
From PLV Require Import Disc.FermiModel.
Import ListNotations.
Local Open Scope nat_scope.

Ltac Zify.zify_post_hook ::= Z.to_euclidean_division_equations.

(* ------------------------------------------------------------------ Pauli words *)
Lemma pauli_eqb_eq : forall a b, pauli_eqb a b = true <-> a = b.
Proof. destruct a, b; cbn; split; intro H; try reflexivity; try discriminate. Qed.

Lemma weqb_eq : forall a b, weqb a b = true <-> a = b.
Proof.
  induction a as [|x r IH]; destruct b as [|y s]; cbn; split; intro H; try reflexivity; try discriminate.
  - apply andb_true_iff in H. destruct H as [H1 H2]. apply pauli_eqb_eq in H1. apply IH in H2. congruence.
  - inversion H; subst. apply andb_true_iff. split; [apply pauli_eqb_eq | apply IH]; reflexivity.
Qed.

Lemma weqb_refl : forall a, weqb a a = true.
Proof. intro a. apply weqb_eq. reflexivity. Qed.

(* (ab)^dagger = b a for Hermitian single-qubit Paulis: same letter, conjugate phase *)
Lemma pmul_swap : forall a b, snd (pmul b a) = snd (pmul a b) /\ fst (pmul b a) = ((- fst (pmul a b)) mod 4)%Z.
Proof. destruct a, b; cbn; split; reflexivity. Qed.

Lemma pmul_phase_range : forall a b, (0 <= fst (pmul a b) < 4)%Z.
Proof. destruct a, b; cbn; lia. Qed.

Lemma wmul_phase_range : forall a b, (0 <= fst (wmul a b) < 4)%Z.
Proof.
  induction a as [|x r IH]; destruct b as [|y s]; cbn [wmul fst]; lia.
Qed.

(* word level (AB)^dagger = B^dagger A^dagger : swapping the factors keeps the word and conjugates the phase *)
Lemma wmul_swap : forall a b, snd (wmul b a) = snd (wmul a b) /\ fst (wmul b a) = ((- fst (wmul a b)) mod 4)%Z.
Proof.
  induction a as [|x r IH]; destruct b as [|y s]; cbn [wmul fst snd]; try (split; reflexivity).
  destruct (IH s) as [Hw Hk]. destruct (pmul_swap x y) as [Hc Hp].
  split.
  - rewrite Hc, Hw. reflexivity.
  - rewrite Hk, Hp.
    pose proof (pmul_phase_range x y). pose proof (wmul_phase_range r s). lia.
Qed.

(* (ab)c and a(bc) are the same letter (word) and collect the same total phase *)
Lemma pmul_assoc : forall x y z,
  snd (pmul (snd (pmul x y)) z) = snd (pmul x (snd (pmul y z))) /\
  ((fst (pmul x y) + fst (pmul (snd (pmul x y)) z)) mod 4 = (fst (pmul y z) + fst (pmul x (snd (pmul y z)))) mod 4)%Z.
Proof. destruct x, y, z; split; reflexivity. Qed.

Lemma wmul_assoc : forall a b c,
  snd (wmul (snd (wmul a b)) c) = snd (wmul a (snd (wmul b c))) /\
  ((fst (wmul a b) + fst (wmul (snd (wmul a b)) c)) mod 4 = (fst (wmul b c) + fst (wmul a (snd (wmul b c)))) mod 4)%Z.
Proof.
  induction a as [|x r IH]; intros b c; [split; [reflexivity | cbn [wmul fst snd]; f_equal; lia]|].
  destruct b as [|y s]; [split; reflexivity|].
  destruct c as [|z t]; [split; [reflexivity | cbn [wmul fst snd]; f_equal; lia]|].
  cbn [wmul fst snd]. destruct (IH s t) as [Hw Hk]. destruct (pmul_assoc x y z) as [Hc Hp].
  split; [rewrite Hc, Hw; reflexivity | lia].
Qed.

Lemma wmul_I_l_phase : forall k w, fst (wmul (repeat PI k) w) = 0%Z.
Proof.
  induction k as [|k IH]; intro w; cbn [repeat wmul fst]; [reflexivity|].
  destruct w as [|y s]; cbn [wmul fst snd pmul]; [reflexivity|].
  rewrite IH. reflexivity.
Qed.

Lemma pmul_I_r : forall x, pmul x PI = (0%Z, x).
Proof. destruct x; reflexivity. Qed.

Lemma wmul_I_r : forall n a, n <= length a -> wmul a (repeat PI n) = (0%Z, a).
Proof.
  induction n as [|n IH]; intros a H; cbn [repeat]; [destruct a; reflexivity|].
  destruct a as [|x r]; cbn [length] in H; [lia|].
  cbn [wmul]. rewrite pmul_I_r, IH by lia. reflexivity.
Qed.
Lemma wmul_II : forall k, wmul (repeat PI k) (repeat PI k) = (0%Z, repeat PI k).
Proof. intro k. apply wmul_I_r. rewrite repeat_length. apply le_n. Qed.

Lemma jw_word_S : forall n p P, jw_word (S n) (S p) P = PZ :: jw_word n p P.
Proof. intros. unfold jw_word. cbn [repeat app Nat.sub]. reflexivity. Qed.

Lemma jw_word_0 : forall n P, jw_word (S n) 0 P = P :: repeat PI n.
Proof. intros. unfold jw_word. cbn [repeat app]. do 2 f_equal. lia. Qed.

(* key lemma: Jordan-Wigner strings on different modes p < q overlap non-trivially on the single
   site p (X or Y against Z), so the phase of their product is odd: they anticommute *)
Lemma jw_words_phase_odd : forall p n q P R, p < q -> q < n -> (P = PX \/ P = PY) ->
  let k := fst (wmul (jw_word n p P) (jw_word n q R)) in k = 1%Z \/ k = 3%Z.
Proof.
  induction p as [|p IH]; intros n q P R Hpq Hqn HP.
  - destruct n as [|n]; [lia|]. destruct q as [|q]; [lia|].
    rewrite jw_word_0. unfold jw_word at 1. cbn [repeat app wmul fst snd].
    rewrite wmul_I_l_phase.
    destruct HP; subst P; cbn; lia.
  - destruct n as [|n]; [lia|]. destruct q as [|q]; [lia|].
    rewrite !jw_word_S. cbn [wmul fst snd pmul].
    specialize (IH n q P R ltac:(lia) ltac:(lia) HP). cbn zeta in IH.
    pose proof (wmul_phase_range (jw_word n p P) (jw_word n q R)).
    cbn zeta. destruct IH as [E|E]; rewrite E; cbn; lia.
Qed.

Definition site_word (n p : nat) (P : pauli) : pword := repeat PI p ++ P :: repeat PI (n - p - 1).

Lemma site_word_S : forall n p P, site_word (S n) (S p) P = PI :: site_word n p P.
Proof. intros. unfold site_word. cbn [repeat app Nat.sub]. reflexivity. Qed.

(* same mode: the Z strings cancel and only the site p survives *)
Lemma jw_words_same_site : forall p n P R, p < n ->
  wmul (jw_word n p P) (jw_word n p R) = (fst (pmul P R), site_word n p (snd (pmul P R))).
Proof.
  induction p as [|p IH]; intros n P R Hpn.
  - destruct n as [|n]; [lia|]. rewrite !jw_word_0. unfold site_word. cbn [repeat app wmul Nat.sub].
    rewrite wmul_II, Nat.sub_0_r. cbn [fst snd].
    pose proof (pmul_phase_range P R). f_equal. lia.
  - destruct n as [|n]; [lia|]. rewrite !jw_word_S, site_word_S. cbn [wmul pmul fst snd].
    rewrite (IH n P R ltac:(lia)). cbn [fst snd].
    pose proof (pmul_phase_range P R). f_equal. lia.
Qed.

Lemma site_word_I : forall n p, p < n -> site_word n p PI = repeat PI n.
Proof.
  intros n p H. unfold site_word.
  replace n with (p + S (n - p - 1)) at 2 by lia.
  rewrite repeat_app. reflexivity.
Qed.

(* ------------------------------------------------------------------ Gaussian rationals up to ceq *)
Global Instance ceq_rel : Equivalence ceq.
Proof.
  split.
  - intro a. split; reflexivity.
  - intros a b [H1 H2]. split; symmetry; assumption.
  - intros a b c [H1 H2] [H3 H4]. split; etransitivity; eassumption.
Qed.

Global Instance cplus_mor : Proper (ceq ==> ceq ==> ceq) cplus.
Proof. intros a b [H1 H2] c d [H3 H4]. split; cbn; [rewrite H1, H3 | rewrite H2, H4]; reflexivity. Qed.

Global Instance cmulx_mor : Proper (ceq ==> ceq ==> ceq) cmulx.
Proof. intros a b [H1 H2] c d [H3 H4]. split; cbn; rewrite H1, H2, H3, H4; reflexivity. Qed.

Global Instance cconj_mor : Proper (ceq ==> ceq) cconj.
Proof. intros a b [H1 H2]. split; cbn; [exact H1 | rewrite H2; reflexivity]. Qed.

Lemma cred_ceq : forall a, ceq (cred a) a.
Proof. intro a. split; cbn; apply Qred_correct. Qed.
Lemma cadd_ceq : forall a b, ceq (cadd a b) (cplus a b).
Proof. intros. unfold cadd. apply cred_ceq. Qed.
Lemma cmul_ceq : forall a b, ceq (cmul a b) (cmulx a b).
Proof. intros. unfold cmul. apply cred_ceq. Qed.

Definition csum {X} (f : X -> C) (l : list X) : C := fold_right (fun x s => cplus (f x) s) c0 l.

(* identities between expressions in cplus, cmulx, cconj over atoms are ring identities over Q in each component *)
Ltac cring := split; cbn [csum fold_right cplus cmulx cconj cneg c0 c1 fst snd]; ring.

Lemma cplus_0_r : forall a, ceq (cplus a c0) a.
Proof. intro a. cring. Qed.

Lemma czero_ceq : forall c, czero c = true -> ceq c c0.
Proof.
  intros c H. unfold czero in H. apply andb_true_iff in H. destruct H as [H1 H2].
  apply Qeq_bool_iff in H1. apply Qeq_bool_iff in H2. split; assumption.
Qed.

(* ci_pow k multiplies by the unit i^k *)
Definition iunit (k : Z) : C := ci_pow k c1.

Lemma ci_pow_0 : forall c, ci_pow 0 c = c. Proof. reflexivity. Qed.

Lemma mod4_cases : forall k, (k mod 4 = 0 \/ k mod 4 = 1 \/ k mod 4 = 2 \/ k mod 4 = 3)%Z.
Proof. intro k. pose proof (Z.mod_pos_bound k 4). lia. Qed.

Lemma ci_pow_iunit : forall k c, ceq (ci_pow k c) (cmulx c (iunit k)).
Proof.
  intros k c. unfold iunit, ci_pow. destruct (mod4_cases k) as [H|[H|[H|H]]]; rewrite H; cring.
Qed.

Lemma iunit_mod : forall k, iunit (k mod 4) = iunit k.
Proof. intro k. unfold iunit, ci_pow. rewrite Zmod_mod. reflexivity. Qed.

Lemma iunit_add : forall j k, ceq (cmulx (iunit j) (iunit k)) (iunit (j + k)).
Proof.
  intros j k. unfold iunit, ci_pow. rewrite (Zplus_mod j k).
  destruct (mod4_cases j) as [Hj|[Hj|[Hj|Hj]]], (mod4_cases k) as [Hk|[Hk|[Hk|Hk]]];
    rewrite Hj, Hk; vm_compute; split; reflexivity.
Qed.

Lemma iunit_opp : forall k, ceq (iunit (- k)) (cconj (iunit k)).
Proof.
  intro k. unfold iunit, ci_pow.
  destruct (mod4_cases k) as [H|[H|[H|H]]]; rewrite H;
    [replace ((- k) mod 4)%Z with 0%Z by lia | replace ((- k) mod 4)%Z with 3%Z by lia
    | replace ((- k) mod 4)%Z with 2%Z by lia | replace ((- k) mod 4)%Z with 1%Z by lia]; cring.
Qed.

(* the odd powers of i are purely imaginary *)
Lemma iunit_odd : forall k, (k = 1 \/ k = 3)%Z -> ceq (cplus (iunit k) (cconj (iunit k))) c0.
Proof. intros k [->| ->]; vm_compute; split; reflexivity. Qed.

(* ------------------------------------------------------------------ finite sums *)
Lemma csum_cons : forall {X} (f : X -> C) x r, csum f (x :: r) = cplus (f x) (csum f r).
Proof. reflexivity. Qed.

Lemma csum_ext : forall {X} (f g : X -> C) l, (forall x, In x l -> ceq (f x) (g x)) -> ceq (csum f l) (csum g l).
Proof.
  induction l as [|x r IH]; intro H; [reflexivity|].
  rewrite !csum_cons, (H x (or_introl eq_refl)), IH; [reflexivity|].
  intros y Hy. apply H. right. exact Hy.
Qed.

Lemma csum_zero : forall {X} (f : X -> C) l, (forall x, In x l -> ceq (f x) c0) -> ceq (csum f l) c0.
Proof.
  intros X f l H. rewrite (csum_ext f (fun _ => c0) l H). clear H.
  induction l as [|x r IH]; [reflexivity|]. rewrite csum_cons, IH. cring.
Qed.

Lemma csum_app : forall {X} (f : X -> C) l1 l2, ceq (csum f (l1 ++ l2)) (cplus (csum f l1) (csum f l2)).
Proof.
  induction l1 as [|x r IH]; intro l2; cbn [app].
  - cring.
  - rewrite !csum_cons, IH. cring.
Qed.

Lemma csum_map : forall {X Y} (f : Y -> C) (g : X -> Y) l, csum f (map g l) = csum (fun x => f (g x)) l.
Proof. induction l as [|x r IH]; cbn [map]; [reflexivity|]. rewrite !csum_cons, IH. reflexivity. Qed.

Lemma csum_flat_map : forall {X Y} (f : Y -> C) (g : X -> list Y) l,
  ceq (csum f (flat_map g l)) (csum (fun x => csum f (g x)) l).
Proof.
  induction l as [|x r IH]; cbn [flat_map]; [reflexivity|].
  rewrite csum_app, csum_cons, IH. reflexivity.
Qed.

Lemma csum_plus : forall {X} (f g : X -> C) l,
  ceq (csum (fun x => cplus (f x) (g x)) l) (cplus (csum f l) (csum g l)).
Proof. induction l as [|x r IH]; [cring|]. rewrite !csum_cons, IH. cring. Qed.

Lemma csum_scale : forall {X} c (f : X -> C) l, ceq (csum (fun x => cmulx c (f x)) l) (cmulx c (csum f l)).
Proof. induction l as [|x r IH]; [cring|]. rewrite !csum_cons, IH. cring. Qed.

Lemma csum_conj : forall {X} (f : X -> C) l, ceq (cconj (csum f l)) (csum (fun x => cconj (f x)) l).
Proof. induction l as [|x r IH]; [cring|]. rewrite !csum_cons, <- IH. cring. Qed.

Lemma csum_swap : forall {X Y} (f : X -> Y -> C) l1 l2,
  ceq (csum (fun x => csum (f x) l2) l1) (csum (fun y => csum (fun x => f x y) l1) l2).
Proof.
  induction l1 as [|x r IH]; intro l2.
  - symmetry. apply csum_zero. reflexivity.
  - rewrite csum_cons, IH, <- csum_plus. reflexivity.
Qed.

(* ------------------------------------------------------------------ sentences up to sequiv: the linear structure.
   `++` is the sum, [] is zero; saccum, sadd, sprune and the accumulation inside smul only change the representative *)
Global Instance sequiv_rel : Equivalence sequiv.
Proof.
  split.
  - intros A v. reflexivity.
  - intros A B H v. symmetry. apply H.
  - intros A B D H1 H2 v. rewrite (H1 v). apply H2.
Qed.

Global Instance coef_sequiv : Proper (sequiv ==> eq ==> ceq) coef.
Proof. intros A B H v ? <-. apply H. Qed.

(* coef A v is the sum of the entries of A at the key v *)
Definition pick (v : pword) (e : pword * C) : C := if weqb (fst e) v then snd e else c0.

Lemma coef_csum : forall A v, coef A v = csum (pick v) A.
Proof. induction A as [|e r IH]; intro v; [reflexivity|]. rewrite csum_cons, <- IH. reflexivity. Qed.

Lemma pick_ext : forall v e e', fst e = fst e' -> ceq (snd e) (snd e') -> ceq (pick v e) (pick v e').
Proof. intros v e e' Hw Hc. unfold pick. rewrite Hw. destruct (weqb (fst e') v); [exact Hc | reflexivity]. Qed.

Lemma coef_app : forall A B w, ceq (coef (A ++ B) w) (cplus (coef A w) (coef B w)).
Proof. intros. rewrite !coef_csum. apply csum_app. Qed.

Global Instance app_sequiv : Proper (sequiv ==> sequiv ==> sequiv) (@app (pword * C)).
Proof. intros A A' HA B B' HB v. rewrite !coef_app, (HA v), (HB v). reflexivity. Qed.

Lemma app_comm : forall A B : psent, sequiv (A ++ B) (B ++ A).
Proof. intros A B v. rewrite !coef_app. cring. Qed.

Lemma opposite_unique : forall A B D, sequiv (A ++ B) [] -> sequiv (B ++ D) [] -> sequiv A D.
Proof.
  intros A B D H1 H2 v. specialize (H1 v). specialize (H2 v). rewrite coef_app in H1, H2.
  destruct H1 as [H1 H1'], H2 as [H2 H2']. cbn [cplus coef c0 fst snd] in *. split; lra.
Qed.

Lemma double_nil : forall A, sequiv (A ++ A) [] -> sequiv A [].
Proof.
  intros A H v. specialize (H v). rewrite coef_app in H. destruct H as [H H']. split; cbn [cplus coef c0 fst snd] in *; lra.
Qed.

Lemma coef_sins : forall A w c v,
  ceq (coef (sins w c A) v) (cplus (coef A v) (if weqb w v then c else c0)).
Proof.
  induction A as [|e r IH]; intros w c v; cbn [sins coef fst snd].
  - destruct (weqb w v); [rewrite cadd_ceq|]; cring.
  - destruct (weqb (fst e) w) eqn:E; cbn [coef fst snd].
    + apply weqb_eq in E. subst w. destruct (weqb (fst e) v); [rewrite cadd_ceq|]; cring.
    + rewrite IH. cring.
Qed.

Lemma saccum_app : forall R acc, sequiv (saccum R acc) (acc ++ R).
Proof.
  unfold saccum. induction R as [|e r IH]; intros acc v; cbn [fold_left].
  - rewrite app_nil_r. reflexivity.
  - rewrite (IH _ v), !coef_app, coef_sins. cbn [coef]. cring.
Qed.

Lemma sprune_sequiv : forall A, sequiv (sprune A) A.
Proof.
  induction A as [|e r IH]; intro v; cbn [sprune filter coef]; [reflexivity|].
  fold (sprune r). destruct (czero (snd e)) eqn:E; cbn [negb coef]; rewrite (IH v); [|reflexivity].
  apply czero_ceq in E. destruct (weqb (fst e) v); [rewrite E|]; cring.
Qed.

Lemma smul_rmul : forall A B, sequiv (smul A B) (rmul A B).
Proof. intros. apply (saccum_app (rmul A B) []). Qed.

Lemma sadd_app : forall A B, sequiv (sadd A B) (A ++ B).
Proof. intros. unfold sadd. rewrite !saccum_app. reflexivity. Qed.

Lemma anticomm_app : forall A B, sequiv (anticomm A B) (smul A B ++ smul B A).
Proof. intros. unfold anticomm. rewrite sprune_sequiv. apply sadd_app. Qed.

Lemma coef_sscale : forall c A v, ceq (coef (sscale c A) v) (cmulx (coef A v) c).
Proof.
  induction A as [|e r IH]; intro v; cbn [sscale map coef fst snd]; [cring|].
  fold (sscale c r). rewrite IH. destruct (weqb (fst e) v); [rewrite cmul_ceq|]; cring.
Qed.

Global Instance sscale_sequiv : Proper (ceq ==> sequiv ==> sequiv) sscale.
Proof. intros c c' Hc A A' HA v. rewrite !coef_sscale, (HA v), Hc. reflexivity. Qed.

Lemma sscale_app : forall c A B, sscale c (A ++ B) = sscale c A ++ sscale c B.
Proof. intros. apply map_app. Qed.

Lemma sscale_c1 : forall A, sequiv (sscale c1 A) A.
Proof. intros A v. rewrite coef_sscale. cring. Qed.

Definition eadj (e : pword * C) : pword * C := (fst e, cconj (snd e)).

Lemma pick_adj : forall v e, ceq (cconj (pick v e)) (pick v (eadj e)).
Proof. intros. unfold pick, eadj. cbn [fst snd]. destruct (weqb (fst e) v); [reflexivity | cring]. Qed.

Lemma coef_sadj : forall A v, ceq (coef (sadj A) v) (cconj (coef A v)).
Proof.
  intros. rewrite !coef_csum, csum_conj. unfold sadj. rewrite csum_map. apply csum_ext. intros e _.
  symmetry. apply pick_adj.
Qed.

Global Instance sadj_sequiv : Proper (sequiv ==> sequiv) sadj.
Proof. intros A B H v. rewrite !coef_sadj, (H v). reflexivity. Qed.

(* soundness of the decision procedure used in the bounded clauses *)
Lemma sent_eqb_sound : forall A B, sent_eqb A B = true -> sequiv A B.
Proof.
  intros A B H v. unfold sent_eqb in H.
  destruct (sprune (saccum (sscale (cneg c1) B) (saccum A []))) eqn:E; [|discriminate].
  pose proof (sprune_sequiv (saccum (sscale (cneg c1) B) (saccum A [])) v) as H1.
  rewrite E, !saccum_app, coef_app, coef_sscale in H1. cbn [coef app] in H1.
  destruct H1 as [Ha Hb]. cbn in Ha, Hb. split; lra.
Qed.

(* ------------------------------------------------------------------ the product as a double sum over pairs of terms *)
Definition tmul (ea eb : pword * C) : pword * C :=
  let kw := wmul (fst ea) (fst eb) in (snd kw, ci_pow (fst kw) (cmul (snd ea) (snd eb))).

Lemma tmul_snd : forall ea eb,
  ceq (snd (tmul ea eb)) (cmulx (cmulx (snd ea) (snd eb)) (iunit (fst (wmul (fst ea) (fst eb))))).
Proof. intros. unfold tmul. cbn [snd]. rewrite ci_pow_iunit, cmul_ceq. reflexivity. Qed.

Lemma coef_rmul : forall A B v,
  ceq (coef (rmul A B) v) (csum (fun ea => csum (fun eb => pick v (tmul ea eb)) B) A).
Proof.
  intros. rewrite coef_csum. change (rmul A B) with (flat_map (fun ea => map (tmul ea) B) A).
  rewrite csum_flat_map. apply csum_ext. intros ea _. rewrite csum_map. reflexivity.
Qed.

(* structure constant: the coefficient of v in the product of the words a and b *)
Definition sconst (a b v : pword) : C := if weqb (snd (wmul a b)) v then iunit (fst (wmul a b)) else c0.

Lemma pick_tmul : forall v ea eb,
  ceq (pick v (tmul ea eb)) (cmulx (cmulx (snd ea) (snd eb)) (sconst (fst ea) (fst eb) v)).
Proof.
  intros. unfold pick, sconst. change (fst (tmul ea eb)) with (snd (wmul (fst ea) (fst eb))).
  destruct (weqb _ v); [apply tmul_snd | cring].
Qed.

(* A sum over the entries of A that is linear in their coefficients depends on A only through its coefficient
   function: split off all entries with one key w, which contribute coef A w, and recurse on the shorter rest. *)
Definition drop (w : pword) (A : psent) : psent := filter (fun e => negb (weqb (fst e) w)) A.

Lemma lin_split : forall (K : pword -> C) w A,
  ceq (csum (fun e => cmulx (snd e) (K (fst e))) A)
      (cplus (cmulx (coef A w) (K w)) (csum (fun e => cmulx (snd e) (K (fst e))) (drop w A))).
Proof.
  induction A as [|e r IH]; cbn [drop filter coef]; [cring|].
  fold (drop w r). rewrite csum_cons, IH.
  destruct (weqb (fst e) w) eqn:E; cbn [negb].
  - apply weqb_eq in E. rewrite E. cring.
  - rewrite csum_cons. cring.
Qed.

Lemma coef_drop : forall w A v, ceq (coef (drop w A) v) (if weqb w v then c0 else coef A v).
Proof.
  induction A as [|e r IH]; intro v; cbn [drop filter coef].
  - destruct (weqb w v); reflexivity.
  - fold (drop w r). destruct (weqb (fst e) w) eqn:E; cbn [negb coef]; rewrite IH.
    + apply weqb_eq in E. rewrite E. destruct (weqb w v); [reflexivity | cring].
    + destruct (weqb w v) eqn:Ev; [|reflexivity].
      apply weqb_eq in Ev. rewrite <- Ev, E. cring.
Qed.

Lemma drop_length : forall w A, length (drop w A) <= length A.
Proof.
  induction A as [|e r IH]; cbn [drop filter length]; [lia|].
  fold (drop w r). destruct (negb _); cbn [length]; lia.
Qed.

Lemma drop_head_length : forall e r, length (drop (fst e) (e :: r)) <= length r.
Proof. intros. cbn [drop filter]. rewrite weqb_refl. apply drop_length. Qed.

Lemma lin_sequiv : forall (f : pword * C -> C) (K : pword -> C) A A',
  (forall e, ceq (f e) (cmulx (snd e) (K (fst e)))) -> sequiv A A' -> ceq (csum f A) (csum f A').
Proof.
  intros f K A A' Hf. rewrite !(csum_ext f _ _ (fun e _ => Hf e)). clear f Hf.
  remember (length A + length A') as n eqn:Hn. revert A A' Hn.
  induction n as [n IH] using lt_wf_ind. intros A A' -> H.
  assert (forall w, length (drop w A) + length (drop w A') < length A + length A' ->
            ceq (csum (fun e => cmulx (snd e) (K (fst e))) A) (csum (fun e => cmulx (snd e) (K (fst e))) A')) as Hstep.
  { intros w Hw. rewrite (lin_split K w A), (lin_split K w A'), (H w). apply cplus_mor; [reflexivity|].
    apply (IH _ Hw); [reflexivity|]. intro v. rewrite !coef_drop. destruct (weqb w v); [reflexivity | apply H]. }
  destruct A as [|e r]; [destruct A' as [|e r]; [reflexivity|]|]; apply (Hstep (fst e)).
  - pose proof (drop_head_length e r). change (drop (fst e) []) with (@nil (pword * C)). cbn [length] in *. lia.
  - pose proof (drop_head_length e r). pose proof (drop_length (fst e) A'). cbn [length] in *. lia.
Qed.

Global Instance rmul_sequiv : Proper (sequiv ==> sequiv ==> sequiv) rmul.
Proof.
  intros A A' HA B B' HB v. rewrite !coef_rmul.
  transitivity (csum (fun ea => csum (fun eb => pick v (tmul ea eb)) B') A).
  - apply csum_ext. intros ea _.
    apply lin_sequiv with (K := fun b => cmulx (snd ea) (sconst (fst ea) b v)); [|exact HB].
    intro eb. rewrite pick_tmul. cring.
  - apply lin_sequiv with (K := fun a => csum (fun eb => cmulx (snd eb) (sconst a (fst eb) v)) B'); [|exact HA].
    intro ea. rewrite <- csum_scale. apply csum_ext. intros eb _. rewrite pick_tmul. cring.
Qed.

Global Instance smul_sequiv : Proper (sequiv ==> sequiv ==> sequiv) smul.
Proof. intros A A' HA B B' HB. rewrite !smul_rmul, HA, HB. reflexivity. Qed.

Lemma smul_app_l : forall A A' B, sequiv (smul (A ++ A') B) (smul A B ++ smul A' B).
Proof. intros. rewrite !smul_rmul. unfold rmul. rewrite flat_map_app. reflexivity. Qed.

Lemma smul_app_r : forall A B B', sequiv (smul A (B ++ B')) (smul A B ++ smul A B').
Proof.
  intros A B B'. rewrite !smul_rmul. intro v. rewrite coef_app, !coef_rmul, <- csum_plus.
  apply csum_ext. intros ea _. apply csum_app.
Qed.

Lemma smul_nil_r : forall A, sequiv (smul A []) [].
Proof. intros A v. rewrite smul_rmul, coef_rmul. apply csum_zero. reflexivity. Qed.

(* ------------------------------------------------------------------ associativity *)
Lemma tmul_assoc : forall ea eb ec,
  fst (tmul (tmul ea eb) ec) = fst (tmul ea (tmul eb ec)) /\
  ceq (snd (tmul (tmul ea eb) ec)) (snd (tmul ea (tmul eb ec))).
Proof.
  intros. destruct (wmul_assoc (fst ea) (fst eb) (fst ec)) as [Hw Hk]. split; [exact Hw|].
  rewrite !tmul_snd. cbn [tmul fst].
  set (j := fst (wmul (fst ea) (fst eb))) in *. set (k := fst (wmul (snd (wmul (fst ea) (fst eb))) (fst ec))) in *.
  set (j' := fst (wmul (fst eb) (fst ec))) in *. set (k' := fst (wmul (fst ea) (snd (wmul (fst eb) (fst ec))))) in *.
  transitivity (cmulx (cmulx (snd ea) (cmulx (snd eb) (snd ec))) (cmulx (iunit j) (iunit k))); [cring|].
  transitivity (cmulx (cmulx (snd ea) (cmulx (snd eb) (snd ec))) (cmulx (iunit j') (iunit k'))); [|cring].
  rewrite !iunit_add, <- (iunit_mod (j + k)), Hk, iunit_mod. reflexivity.
Qed.

Lemma smul_assoc : forall A B D, sequiv (smul (smul A B) D) (smul A (smul B D)).
Proof.
  intros A B D. rewrite !smul_rmul. intro v. rewrite !coef_rmul.
  change (rmul A B) with (flat_map (fun ea => map (tmul ea) B) A). rewrite csum_flat_map.
  apply csum_ext. intros ea _. rewrite csum_map.
  change (rmul B D) with (flat_map (fun eb => map (tmul eb) D) B). rewrite csum_flat_map.
  apply csum_ext. intros eb _. rewrite csum_map.
  apply csum_ext. intros ed _. destruct (tmul_assoc ea eb ed). apply pick_ext; assumption.
Qed.

Lemma fold_smul_sequiv : forall imgs X Y, sequiv X Y -> sequiv (fold_left smul imgs X) (fold_left smul imgs Y).
Proof.
  induction imgs as [|x r IH]; intros X Y H; cbn [fold_left]; [exact H|]. apply IH. rewrite H. reflexivity.
Qed.

Lemma fold_smul_assoc : forall imgs A B, sequiv (fold_left smul imgs (smul A B)) (smul A (fold_left smul imgs B)).
Proof.
  induction imgs as [|x r IH]; intros A B; cbn [fold_left]; [reflexivity|].
  rewrite (fold_smul_sequiv r _ _ (smul_assoc A B x)). apply IH.
Qed.

(* ------------------------------------------------------------------ the adjoint reverses products *)
Lemma tmul_adj : forall ea eb v, ceq (cconj (pick v (tmul ea eb))) (pick v (tmul (eadj eb) (eadj ea))).
Proof.
  intros. rewrite pick_adj. destruct (wmul_swap (fst ea) (fst eb)) as [Hw Hk].
  apply pick_ext; [symmetry; exact Hw|].
  unfold eadj at 1. cbn [snd]. rewrite !tmul_snd. cbn [eadj fst snd]. rewrite Hk, iunit_mod, iunit_opp. cring.
Qed.

Lemma sadj_smul : forall A B, sequiv (sadj (smul A B)) (smul (sadj B) (sadj A)).
Proof.
  intros A B v. rewrite coef_sadj, !smul_rmul, !coef_rmul, csum_conj, csum_swap.
  unfold sadj. rewrite csum_map. apply csum_ext. intros eb _.
  rewrite csum_map, csum_conj. apply csum_ext. intros ea _. apply tmul_adj.
Qed.

(* ------------------------------------------------------------------ scalars and the unit
   the scalar c on any register: c times a word of identities, which every product pads to the length it needs *)
Definition scalar (k : nat) (c : C) : psent := [(repeat PI k, c)].

Lemma scalar_central : forall k c A, sequiv (smul (scalar k c) A) (smul A (scalar k c)).
Proof.
  intros k c A. rewrite !smul_rmul. intro v. rewrite !coef_rmul. unfold scalar. cbn [csum fold_right]. rewrite cplus_0_r.
  apply csum_ext. intros [a ca] _. rewrite cplus_0_r. destruct (wmul_swap (repeat PI k) a) as [Hw Hk].
  apply pick_ext; unfold tmul; cbn [fst snd]; rewrite ?Hw, ?Hk, ?wmul_I_l_phase; [reflexivity|].
  change ((- 0) mod 4)%Z with 0%Z. rewrite !ci_pow_0, !cmul_ceq. cring.
Qed.

(* only words at least k long keep their key against k identities: wmul pads the shorter word *)
Lemma smul_scalar_r : forall k c A, Forall (fun e => k <= length (fst e)) A -> sequiv (smul A (scalar k c)) (sscale c A).
Proof.
  intros k c A H. rewrite smul_rmul. replace (rmul A (scalar k c)) with (sscale c A); [reflexivity|].
  induction H as [|[a ca] A Ha _ IH]; [reflexivity|].
  cbn [sscale map rmul flat_map scalar fst snd app]. rewrite (wmul_I_r k a Ha). f_equal. exact IH.
Qed.

Lemma sscale_smul : forall c A, sequiv (sscale c A) (smul A (scalar 0 c)).
Proof. intros. symmetry. apply smul_scalar_r, Forall_forall. intros e _. apply Nat.le_0_l. Qed.

Lemma smul_sscale_l : forall c A B, sequiv (smul (sscale c A) B) (sscale c (smul A B)).
Proof. intros. rewrite !sscale_smul, smul_assoc, scalar_central, <- smul_assoc. reflexivity. Qed.

Lemma smul_sscale_r : forall c A B, sequiv (smul A (sscale c B)) (sscale c (smul A B)).
Proof. intros. rewrite !sscale_smul. symmetry. apply smul_assoc. Qed.

Lemma ident_central : forall n A, sequiv (smul (ident n) A) (smul A (ident n)).
Proof. intros. apply (scalar_central n c1). Qed.

Lemma sadj_ident : forall n, sequiv (sadj (ident n)) (ident n).
Proof. intros n v. cbn [sadj map ident coef fst snd]. destruct (weqb (repeat PI n) v); cring. Qed.

(* the sentences on which ident n acts as a unit, a two-sided ideal closed under the adjoint; it contains every
   sentence whose words are at least n long *)
Definition wide (n : nat) (A : psent) : Prop := sequiv (smul (ident n) A) A.

Lemma smul_ident_l : forall n A, wide n A -> sequiv (smul (ident n) A) A.
Proof. intros n A H. exact H. Qed.

Lemma smul_ident_r : forall n A, wide n A -> sequiv (smul A (ident n)) A.
Proof. intros n A H. rewrite <- ident_central. exact H. Qed.

Lemma long_wide : forall n A, Forall (fun e => n <= length (fst e)) A -> wide n A.
Proof.
  intros n A H. unfold wide. rewrite ident_central.
  transitivity (sscale c1 A); [apply (smul_scalar_r n c1 A H) | apply sscale_c1].
Qed.

Lemma wide_ident : forall n, wide n (ident n).
Proof. intro n. apply long_wide. constructor; [|constructor]. cbn [fst]. rewrite repeat_length. apply le_n. Qed.

Lemma wide_smul : forall n A B, wide n A \/ wide n B -> wide n (smul A B).
Proof.
  unfold wide. intros n A B [H|H]; rewrite <- smul_assoc.
  - rewrite H. reflexivity.
  - rewrite ident_central, smul_assoc, H. reflexivity.
Qed.

Lemma wide_sadj : forall n A, wide n A -> wide n (sadj A).
Proof.
  unfold wide. intros n A H. transitivity (sadj (smul (ident n) A)); [|rewrite H; reflexivity].
  rewrite sadj_smul, sadj_ident. apply ident_central.
Qed.

(* ------------------------------------------------------------------ Jordan-Wigner CAR, all register sizes *)
(* two terms whose words anticommute cancel in the anticommutator *)
Lemma tmul_anticomm : forall ea eb v,
  (fst (wmul (fst ea) (fst eb)) = 1 \/ fst (wmul (fst ea) (fst eb)) = 3)%Z ->
  ceq (cplus (pick v (tmul ea eb)) (pick v (tmul eb ea))) c0.
Proof.
  intros ea eb v H. destruct (wmul_swap (fst ea) (fst eb)) as [Hw Hk]. unfold pick.
  change (fst (tmul eb ea)) with (snd (wmul (fst eb) (fst ea))). rewrite Hw.
  change (fst (tmul ea eb)) with (snd (wmul (fst ea) (fst eb))). destruct (weqb _ v); [|cring].
  rewrite !tmul_snd, Hk, iunit_mod, iunit_opp. pose proof (iunit_odd _ H) as Hu.
  set (u := iunit (fst (wmul (fst ea) (fst eb)))) in *.
  transitivity (cmulx (cmulx (snd ea) (snd eb)) (cplus u (cconj u))); [cring|]. rewrite Hu. cring.
Qed.

Lemma anticomm_zero : forall A B,
  (forall ea eb, In ea A -> In eb B -> fst (wmul (fst ea) (fst eb)) = 1 \/ fst (wmul (fst ea) (fst eb)) = 3)%Z ->
  sequiv (anticomm A B) [].
Proof.
  intros A B H. rewrite anticomm_app, !smul_rmul. intro v.
  rewrite coef_app, !coef_rmul, (csum_swap _ B A), <- csum_plus.
  apply csum_zero. intros ea Ha. rewrite <- csum_plus.
  apply csum_zero. intros eb Hb. apply tmul_anticomm, H; assumption.
Qed.

Lemma anticomm_comm : forall A B, sequiv (anticomm A B) (anticomm B A).
Proof. intros. rewrite !anticomm_app. apply app_comm. Qed.

Lemma jw_car_lt : forall n p q s t, p < q -> q < n -> sequiv (anticomm (jw_op n (p, s)) (jw_op n (q, t))) [].
Proof.
  intros n p q s t Hpq Hqn. apply anticomm_zero. intros ea eb Ha Hb.
  destruct Ha as [<-|[<-|[]]]; destruct Hb as [<-|[<-|[]]];
    apply (jw_words_phase_odd p n q _ _ Hpq Hqn); auto.
Qed.

Lemma jw_car_eq : forall n p s t, p < n ->
  sequiv (anticomm (jw_op n (p, s)) (jw_op n (p, t))) (delta_ident n (xorb s t)).
Proof.
  intros n p s t Hp. rewrite anticomm_app, !smul_rmul. intro v. unfold jw_op.
  cbn [fst snd rmul flat_map map app coef].
  rewrite !(jw_words_same_site p n) by assumption. cbn [pmul fst snd].
  rewrite (site_word_I n p Hp).
  destruct s, t; cbn [xorb delta_ident ident coef fst snd];
    generalize (weqb (repeat PI n) v), (weqb (site_word n p PZ) v); intros b1 b2;
    destruct b1, b2; vm_compute; split; reflexivity.
Qed.

Lemma jw_car_all : forall n p q s t, p < n -> q < n ->
  sequiv (anticomm (jw_op n (p, s)) (jw_op n (q, t))) (delta_ident n (Nat.eqb p q && xorb s t)).
Proof.
  intros n p q s t Hp Hq. destruct (Nat.eqb_spec p q) as [<-|Hne]; [apply jw_car_eq, Hp|].
  destruct (Nat.lt_ge_cases p q) as [H|H]; [|rewrite anticomm_comm]; apply jw_car_lt; lia.
Qed.

Lemma jw_op_wide : forall n l, fst l < n -> wide n (jw_op n l).
Proof.
  intros n l H. apply long_wide. unfold jw_op, jw_word.
  repeat constructor; cbn [fst]; rewrite app_length; cbn [length]; rewrite !repeat_length; lia.
Qed.

(* ------------------------------------------------------------------ images of words: products and adjoints *)
Lemma sequence_app : forall {A} (l1 l2 : list (option A)),
  sequence (l1 ++ l2) = match sequence l1, sequence l2 with Some a, Some b => Some (a ++ b) | _, _ => None end.
Proof.
  induction l1 as [|x r IH]; intro l2; cbn [app sequence].
  - destruct (sequence l2); reflexivity.
  - destruct x as [x|]; [|reflexivity]. rewrite IH.
    destruct (sequence r), (sequence l2); reflexivity.
Qed.

Lemma sequence_map_some : forall {A B} (f : A -> B) l, sequence (map (fun x => Some (f x)) l) = Some (map f l).
Proof. intros A B f l. induction l as [|x r IH]; cbn [map sequence]; [|rewrite IH]; reflexivity. Qed.

(* the image of a word is the ordered product of the images of its ladder operators *)
Lemma fw_image_app : forall m n u v,
  fw_image m n (u ++ v) =
  match fw_image m n u, sequence (map (op_image m n) v) with
  | Some A, Some imgs => Some (fold_left smul imgs A)
  | _, _ => None
  end.
Proof.
  intros. unfold fw_image. rewrite map_app, sequence_app.
  destruct (sequence (map (op_image m n) u)), (sequence (map (op_image m n) v)); cbn [omap]; try reflexivity.
  unfold prod_images. rewrite fold_left_app. reflexivity.
Qed.

Lemma fw_image_snoc : forall m n w l,
  fw_image m n (w ++ [l]) =
  match fw_image m n w, op_image m n l with Some A, Some B => Some (smul A B) | _, _ => None end.
Proof.
  intros. rewrite fw_image_app. cbn [map sequence].
  destruct (fw_image m n w), (op_image m n l); reflexivity.
Qed.

Lemma fw_image_fold : forall m n w imgs, sequence (map (op_image m n) w) = Some imgs ->
  fw_image m n w = Some (fold_left smul imgs (ident n)).
Proof. intros m n w imgs H. unfold fw_image. rewrite H. reflexivity. Qed.

Lemma fw_image_jw : forall n w, fw_image JW n w = Some (prod_images n (map (jw_op n) w)).
Proof. intros n w. unfold fw_image, op_image. rewrite sequence_map_some. reflexivity. Qed.

Lemma wide_prod_images : forall n imgs, wide n (prod_images n imgs).
Proof.
  intros n imgs. unfold prod_images. generalize (wide_ident n). generalize (ident n).
  induction imgs as [|x r IH]; intros A HA; cbn [fold_left]; [exact HA|].
  apply IH. apply wide_smul. left. exact HA.
Qed.

Lemma prod_images_app : forall n iu iv,
  sequiv (prod_images n (iu ++ iv)) (smul (prod_images n iu) (prod_images n iv)).
Proof.
  intros n iu iv. unfold prod_images at 1 3. rewrite fold_left_app. fold (prod_images n iu).
  rewrite <- fold_smul_assoc. apply fold_smul_sequiv. symmetry. apply smul_ident_r, wide_prod_images.
Qed.

(* the word maps are multiplicative: every mapping, register size and pair of words *)
Theorem fw_image_fmul : forall m n u v A B, fw_image m n u = Some A -> fw_image m n v = Some B ->
  exists X, fw_image m n (fmul u v) = Some X /\ sequiv X (smul A B).
Proof.
  intros m n u v A B. unfold fw_image, fmul. rewrite map_app, sequence_app.
  destruct (sequence (map (op_image m n) u)) as [iu|]; [|discriminate].
  destruct (sequence (map (op_image m n) v)) as [iv|]; [|discriminate].
  cbn [omap]. intros [= <-] [= <-]. eexists. split; [reflexivity|]. apply prod_images_app.
Qed.

Lemma prod_images_adj : forall n imgs,
  sequiv (prod_images n (rev (map sadj imgs))) (sadj (prod_images n imgs)).
Proof.
  intros n imgs. induction imgs as [|x r IH] using rev_ind.
  - symmetry. apply sadj_ident.
  - rewrite map_app, rev_app_distr. change (rev (map sadj [x])) with [sadj x].
    rewrite prod_images_app, IH. unfold prod_images at 3. rewrite fold_left_app. cbn [fold_left].
    fold (prod_images n r). rewrite sadj_smul. unfold prod_images at 1. cbn [fold_left].
    rewrite smul_assoc. apply smul_ident_l. apply wide_smul. right. apply wide_sadj, wide_prod_images.
Qed.

(* the image of a creation operator is the adjoint of the image of the annihilation operator *)
Lemma op_image_adj : forall m n p s, op_image m n (p, negb s) = omap sadj (op_image m n (p, s)).
Proof.
  intros m n p s. destruct m; unfold op_image.
  - destruct s; reflexivity.
  - unfold pt_op. cbn [fst snd]. destruct (Nat.ltb p n); destruct s; reflexivity.
  - unfold bk_op. cbn [fst snd]. cbv zeta. destruct (negb (Nat.ltb p n)); [reflexivity|].
    destruct (update_set (S (S n)) p (bin_range n) n), (parity_set (S (S n)) p (bin_range n)),
      (flip_set (S (S n)) p (bin_range n)); destruct s; reflexivity.
Qed.

Lemma fadj_images : forall m n w,
  sequence (map (op_image m n) (fadj w)) = omap (fun imgs => rev (map sadj imgs)) (sequence (map (op_image m n) w)).
Proof.
  intros m n. induction w as [|[p s] r IH]; [reflexivity|].
  change (fadj ((p, s) :: r)) with (fadj r ++ [(p, negb s)]).
  rewrite map_app, sequence_app, IH. cbn [map sequence]. rewrite op_image_adj.
  destruct (op_image m n (p, s)), (sequence (map (op_image m n) r)); reflexivity.
Qed.

(* the word maps preserve adjoints: every mapping, register size and word *)
Theorem fw_image_fadj : forall m n w B, fw_image m n w = Some B ->
  exists A, fw_image m n (fadj w) = Some A /\ sequiv A (sadj B).
Proof.
  intros m n w B. unfold fw_image. rewrite fadj_images.
  destruct (sequence (map (op_image m n) w)) as [imgs|]; [|discriminate].
  cbn [omap]. intros [= <-]. eexists. split; [reflexivity|]. apply prod_images_adj.
Qed.

(* ------------------------------------------------------------------ sums and scalars *)
Lemma snorm_sequiv : forall R, sequiv (sprune (saccum R [])) R.
Proof. intro R. rewrite sprune_sequiv. apply (saccum_app R []). Qed.

Lemma fs_image_add : forall m n S1 S2 A1 A2,
  fs_image m n S1 = Some A1 -> fs_image m n S2 = Some A2 ->
  exists A, fs_image m n (S1 ++ S2) = Some A /\ forall v, ceq (coef A v) (cplus (coef A1 v) (coef A2 v)).
Proof.
  intros m n S1 S2 A1 A2 H1 H2. unfold fs_image in *. rewrite map_app, sequence_app.
  destruct (sequence (map _ S1)) as [l1|]; [|discriminate].
  destruct (sequence (map _ S2)) as [l2|]; [|discriminate].
  cbn [omap] in *. injection H1 as <-. injection H2 as <-.
  eexists. split; [reflexivity|]. intro v.
  rewrite !snorm_sequiv. unfold fs_raw. rewrite flat_map_app. apply coef_app.
Qed.

Lemma sequence_scale : forall m n c S,
  sequence (map (fun fc => omap (fun i => (i, snd fc)) (fw_image m n (fst fc))) (fsscale c S)) =
  omap (map (fun ic => (fst ic, cmul (snd ic) c)))
       (sequence (map (fun fc => omap (fun i => (i, snd fc)) (fw_image m n (fst fc))) S)).
Proof.
  induction S as [|e r IH]; cbn [fsscale map sequence omap fst snd]; [reflexivity|].
  fold (fsscale c r). destruct (fw_image m n (fst e)); cbn [omap]; [|reflexivity].
  rewrite IH.
  destruct (sequence (map (fun fc => omap (fun i => (i, snd fc)) (fw_image m n (fst fc))) r)); reflexivity.
Qed.

Lemma coef_fs_raw_scale : forall c l v,
  ceq (coef (fs_raw (map (fun ic => (fst ic, cmul (snd ic) c)) l)) v) (cmulx (coef (fs_raw l) v) c).
Proof.
  induction l as [|ic r IH]; intro v; cbn [map fs_raw flat_map fst snd coef]; [cring|].
  fold (fs_raw r). fold (fs_raw (map (fun ic => (fst ic, cmul (snd ic) c)) r)).
  rewrite !coef_app, IH, !coef_sscale, cmul_ceq. cring.
Qed.

Lemma fs_image_scale : forall m n c S A, fs_image m n S = Some A ->
  exists A', fs_image m n (fsscale c S) = Some A' /\ forall v, ceq (coef A' v) (cmulx (coef A v) c).
Proof.
  intros m n c S A H. unfold fs_image in *. rewrite sequence_scale.
  destruct (sequence _) as [l|]; [|discriminate]. cbn [omap] in *. injection H as <-.
  eexists. split; [reflexivity|]. intro v. rewrite !snorm_sequiv. apply coef_fs_raw_scale.
Qed.

(* ------------------------------------------------------------------ every orbital inside the register has an image:
   the fuel S (S n) of bk_op outlasts the halvings of bin_range n = 2 ^ k, as k <= n *)
Lemma pow2_S_odd : forall k, Nat.odd (2 ^ S k) = false.
Proof. intro k. rewrite Nat.pow_succ_r', Nat.odd_mul. reflexivity. Qed.

Lemma pow2_S_div2 : forall k, Nat.div2 (2 ^ S k) = 2 ^ k.
Proof. intro k. rewrite Nat.pow_succ_r'. apply Nat.div2_double. Qed.

Lemma index_sets_some : forall k fuel j n, k < fuel ->
  (exists u, update_set fuel j (2 ^ k) n = Some u) /\ (exists u, parity_set fuel j (2 ^ k) = Some u) /\
  (exists u, flip_set fuel j (2 ^ k) = Some u).
Proof.
  induction k as [|k IH]; intros [|fuel] j n H; try lia; cbn [update_set parity_set flip_set].
  - repeat split; exists []; reflexivity.
  - rewrite pow2_S_odd, pow2_S_div2. cbv zeta.
    destruct (IH fuel j n) as [[u ->] [Hp Hf]]; [lia|].
    destruct (IH fuel (j - 2 ^ k) n) as [[u' ->] [[ps ->] [fs ->]]]; [lia|].
    destruct (Nat.ltb j (2 ^ k)); [|destruct (Nat.ltb j _)]; repeat split; try assumption; eexists; reflexivity.
Qed.

Lemma clog2_aux_le : forall fuel k n, clog2_aux fuel k n <= k + fuel.
Proof.
  induction fuel as [|fuel IH]; intros k n; cbn [clog2_aux]; [lia|].
  destruct (Nat.leb n (2 ^ k)); [lia|]. specialize (IH (S k) n). lia.
Qed.

Lemma op_image_some : forall m n l, fst l < n -> exists A, op_image m n l = Some A.
Proof.
  intros m n [p s] H. cbn [fst] in H. destruct m; unfold op_image.
  - eexists; reflexivity.
  - unfold pt_op. cbn [fst]. apply Nat.ltb_lt in H. rewrite H. eexists; reflexivity.
  - unfold bk_op. cbn [fst snd]. cbv zeta. apply Nat.ltb_lt in H. rewrite H. cbn [negb].
    unfold bin_range. destruct n as [|n]; [discriminate|]. cbn [Nat.eqb].
    pose proof (clog2_aux_le (S n) 0 (S n)) as Hk.
    destruct (index_sets_some (clog2_aux (S n) 0 (S n)) (S (S (S n))) p (S n)) as [[u ->] [[ps ->] [fs ->]]]; [lia|].
    eexists; reflexivity.
Qed.

Lemma fw_image_some : forall m n w, Forall (fun l => fst l < n) w -> exists A, fw_image m n w = Some A.
Proof.
  intros m n w H. unfold fw_image.
  assert (exists imgs, sequence (map (op_image m n) w) = Some imgs) as [imgs ->].
  { induction H as [|l r Hl Hr [imgs IH]]; cbn [map sequence]; [eexists; reflexivity|].
    destruct (op_image_some m n l Hl) as [A ->]. rewrite IH. eexists; reflexivity. }
  eexists; reflexivity.
Qed.

Lemma adj_images : forall m n w, Forall (fun l => fst l < n) w ->
  exists A B, fw_image m n (fadj w) = Some A /\ fw_image m n w = Some B /\ sequiv A (sadj B).
Proof.
  intros m n w Hw. destruct (fw_image_some m n w Hw) as [B HB].
  destruct (fw_image_fadj m n w B HB) as [A [HA H]]. exists A, B. auto.
Qed.

Lemma hom_images : forall m n u v, Forall (fun l => fst l < n) u -> Forall (fun l => fst l < n) v ->
  exists X A B, fw_image m n (fmul u v) = Some X /\ fw_image m n u = Some A /\ fw_image m n v = Some B /\
                sequiv X (smul A B).
Proof.
  intros m n u v Hu Hv. destruct (fw_image_some m n u Hu) as [A HA]. destruct (fw_image_some m n v Hv) as [B HB].
  destruct (fw_image_fmul m n u v A B HA HB) as [X [HX H]]. exists X, A, B. auto.
Qed.

(* ------------------------------------------------------------------ bounded clauses (parity, Bravyi-Kitaev) *)
Lemma in_all_ops : forall n l, fst l < n -> In l (all_ops n).
Proof.
  intros n [p s] H. cbn [fst] in H. unfold all_ops. apply in_flat_map. exists p. split.
  - apply in_seq. lia.
  - destruct s; cbn; auto.
Qed.

Lemma in_all_words : forall ops L w, length w <= L -> Forall (fun l => In l ops) w -> In w (all_words ops L).
Proof.
  intros ops. induction L as [|L IH]; intros w Hl Hw.
  - destruct w; [left; reflexivity | cbn in Hl; lia].
  - destruct w as [|l r]; cbn [all_words]; [left; reflexivity|].
    right. apply in_flat_map. inversion Hw; subst. exists l. split; [assumption|].
    apply in_map. apply IH; [cbn in Hl; lia | assumption].
Qed.

Lemma forallb_all_ops : forall n f l, forallb f (all_ops n) = true -> fst l < n -> f l = true.
Proof. intros n f l H Hl. rewrite forallb_forall in H. apply H, in_all_ops, Hl. Qed.

Lemma forallb_seq : forall n f i, forallb f (seq 0 n) = true -> i < n -> f i = true.
Proof. intros n f i H Hi. rewrite forallb_forall in H. apply H, in_seq. lia. Qed.

Lemma car_ok_le6 : forall n, n <= 6 -> car_ok PT n = true /\ car_ok BK n = true.
Proof.
  intros n H. do 7 (destruct n as [|n]; [vm_compute; split; reflexivity|]); lia.
Qed.

Lemma car_bounded : forall m n l1 l2, n <= 6 -> fst l1 < n -> fst l2 < n ->
  exists A B, op_image m n l1 = Some A /\ op_image m n l2 = Some B /\
              sequiv (anticomm A B) (delta_ident n (Nat.eqb (fst l1) (fst l2) && xorb (snd l1) (snd l2))).
Proof.
  intros m n l1 l2 Hn H1 H2.
  assert (m = JW \/ car_pair_ok m n l1 l2 = true) as [->|H].
  { destruct (car_ok_le6 n Hn) as [Hp Hb].
    destruct m; [left; reflexivity | right ..]; apply (forallb_all_ops n _ l2); try assumption;
      apply (forallb_all_ops n (fun l1 => forallb (car_pair_ok _ n l1) (all_ops n)) l1); assumption. }
  - exists (jw_op n l1), (jw_op n l2). split; [reflexivity|]. split; [reflexivity|].
    destruct l1, l2. apply jw_car_all; assumption.
  - unfold car_pair_ok in H.
    destruct (op_image m n l1) as [A|]; [|discriminate]. destruct (op_image m n l2) as [B|]; [|discriminate].
    exists A, B. split; [reflexivity|]. split; [reflexivity|]. apply sent_eqb_sound. exact H.
Qed.

(* unitary equivalence on the generators: explicit CNOT networks *)
Lemma equiv_ok_le6 : forall n, n <= 6 ->
  jw_pt_equiv_ok n = true /\ jw_bk_equiv_ok n = true /\ cnot_unitary_ok n = true.
Proof.
  intros n H. do 7 (destruct n as [|n]; [vm_compute; repeat split; reflexivity|]); lia.
Qed.

Lemma jw_pt_equiv_bounded : forall n l, n <= 6 -> fst l < n ->
  exists B, pt_op n l = Some B /\ sequiv (to_parity n (jw_op n l)) B.
Proof.
  intros n l Hn Hl. destruct (equiv_ok_le6 n Hn) as [H _]. unfold jw_pt_equiv_ok in H.
  apply andb_true_iff in H. destruct H as [H _]. apply (forallb_all_ops n _ l) in H; [cbv beta in H | exact Hl].
  destruct (pt_op n l) as [B|]; [|discriminate]. exists B. split; [reflexivity|]. apply sent_eqb_sound. exact H.
Qed.

Lemma jw_bk_equiv_bounded : forall n l, n <= 6 -> fst l < n ->
  exists B, bk_op n l = Some B /\ sequiv (to_bk n (jw_op n l)) B.
Proof.
  intros n l Hn Hl. destruct (equiv_ok_le6 n Hn) as [_ [H _]]. unfold jw_bk_equiv_ok in H. apply (forallb_all_ops n _ l) in H; [cbv beta in H | exact Hl].
  destruct (bk_op n l) as [B|]; [|discriminate]. exists B. split; [reflexivity|]. apply sent_eqb_sound. exact H.
Qed.

Lemma cnot_unitary_bounded : forall n i j, n <= 6 -> i < j -> j < n ->
  sequiv (smul (cnot n i j) (sadj (cnot n i j))) (ident n).
Proof.
  intros n i j Hn Hij Hj. destruct (equiv_ok_le6 n Hn) as [_ [_ H]]. unfold cnot_unitary_ok in H.
  apply (forallb_seq n _ j) in H; [|exact Hj]. apply (forallb_seq j _ i) in H; [|exact Hij].
  apply sent_eqb_sound. exact H.
Qed.
