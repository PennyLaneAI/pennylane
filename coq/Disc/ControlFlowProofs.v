(* Lemmas about the tape-mode control-flow model (Disc/ControlFlowModel.v).

   Range: range_len is brought to the form max 0 (ceil ((stop - start) / step)) for either sign of
   the step (a negative step is a positive one with start and stop exchanged), from which length,
   k-th element and "exactly the indices before stop" follow.
   Loops: the model threads a Python value (None / scalar / tuple) and re-derives the argument tuple
   from it at every iteration; the plain loops py_for / py_while thread the list of carried values.
   `packs n m mS` relates a body of the first kind to one of the second; for_iter_ref and
   while_iter_ref are the two simulations under it, used once for semantic bodies (shaped) and once
   for the program language (exec_ref_all, where wf_ret supplies packs through body_packs). *)
From Coq Require Import List ZArith Bool Lia Arith.
From PLV Require Import Disc.ControlFlowModel.
Import ListNotations.
Open Scope Z_scope.

Lemma bind_ret_l {A B} (a : A) (f : A -> M B) : bind (ret a) f = f a.
Proof. unfold bind, ret. destruct (f a); reflexivity. Qed.
Lemma bind_ret_r {A} (m : M A) : bind m ret = m.
Proof. destruct m as [t [a| |]]; unfold bind, ret; cbn; rewrite ?app_nil_r; reflexivity. Qed.
Lemma bind_assoc {A B C} (m : M A) (f : A -> M B) (g : B -> M C) :
  bind (bind m f) g = bind m (fun a => bind (f a) g).
Proof.
  destruct m as [t [a| |]]; cbn; try reflexivity.
  destruct (f a) as [t' [b| |]]; cbn; try reflexivity.
  destruct (g b); cbn. rewrite app_assoc. reflexivity.
Qed.
Lemma bind_ext {A B} (m : M A) (f g : A -> M B) : (forall a, f a = g a) -> bind m f = bind m g.
Proof. intros H. destruct m as [t [a| |]]; cbn; try reflexivity. rewrite H. reflexivity. Qed.
Lemma bind_ok {A B} t (a : A) (f : A -> M B) : bind (t, Ok a) f = (t ++ fst (f a), snd (f a)).
Proof. reflexivity. Qed.
Lemma bind_ok_inv {A B} (m : M A) (f : A -> M B) t b :
  bind m f = (t, Ok b) -> exists t1 a t2, m = (t1, Ok a) /\ f a = (t2, Ok b) /\ t = t1 ++ t2.
Proof.
  destruct m as [t1 [a| |]]; cbn; intros H; try discriminate.
  destruct (f a) as [t2 r] eqn:E. cbn in H. inversion H; subst.
  exists t1, a, t2. repeat split; try reflexivity. exact E.
Qed.

(* ceiling division written with Coq's floor division *)
Definition cdiv (a b : Z) : Z := - ((- a) / b).
(* the loop test of the equivalent `i = start; while <test>: ...; i += step` *)
Definition before_stop (stop step x : Z) : Prop := if 0 <? step then x < stop else stop < x.

Lemma ceil_pos d s : 0 < s -> 0 < d -> (d - 1) / s + 1 = cdiv d s.
Proof.
  intros Hs Hd. unfold cdiv.
  assert (E : (- d) / s = - ((d - 1) / s) - 1).
  { symmetry. apply Z.div_unique with (r := s - 1 - (d - 1) mod s).
    - left. pose proof (Z.mod_pos_bound (d - 1) s Hs). lia.
    - pose proof (Z.div_mod (d - 1) s ltac:(lia)). lia. }
  rewrite E. lia.
Qed.
Lemma ceil_nonpos d s : 0 < s -> d <= 0 -> cdiv d s <= 0.
Proof. intros Hs Hd. unfold cdiv. assert (0 <= (- d) / s) by (apply Z.div_pos; lia). lia. Qed.

Lemma cdiv_opp d s : s <> 0 -> cdiv (- d) (- s) = cdiv d s.
Proof. intros H. unfold cdiv. rewrite Z.div_opp_opp by exact H. reflexivity. Qed.
Lemma cdiv_lt_iff d s k : 0 < s -> (k < cdiv d s <-> k * s < d).
Proof.
  intros Hs. unfold cdiv. pose proof (Z.div_mod (- d) s ltac:(lia)) as D.
  pose proof (Z.mod_pos_bound (- d) s Hs) as B. split; intros H; nia.
Qed.

(* a negative step is a positive step with start and stop exchanged *)
Lemma range_len_neg start stop step : step < 0 -> range_len start stop step = range_len stop start (- step).
Proof.
  intros H. unfold range_len. destruct (Z.ltb_spec 0 step), (Z.ltb_spec 0 (- step)); try reflexivity; lia.
Qed.
Lemma range_len_pos start stop step : 0 < step ->
  range_len start stop step = Z.max 0 (cdiv (stop - start) step).
Proof.
  intros Hs. unfold range_len. rewrite (proj2 (Z.ltb_lt 0 step) Hs). destruct (Z.ltb_spec start stop).
  - pose proof (ceil_pos (stop - start) step). pose proof (Z.div_pos (stop - start - 1) step). lia.
  - pose proof (ceil_nonpos (stop - start) step). lia.
Qed.

Lemma range_len_ceil start stop step : step <> 0 ->
  range_len start stop step = Z.max 0 (cdiv (stop - start) step).
Proof.
  intros Hs. destruct (Z.lt_total 0 step) as [H | [H | H]]; [apply range_len_pos, H|lia|].
  rewrite range_len_neg, range_len_pos, <- (cdiv_opp (stop - start)) by lia. do 2 f_equal. lia.
Qed.

Lemma range_len_nonneg start stop step : 0 <= range_len start stop step.
Proof.
  destruct (Z.eq_dec step 0) as [-> | Hs]; [|rewrite range_len_ceil by exact Hs; lia].
  unfold range_len. cbn. rewrite Zdiv_0_r. destruct (stop <? start); lia.
Qed.

(* the k-th index is produced  <->  start + k*step is still before stop *)
Lemma range_len_complete start stop step k : step <> 0 -> 0 <= k ->
  (k < range_len start stop step <-> before_stop stop step (start + k * step)).
Proof.
  intros Hs Hk. rewrite range_len_ceil by exact Hs. unfold before_stop. destruct (Z.ltb_spec 0 step) as [H | H].
  - pose proof (cdiv_lt_iff (stop - start) step k H). lia.
  - rewrite <- cdiv_opp by exact Hs. pose proof (cdiv_lt_iff (- (stop - start)) (- step) k). lia.
Qed.

Lemma range_from_length i s n : length (range_from i s n) = n.
Proof. revert i; induction n as [|n IH]; intros i; cbn; [reflexivity | now rewrite IH]. Qed.
Lemma range_from_nth i s n : forall k, (k < n)%nat ->
  nth_error (range_from i s n) k = Some (i + Z.of_nat k * s).
Proof.
  revert i; induction n as [|n IH]; intros i k Hk; [lia|].
  destruct k as [|k]; cbn [range_from nth_error]; [f_equal; lia|].
  rewrite IH by lia. f_equal. lia.
Qed.

Lemma py_range_some start stop step l : py_range start stop step = Some l ->
  step <> 0 /\ l = range_from start step (Z.to_nat (range_len start stop step)).
Proof.
  unfold py_range. destruct (Z.eqb_spec step 0) as [|Hs]; [discriminate|]. intros [= <-]. split; [exact Hs|reflexivity].
Qed.

Lemma py_range_length start stop step l : py_range start stop step = Some l ->
  Z.of_nat (length l) = Z.max 0 (cdiv (stop - start) step).
Proof.
  intros [Hs ->]%py_range_some. rewrite range_from_length, Z2Nat.id by apply range_len_nonneg.
  apply range_len_ceil, Hs.
Qed.
Lemma py_range_nth start stop step l k : py_range start stop step = Some l -> (k < length l)%nat ->
  nth_error l k = Some (start + Z.of_nat k * step).
Proof.
  intros [_ ->]%py_range_some. rewrite range_from_length. apply range_from_nth.
Qed.
Lemma py_range_complete start stop step l k : py_range start stop step = Some l ->
  ((k < length l)%nat <-> before_stop stop step (start + Z.of_nat k * step)).
Proof.
  intros [Hs ->]%py_range_some. rewrite range_from_length, <- range_len_complete by lia. pose proof (range_len_nonneg start stop step). lia.
Qed.
Lemma py_range_zero_step start stop step : py_range start stop step = None <-> step = 0.
Proof. unfold py_range. destruct (step =? 0) eqn:E; [apply Z.eqb_eq in E|apply Z.eqb_neq in E]; split; congruence. Qed.

(* for i in l: s = body(i, s) *)
Fixpoint py_for {S} (body : Z -> S -> M S) (l : list Z) (s : S) : M S :=
  match l with [] => ret s | i :: r => bind (body i s) (py_for body r) end.
(* while c(s): s = body(s)        (fuelled) *)
Fixpoint py_while {S} (fuel : nat) (c : S -> M bool) (body : S -> M S) (s : S) : M S :=
  match fuel with
  | O => nofuel
  | S f => bind (c s) (fun b => if b then bind (body s) (py_while f c body) else ret s)
  end.

Definition unpack_res (r : pyv) : list Z := match r with PNone => [] | PInt z => [z] | PTup l => l end.

Lemma next_args_init a a' : length a = length a' ->
  next_args a (init_res a') = Some a' /\ is_nil a' && truthy (init_res a') = false.
Proof.
  destruct a as [|x [|y a]]; destruct a' as [|x' [|y' a']]; cbn; intros H; try discriminate; split; reflexivity.
Qed.
Lemma unpack_init a : unpack_res (init_res a) = a.
Proof. destruct a as [|x [|y a]]; reflexivity. Qed.

(* m is mS followed by the packing of its n results into one Python value *)
Definition packs (n : nat) (m : M pyv) (mS : M (list Z)) : Prop :=
  m = bind mS (fun a' => ret (init_res a')) /\ forall t a', mS = (t, Ok a') -> length a' = n.

(* a computation whose result is the packing of n values loses nothing by unpacking and packing again *)
Lemma unpack_shaped n (m : M pyv) :
  (forall t r, m = (t, Ok r) -> exists a', length a' = n /\ r = init_res a') ->
  packs n m (bind m (fun r => ret (unpack_res r))).
Proof.
  intros Hs. split.
  - rewrite bind_assoc. destruct m as [t [r| |]]; try reflexivity.
    destruct (Hs t r eq_refl) as (a' & La & ->). rewrite !bind_ok, !bind_ret_l, unpack_init.
    cbn. rewrite app_nil_r. reflexivity.
  - intros t a' H. apply bind_ok_inv in H as (t1 & r & t2 & E & R & _).
    destruct (Hs t1 r E) as (a'' & La & ->). rewrite unpack_init in R.
    unfold ret in R. congruence.
Qed.

Lemma for_iter_ref n (body : Z -> list Z -> M pyv) (bodyS : Z -> list Z -> M (list Z)) :
  (forall i a, length a = n -> packs n (body i a) (bodyS i a)) ->
  forall l a, length a = n ->
    for_iter body l a (init_res a) = bind (py_for bodyS l a) (fun a' => ret (init_res a')).
Proof.
  intros Hb l. induction l as [|i l IH]; intros a Ha.
  - cbn [for_iter py_for]. rewrite bind_ret_l. reflexivity.
  - cbn [for_iter py_for]. destruct (Hb i a Ha) as [-> Hl]. rewrite !bind_assoc.
    destruct (bodyS i a) as [t [a'| |]]; try reflexivity.
    assert (La : length a' = n) by (eapply Hl; reflexivity).
    rewrite !bind_ok. rewrite bind_ret_l.
    destruct (next_args_init a a' ltac:(congruence)) as [N T]. rewrite N, T.
    rewrite IH by assumption. reflexivity.
Qed.

(* a Python body function for n carried values returns n values (None / a scalar / an n-tuple) *)
Definition shaped (n : nat) (body : Z -> list Z -> M pyv) : Prop :=
  forall i a t r, length a = n -> body i a = (t, Ok r) -> exists a', length a' = n /\ r = init_res a'.
Definition state_body (body : Z -> list Z -> M pyv) : Z -> list Z -> M (list Z) :=
  fun i a => bind (body i a) (fun r => ret (unpack_res r)).

Lemma for_iter_shaped n body : shaped n body -> forall l a, length a = n ->
  for_iter body l a (init_res a) = bind (py_for (state_body body) l a) (fun a' => ret (init_res a')).
Proof.
  intros Hs. apply for_iter_ref. intros i a Ha. apply unpack_shaped. intros t r. apply Hs, Ha.
Qed.

Lemma for_loop_shaped start stop step n body init l :
  shaped n body -> length init = n ->
  (let '(a, b, c) := for_loop_args start stop step in py_range a b c) = Some l ->
  for_loop start stop step body init
  = bind (py_for (state_body body) l init) (fun a' => ret (init_res a')).
Proof.
  intros Hs Hi. unfold for_loop. destruct (for_loop_args start stop step) as [[a b] c].
  intros ->. apply for_iter_shaped with (n := n); assumption.
Qed.

Lemma for_loop_step0 start stop body init :
  for_loop start stop 0 body init = err.
Proof. unfold for_loop, for_loop_args. destruct stop; reflexivity. Qed.

(* the call signatures are those of range *)
Lemma for_loop_signatures a b c :
  for_loop_args a None 1 = (0, a, 1) /\ for_loop_args a None c = (0, a, c) /\
  for_loop_args a (Some b) 1 = (a, b, 1) /\ for_loop_args a (Some b) c = (a, b, c).
Proof. repeat split. Qed.

(* pure bodies: the returned carried values are the left fold of the body over the range *)
Lemma for_loop_fold n (f : Z -> list Z -> list Z) body :
  (forall i a, length a = n -> body i a = ([], Ok (init_res (f i a)))) ->
  (forall i a, length a = n -> length (f i a) = n) ->
  forall l a, length a = n ->
  for_iter body l a (init_res a) = ([], Ok (init_res (fold_left (fun s i => f i s) l a))).
Proof.
  intros Hb Hl l. induction l as [|i l IH]; intros a Ha; [reflexivity|].
  cbn [for_iter fold_left]. rewrite Hb by assumption. rewrite bind_ok.
  destruct (next_args_init a (f i a) ltac:(rewrite Hl; congruence)) as [N T]. rewrite N, T.
  rewrite IH by (apply Hl; assumption). reflexivity.
Qed.

(* the "should not return anything" check *)
Lemma for_iter_rejects_return body i l fr t r :
  body i [] = (t, Ok r) -> truthy r = true -> for_iter body (i :: l) [] fr = (t, Err).
Proof. intros E T. cbn [for_iter]. rewrite E, bind_ok. cbn. rewrite T. cbn. rewrite app_nil_r. reflexivity. Qed.

Lemma while_iter_ref n (cnd cndS : list Z -> M bool) (body : list Z -> M pyv) (bodyS : list Z -> M (list Z)) :
  (forall a, length a = n -> cnd a = cndS a) ->
  (forall a, length a = n -> packs n (body a) (bodyS a)) ->
  forall fuel a, length a = n ->
    while_iter fuel cnd body a (init_res a) = bind (py_while fuel cndS bodyS a) (fun a' => ret (init_res a')).
Proof.
  intros Hc Hb fuel. induction fuel as [|f IH]; intros a Ha; [reflexivity|].
  cbn [while_iter py_while]. rewrite Hc by assumption. rewrite bind_assoc. apply bind_ext. intros [|].
  - destruct (Hb a Ha) as [-> Hl]. rewrite !bind_assoc.
    destruct (bodyS a) as [t [a'| |]]; try reflexivity.
    assert (La : length a' = n) by (eapply Hl; reflexivity).
    rewrite !bind_ok, bind_ret_l.
    destruct (next_args_init a a' ltac:(congruence)) as [N _]. rewrite N.
    rewrite IH by assumption. reflexivity.
  - rewrite bind_ret_l. reflexivity.
Qed.

Definition shapedw (n : nat) (body : list Z -> M pyv) : Prop :=
  forall a t r, length a = n -> body a = (t, Ok r) -> exists a', length a' = n /\ r = init_res a'.
Definition state_bodyw (body : list Z -> M pyv) : list Z -> M (list Z) :=
  fun a => bind (body a) (fun r => ret (unpack_res r)).

Lemma while_loop_shaped n cnd body : shapedw n body -> forall fuel init, length init = n ->
  while_loop fuel cnd body init
  = bind (py_while fuel cnd (state_bodyw body) init) (fun a' => ret (init_res a')).
Proof.
  intros Hs fuel init Hi. unfold while_loop. apply while_iter_ref with (n := n); [reflexivity | |assumption].
  intros a Ha. apply unpack_shaped. intros t r. apply Hs, Ha.
Qed.

Lemma snd_bind_ok {A B} t (a : A) (f : A -> M B) : snd (bind (t, Ok a) f) = snd (f a).
Proof. reflexivity. Qed.

(* one step of while_iter as an equation: rewriting with it leaves the inner call at fuel f folded
   also when f is itself a successor *)
Lemma while_iter_S f cnd body a r :
  while_iter (S f) cnd body a r =
  bind (cnd a) (fun b => if b then bind (body a) (fun fr =>
      match next_args a fr with None => err | Some a' => while_iter f cnd body a' fr end) else ret r).
Proof. reflexivity. Qed.
(* more fuel does not change a result obtained without running out of fuel *)
Lemma while_iter_fuel_S cnd body : forall f a r,
  snd (while_iter f cnd body a r) <> Fuel -> while_iter (S f) cnd body a r = while_iter f cnd body a r.
Proof.
  induction f as [|f IH]; intros a r H; [cbn in H; congruence|].
  rewrite (while_iter_S (S f)). rewrite (while_iter_S f) in H |- *.
  destruct (cnd a) as [t [[|]| |]]; try reflexivity.
  cbn [bind fst snd] in H |- *.
  destruct (body a) as [t' [fr| |]]; try reflexivity.
  cbn [bind fst snd] in H |- *.
  destruct (next_args a fr) as [a'|]; try reflexivity.
  rewrite IH by exact H. reflexivity.
Qed.
Lemma while_iter_fuel_mono cnd body f f' a r : (f <= f')%nat ->
  snd (while_iter f cnd body a r) <> Fuel -> while_iter f' cnd body a r = while_iter f cnd body a r.
Proof.
  intros Hle H. induction Hle as [|m Hle IH]; [reflexivity|].
  rewrite while_iter_fuel_S; [assumption | rewrite IH; assumption].
Qed.

Lemma cond_first_true brs els args : forall k f,
  nth_error brs k = Some (true, f) ->
  (forall j p g, (j < k)%nat -> nth_error brs j = Some (p, g) -> p = false) ->
  cond_call brs els args = f args.
Proof.
  induction brs as [|[p g] brs IH]; intros k f Hk Hj; [destruct k; discriminate|].
  destruct k as [|k]; cbn in Hk.
  - inversion Hk; subst. reflexivity.
  - cbn [cond_call]. rewrite (Hj 0%nat p g ltac:(lia) eq_refl).
    apply IH with (k := k); [assumption|]. intros j p' g' Hlt Hn. apply (Hj (S j) p' g'); [lia|assumption].
Qed.
Lemma cond_none_true brs els args :
  (forall p g, In (p, g) brs -> p = false) ->
  cond_call brs els args = match els with Some f => f args | None => ret PNone end.
Proof.
  induction brs as [|[p g] brs IH]; intros H; [reflexivity|].
  cbn [cond_call]. rewrite (H p g (or_introl eq_refl)). apply IH. intros p' g' Hin. apply (H p' g'). right; assumption.
Qed.

(* reference semantics: the same program written with plain Python for / while / if-elif-else *)
Definition ret_vals (r : retspec) (env : list Z) : list Z :=
  match r with RNone => [] | RScalar e => [eval e env] | RTuple l => map (fun e => eval e env) l end.
(* range(stop) / range(0, stop, step) / range(start, stop) / range(start, stop, step) *)
Definition sig_range (sg : forsig) (env : list Z) : option (list Z) :=
  match sg with
  | Sig1 b => py_range 0 (eval b env) 1
  | Sig1s b c => py_range 0 (eval b env) (eval c env)
  | Sig2 a b => py_range (eval a env) (eval b env) 1
  | Sig3 a b c => py_range (eval a env) (eval b env) (eval c env)
  end.

Fixpoint ref_stmt (wfuel : nat) (s : stmt) (env : list Z) {struct s} : M (list Z) :=
  match s with
  | SOp code e => ([(code, eval e env)], Ok env)
  | SFor sg inits body rt =>
      match sig_range sg env with
      | None => err
      | Some l =>
          bind (py_for (fun i vals => bind (ref_block wfuel body (i :: vals ++ env))
                                           (fun e' => ret (ret_vals rt e')))
                       l (map (fun e => eval e env) inits))
               (fun vals => finish (length inits) env (init_res vals))
      end
  | SWhile c inits body rt =>
      bind (py_while wfuel
              (fun vals => ret (eval_pred c (vals ++ env)))
              (fun vals => bind (ref_block wfuel body (vals ++ env)) (fun e' => ret (ret_vals rt e')))
              (map (fun e => eval e env) inits))
           (fun vals => finish (length inits) env (init_res vals))
  | SCond args brs has_else els ers =>
      let argv := map (fun e => eval e env) args in
      bind (ref_cond wfuel brs env argv
              (if has_else
               then bind (ref_block wfuel els (argv ++ env)) (fun e' => ret (eval_ret ers e'))
               else ret PNone))
           (fun r => (observe r, Ok (cond_val r :: env)))
  end
with ref_block (wfuel : nat) (b : block) (env : list Z) {struct b} : M (list Z) :=
  match b with
  | BNil => ret env
  | BCons s r => bind (ref_stmt wfuel s env) (fun e' => ref_block wfuel r e')
  end
with ref_cond (wfuel : nat) (c : branches) (env argv : list Z) (otherwise : M pyv) {struct c} : M pyv :=
  match c with
  | CNil => otherwise
  | CCons p b r c' =>
      if eval_pred p env
      then bind (ref_block wfuel b (argv ++ env)) (fun e' => ret (eval_ret r e'))
      else ref_cond wfuel c' env argv otherwise
  end.

(* well-shaped programs: a loop body with n carried values returns n values *)
Definition wf_ret (n : nat) (rt : retspec) : bool :=
  match rt with
  | RNone => Nat.eqb n 0
  | RScalar _ => Nat.eqb n 1
  | RTuple l => Nat.ltb 1 n && Nat.eqb (length l) n
  end.
Fixpoint wf_stmt (s : stmt) : bool :=
  match s with
  | SOp _ _ => true
  | SFor _ inits body rt => wf_ret (length inits) rt && wf_block body
  | SWhile _ inits body rt => wf_ret (length inits) rt && wf_block body
  | SCond _ brs _ els _ => wf_branches brs && wf_block els
  end
with wf_block (b : block) : bool :=
  match b with BNil => true | BCons s r => wf_stmt s && wf_block r end
with wf_branches (c : branches) : bool :=
  match c with CNil => true | CCons _ b _ c' => wf_block b && wf_branches c' end.

Lemma wf_ret_spec n rt env : wf_ret n rt = true ->
  eval_ret rt env = init_res (ret_vals rt env) /\ length (ret_vals rt env) = n.
Proof.
  destruct rt as [|e|l]; cbn [wf_ret eval_ret ret_vals]; intros H.
  - apply Nat.eqb_eq in H. subst. split; reflexivity.
  - apply Nat.eqb_eq in H. subst. split; reflexivity.
  - apply andb_prop in H as [H1 H2]. apply Nat.ltb_lt in H1. apply Nat.eqb_eq in H2.
    assert (L : length (map (fun e => eval e env) l) = n) by (rewrite map_length; assumption).
    split; [|assumption].
    destruct (map (fun e => eval e env) l) as [|x [|y r]]; cbn in L; try lia. reflexivity.
Qed.

(* a loop body ending in `return rt`, as the model runs it and as a transformer of the carried values *)
Lemma body_packs n rt (m : M (list Z)) : wf_ret n rt = true ->
  packs n (bind m (fun e' => ret (eval_ret rt e'))) (bind m (fun e' => ret (ret_vals rt e'))).
Proof.
  intros W. split.
  - rewrite bind_assoc. apply bind_ext. intros e'. rewrite bind_ret_l.
    destruct (wf_ret_spec n rt e' W) as [-> _]. reflexivity.
  - intros t a' H. apply bind_ok_inv in H as (t1 & e' & t2 & _ & R & _).
    unfold ret in R. inversion R; subst. apply (wf_ret_spec n rt e' W).
Qed.

Lemma sig_range_args sg env :
  sig_range sg env =
  (let '(a, b, c) := eval_sig sg env in let '(x, y, z) := for_loop_args a b c in py_range x y z).
Proof. destruct sg; reflexivity. Qed.

Scheme stmt_mind := Induction for stmt Sort Prop
  with block_mind := Induction for block Sort Prop
  with branches_mind := Induction for branches Sort Prop.
Combined Scheme prog_mutind from stmt_mind, block_mind, branches_mind.

Lemma exec_ref_all wfuel :
  (forall s, wf_stmt s = true -> forall env, exec_stmt wfuel s env = ref_stmt wfuel s env) /\
  (forall b, wf_block b = true -> forall env, exec_block wfuel b env = ref_block wfuel b env) /\
  (forall c, wf_branches c = true -> forall env argv (oe : option (list Z -> M pyv)),
      cond_call (exec_branches wfuel c env) oe argv
      = ref_cond wfuel c env argv (match oe with Some g => g argv | None => ret PNone end)).
Proof.
  apply prog_mutind.
  - (* SOp *) reflexivity.
  - (* SFor *)
    intros sg inits body IHb rt W env. cbn [wf_stmt] in W. apply andb_prop in W as [Wr Wb].
    cbn [exec_stmt ref_stmt]. rewrite sig_range_args. unfold for_loop.
    destruct (eval_sig sg env) as [[a b] c]. destruct (for_loop_args a b c) as [[x y] z].
    destruct (py_range x y z) as [l|]; [|reflexivity].
    rewrite for_iter_ref with (n := length inits)
      (bodyS := fun i vals => bind (ref_block wfuel body (i :: vals ++ env)) (fun e' => ret (ret_vals rt e'))).
    + rewrite bind_assoc. apply bind_ext. intros vals. rewrite bind_ret_l. reflexivity.
    + intros i vals Hv. rewrite Hv, Nat.eqb_refl, (IHb Wb). apply body_packs, Wr.
    + apply map_length.
  - (* SWhile *)
    intros c inits body IHb rt W env. cbn [wf_stmt] in W. apply andb_prop in W as [Wr Wb].
    cbn [exec_stmt ref_stmt]. unfold while_loop.
    rewrite while_iter_ref with (n := length inits)
      (cndS := fun vals => ret (eval_pred c (vals ++ env)))
      (bodyS := fun vals => bind (ref_block wfuel body (vals ++ env)) (fun e' => ret (ret_vals rt e'))).
    + rewrite bind_assoc. apply bind_ext. intros vals. rewrite bind_ret_l. reflexivity.
    + intros vals Hv. rewrite Hv, Nat.eqb_refl. reflexivity.
    + intros vals Hv. rewrite Hv, Nat.eqb_refl, (IHb Wb). apply body_packs, Wr.
    + apply map_length.
  - (* SCond *)
    intros args brs IHc has_else els IHe ers W env. cbn [wf_stmt] in W. apply andb_prop in W as [Wc We].
    cbn [exec_stmt ref_stmt]. rewrite (IHc Wc). destruct has_else; [|reflexivity].
    rewrite (IHe We). reflexivity.
  - (* BNil *) reflexivity.
  - (* BCons *)
    intros s IHs b IHb W env. cbn [wf_block] in W. apply andb_prop in W as [Ws Wb].
    cbn [exec_block ref_block]. rewrite (IHs Ws). apply bind_ext. intros e'. apply (IHb Wb).
  - (* CNil *) intros _ env argv oe. reflexivity.
  - (* CCons *)
    intros p b IHb r c IHc W env argv oe. cbn [wf_branches] in W. apply andb_prop in W as [Wb Wc].
    cbn [exec_branches cond_call ref_cond]. destruct (eval_pred p env).
    + rewrite (IHb Wb). reflexivity.
    + apply (IHc Wc).
Qed.

Lemma exec_block_ref wfuel b : wf_block b = true -> forall env, exec_block wfuel b env = ref_block wfuel b env.
Proof. apply (exec_ref_all wfuel). Qed.
