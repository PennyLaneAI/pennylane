(* C18: lemmas about the heap model of QuantumScript aliasing (Disc/AliasModel.v).

   All "the input reads as before" results are one frame argument: mutations through a name change
   only the list object at the address the name is bound to (run_muts_frame); a tape reads the same
   when its record and the objects it points to are the same (read_tape_frame); in a well-formed
   state every address a tape holds is below the allocation pointer, so an object allocated later
   (a list copy, the lists of a tape copy) is none of them (muts_on_fresh_frame).  The idiom lemmas
   execute the one or two leading commands and apply that. *)
From Coq Require Import List ZArith Bool Lia PeanoNat.
From PLV Require Import Disc.AliasModel.
Import ListNotations.
Open Scope Z_scope.

Lemma h_set_length : forall h a l, length (h_set h a l) = length h.
Proof. induction h as [|x r IH]; intros [|a] l; cbn; auto. Qed.

Lemma h_get_set_other : forall h a b l, a <> b -> h_get (h_set h a l) b = h_get h b.
Proof.
  unfold h_get. induction h as [|x r IH]; intros [|a] [|b] l H; cbn; auto; try congruence.
Qed.

Lemma h_get_set_same : forall h a l, (a < length h)%nat -> h_get (h_set h a l) a = Some l.
Proof.
  unfold h_get. induction h as [|x r IH]; intros [|a] l H; cbn in *; try lia; auto.
  apply IH. lia.
Qed.

Lemma h_get_app_l : forall h k a, (a < length h)%nat -> h_get (h ++ k) a = h_get h a.
Proof. intros. unfold h_get. apply nth_error_app1. assumption. Qed.

Lemma h_get_app_new : forall h l k, h_get (h ++ l :: k) (length h) = Some l.
Proof. intros. unfold h_get. rewrite nth_error_app2 by lia. rewrite Nat.sub_diag. reflexivity. Qed.

Lemma t_set_length : forall ts i t, length (t_set ts i t) = length ts.
Proof. induction ts as [|x r IH]; intros [|i] t; cbn; auto. Qed.

Lemma nth_t_set_other : forall ts i j t, i <> j -> nth_error (t_set ts i t) j = nth_error ts j.
Proof.
  induction ts as [|x r IH]; intros [|i] [|j] t H; cbn; auto; try congruence.
Qed.

(* running any sequence of in-place mutations through a name bound to address a leaves the tape records, the
   number of list objects and every OTHER list object unchanged (whether or not one of them raises) *)
Lemma run_muts_frame : forall muts s e y a,
  lookup y e = Some a ->
  forall s' e' ok, run (map (CMut y) muts) (s, e) = (s', e', ok) ->
    tapes s' = tapes s /\ length (lists s') = length (lists s) /\ e' = e /\
    (forall b, b <> a -> h_get (lists s') b = h_get (lists s) b).
Proof.
  induction muts as [|m r IH]; intros s e y a Hy s' e' ok Hrun.
  - cbn in Hrun. inversion Hrun; subst. auto.
  - cbn [map run] in Hrun. cbn [exec] in Hrun. rewrite Hy in Hrun.
    destruct (h_get (lists s) a) as [l|] eqn:Hg.
    + destruct (apply_mut m l) as [l'|] eqn:Hm.
      * specialize (IH _ _ _ _ Hy _ _ _ Hrun). cbn [tapes lists] in IH.
        destruct IH as (Ht & Hl & He & Hf). repeat split; auto.
        -- rewrite Hl. apply h_set_length.
        -- intros b Hb. rewrite (Hf b Hb). apply h_get_set_other. congruence.
      * inversion Hrun; subst. auto.
    + inversion Hrun; subst. auto.
Qed.

(* reading a tape only depends on its record and on the list objects it points to *)
Lemma read_tape_frame : forall s s' t tp,
  nth_error (tapes s) t = Some tp -> nth_error (tapes s') t = Some tp ->
  h_get (lists s') (t_ops tp) = h_get (lists s) (t_ops tp) ->
  h_get (lists s') (t_meas tp) = h_get (lists s) (t_meas tp) ->
  (forall a, t_tp tp = Some a -> h_get (lists s') a = h_get (lists s) a) ->
  read_tape s' t = read_tape s t.
Proof.
  intros s s' t tp H1 H2 Ho Hm Ht.
  unfold read_tape, tape_ops, tape_meas, tape_tp, tape_shots, get_tape. rewrite H1, H2, Ho, Hm.
  destruct (t_tp tp) as [a|] eqn:E; [rewrite (Ht a eq_refl)|]; reflexivity.
Qed.

Lemma read_tape_none : forall s s' t,
  nth_error (tapes s) t = None -> nth_error (tapes s') t = None -> read_tape s' t = read_tape s t.
Proof.
  intros. unfold read_tape, tape_ops, tape_meas, tape_tp, tape_shots, get_tape. rewrite H, H0. reflexivity.
Qed.

(* mutations through a name bound to an address allocated after [s] was taken: if the state they start from
   still holds the list objects of [s], every tape whose record it still holds reads as in [s] *)
Lemma muts_on_fresh_frame : forall s s1 e y a muts s' e' ok,
  wf s -> lookup y e = Some a -> (length (lists s) <= a)%nat ->
  (forall b, (b < length (lists s))%nat -> h_get (lists s1) b = h_get (lists s) b) ->
  run (map (CMut y) muts) (s1, e) = (s', e', ok) ->
  forall t0, nth_error (tapes s1) t0 = nth_error (tapes s) t0 -> read_tape s' t0 = read_tape s t0.
Proof.
  intros s s1 e y a muts s' e' ok Hwf Hy Ha Hold Hrun t0 H1.
  destruct (run_muts_frame _ _ _ _ _ Hy _ _ _ Hrun) as (Htp & _ & _ & Hfr). rewrite <- Htp in H1.
  destruct (nth_error (tapes s) t0) as [tp0|] eqn:H0; [|apply read_tape_none; assumption].
  destruct (Hwf _ _ H0) as (Ho & Hm & Hta).
  apply (read_tape_frame s s' t0 tp0); auto.
  - rewrite Hfr by lia. apply Hold, Ho.
  - rewrite Hfr by lia. apply Hold, Hm.
  - intros b Hb. specialize (Hta b Hb). rewrite Hfr by lia. apply Hold, Hta.
Qed.

(* y = x.copy(); <any in-place mutations of y>, whichever list x names   -- every tape reads as before *)
Lemma copy_list_then_mutate : forall s e x y muts s' e' ok,
  wf s ->
  run (CCopyList y x :: map (CMut y) muts) (s, e) = (s', e', ok) ->
  forall t0, read_tape s' t0 = read_tape s t0.
Proof.
  intros s e x y muts s' e' ok Hwf Hrun t0.
  cbn [run] in Hrun. cbn [exec] in Hrun.
  destruct (lookup x e) as [a|]; [|inversion Hrun; subst; reflexivity].
  destruct (h_get (lists s) a) as [l|]; [|inversion Hrun; subst; reflexivity].
  unfold alloc in Hrun.
  apply (muts_on_fresh_frame s _ _ y (length (lists s)) muts s' e' ok Hwf) with (4 := Hrun);
    [cbn; now rewrite Nat.eqb_refl | lia | intros b Hb; apply h_get_app_l, Hb | reflexivity].
Qed.

(* ops = tape.operations.copy(); <any in-place mutations of ops>   -- every tape reads as before *)
Lemma copy_then_mutate : forall s e t x y muts s' e' ok,
  wf s ->
  run (CGetOps x t :: CCopyList y x :: map (CMut y) muts) (s, e) = (s', e', ok) ->
  forall t0, read_tape s' t0 = read_tape s t0.
Proof.
  intros s e t x y muts s' e' ok Hwf Hrun.
  cbn [run] in Hrun. cbn [exec] in Hrun.
  destruct (get_tape s t) as [tp|]; [|inversion Hrun; subst; reflexivity].
  exact (copy_list_then_mutate _ _ x y muts _ _ _ Hwf Hrun).
Qed.

(* the same for the measurements list *)
Lemma copy_meas_then_mutate : forall s e t x y muts s' e' ok,
  wf s ->
  run (CGetMeas x t :: CCopyList y x :: map (CMut y) muts) (s, e) = (s', e', ok) ->
  forall t0, read_tape s' t0 = read_tape s t0.
Proof.
  intros s e t x y muts s' e' ok Hwf Hrun.
  cbn [run] in Hrun. cbn [exec] in Hrun.
  destruct (get_tape s t) as [tp|]; [|inversion Hrun; subst; reflexivity].
  exact (copy_list_then_mutate _ _ x y muts _ _ _ Hwf Hrun).
Qed.

(* ops = tape.operations; ops.pop(0)   -- the caller's tape has lost its first operation *)
Lemma alias_pop_changes : forall s e t tp x v ops,
  nth_error (tapes s) t = Some tp -> h_get (lists s) (t_ops tp) = Some (v :: ops) ->
  exists s' e', run [CGetOps x t; CMut x (MPop 0)] (s, e) = (s', e', true) /\
                tape_ops s' t = Some ops /\ tape_ops s t = Some (v :: ops).
Proof.
  intros s e t tp x v ops Ht Hg.
  assert (Hlt : (t_ops tp < length (lists s))%nat).
  { apply nth_error_Some. unfold h_get in Hg. congruence. }
  eexists. eexists. split; [|split].
  - cbn [run exec]. unfold get_tape. rewrite Ht. cbn [exec lookup]. rewrite Nat.eqb_refl. rewrite Hg.
    cbn. reflexivity.
  - unfold tape_ops, get_tape. cbn [tapes lists]. rewrite Ht. apply h_get_set_same. assumption.
  - unfold tape_ops, get_tape. rewrite Ht. assumption.
Qed.

Lemma alloc_lists : forall s l, lists (fst (alloc s l)) = lists s ++ [l].
Proof. reflexivity. Qed.

Lemma tape_copy_spec : forall s e t tp uo um us ut co s' e',
  wf s -> nth_error (tapes s) t = Some tp ->
  exec (CTapeCopy t uo um us ut co) (s, e) = Some (s', e') ->
  exists tp', tapes s' = tapes s ++ [tp'] /\ e' = e /\
    (length (lists s) <= t_ops tp')%nat /\ (length (lists s) <= t_meas tp')%nat /\ t_ops tp' <> t_meas tp' /\
    (t_ops tp' < length (lists s'))%nat /\ (t_meas tp' < length (lists s'))%nat /\
    (forall a, t_tp tp' = Some a -> (a < length (lists s'))%nat) /\
    (forall a, t_tp tp' = Some a -> (a < length (lists s))%nat ->
               uo = None /\ um = None /\ ut = None /\ t_tp tp = Some a) /\
    t_shots tp' = match us with Some v => v | None => t_shots tp end /\
    (forall b, (b < length (lists s))%nat -> h_get (lists s') b = h_get (lists s) b) /\
    (uo = None -> h_get (lists s') (t_ops tp') = h_get (lists s) (t_ops tp)) /\
    (um = None -> h_get (lists s') (t_meas tp') = h_get (lists s) (t_meas tp)).
Proof.
  intros s e t tp uo um us ut co s' e' Hwf Ht Hex.
  destruct (Hwf _ _ Ht) as (Hlo & Hlm & Hlt).
  cbn [exec] in Hex. unfold get_tape in Hex. rewrite Ht in Hex.
  destruct (copy_src s e uo (t_ops tp)) as [lo|] eqn:Ho; [|discriminate].
  destruct (copy_src s e um (t_meas tp)) as [lm|] eqn:Hm; [|discriminate].
  unfold alloc in Hex. cbn [lists tapes] in Hex.
  destruct ut as [l|]; inversion Hex; subst; clear Hex; cbn [lists tapes];
    (eexists; split; [reflexivity|]); cbn [t_ops t_meas t_tp t_shots].
  - repeat split; try (rewrite ?app_length; cbn [length]; lia).
    + intros a Ha. inversion Ha; subst. rewrite !app_length. cbn [length]. lia.
    + inversion H; subst. rewrite !app_length in H0. lia.
    + inversion H; subst. rewrite !app_length in H0. lia.
    + inversion H; subst. rewrite !app_length in H0. lia.
    + inversion H; subst. rewrite !app_length in H0. lia.
    + intros b Hb. rewrite <- !app_assoc. apply h_get_app_l, Hb.
    + intros ->. rewrite <- !app_assoc. cbn [app]. rewrite h_get_app_new. symmetry. exact Ho.
    + intros ->. rewrite <- (app_assoc (lists s ++ [lo])). cbn [app]. rewrite h_get_app_new. symmetry. exact Hm.
  - repeat split; try (rewrite ?app_length; cbn [length]; lia).
    + intros a Ha. destruct uo, um; cbn in Ha; try discriminate. specialize (Hlt a Ha). rewrite !app_length. lia.
    + destruct uo; [cbn in H; discriminate|reflexivity].
    + destruct uo, um; cbn in H; try discriminate; reflexivity.
    + destruct uo, um; cbn in H; try discriminate; assumption.
    + intros b Hb. rewrite <- !app_assoc. apply h_get_app_l, Hb.
    + intros ->. rewrite <- !app_assoc. cbn [app]. rewrite h_get_app_new. symmetry. exact Ho.
    + intros ->. rewrite h_get_app_new. symmetry. exact Hm.
Qed.

(* new_tape = tape.copy(...); then any in-place mutation of new_tape.operations: every old tape reads as before *)
Lemma tape_copy_then_mutate : forall s e t uo um us ut co x muts s' e' ok,
  wf s ->
  run (CTapeCopy t uo um us ut co :: CGetOps x (length (tapes s)) :: map (CMut x) muts) (s, e) = (s', e', ok) ->
  forall t0, (t0 < length (tapes s))%nat -> read_tape s' t0 = read_tape s t0.
Proof.
  intros s e t uo um us ut co x muts s' e' ok Hwf Hrun t0 Ht0.
  cbn [run] in Hrun.
  destruct (exec (CTapeCopy t uo um us ut co) (s, e)) as [[s1 e1]|] eqn:Hex; [|inversion Hrun; subst; reflexivity].
  assert (Htp : exists tp, nth_error (tapes s) t = Some tp).
  { cbn [exec] in Hex. unfold get_tape in Hex. destruct (nth_error (tapes s) t); [eauto|discriminate]. }
  destruct Htp as [tp Htp].
  destruct (tape_copy_spec _ _ _ _ _ _ _ _ _ _ _ Hwf Htp Hex)
    as (tp' & Htapes & He & Hfo & Hfm & _ & _ & _ & _ & _ & _ & Hold & _ & _).
  cbn [exec] in Hrun. unfold get_tape in Hrun. rewrite Htapes in Hrun.
  rewrite nth_error_app2 in Hrun by lia. rewrite Nat.sub_diag in Hrun. cbn [nth_error] in Hrun.
  apply (muts_on_fresh_frame s s1 ((x, t_ops tp') :: e1) x (t_ops tp') muts s' e' ok Hwf) with (4 := Hrun);
    [cbn; now rewrite Nat.eqb_refl | exact Hfo | exact Hold |].
  rewrite Htapes. apply nth_error_app1, Ht0.
Qed.

Lemma pipeline_prologue_none : forall t se, run (pipeline_prologue None t) se = (se, true).
Proof. reflexivity. Qed.

Lemma pipeline_prologue_some_writes : forall l t s e tp n,
  nth_error (tapes s) t = Some tp -> npar_of s tp = Some n ->
  existsb (fun i => (i <? 0) || (n <? i)) l = false ->
  exists s' e', run (pipeline_prologue (Some l) t) (s, e) = (s', e', true) /\
    tape_tp s' t = Some (Some (sorted_set l)).
Proof.
  intros l t s e tp n Ht Hn Hv.
  assert (Hlt : (t < length (tapes s))%nat) by (apply nth_error_Some; congruence).
  eexists. eexists. split.
  - cbn [pipeline_prologue run exec]. unfold get_tape. rewrite Ht, Hn, Hv. unfold alloc. reflexivity.
  - unfold tape_tp, get_tape. cbn [tapes lists].
    assert (Hs : forall ts i x, (i < length ts)%nat -> nth_error (t_set ts i x) i = Some x).
    { induction ts as [|y r IH]; intros [|i] x0 H; cbn in *; try lia; auto. apply IH. lia. }
    rewrite Hs by assumption. cbn [t_tp]. rewrite h_get_app_new. reflexivity.
Qed.
