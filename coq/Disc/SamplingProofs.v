(* Facts about the model of finite-shot sampling, in the order of the model.
   Bits: bits_of_index n k lists the binary digits of k, most significant first (bits_S), so it and
   index_of_bits are inverse on [0, 2^n).
   Marginal: the test in marg_entry is "j = target k", the index spelt by the measured wires of k (marg_test), so
   each basis state is counted in exactly one entry.
   Choice: with W = sum w > 0 the comparison c/W <= u is the integer inequality le_uW c (Section Choice), and the
   linear search stops at k exactly when the running sum crosses u*W between k and k+1 (search_spec); cdf and prob
   restate this in Q.
   Counts and bins: a counts dictionary over duplicate-free keys containing every value totals the number of
   values; consecutive slices of the sample array concatenate back to it.
   The `_lemma` statements at the end put these together for sample_probs, sample_state and measure. *)
From Coq Require Import List ZArith Bool Lia QArith FinFun.
From PLV Require Import Alg.ListFacts Disc.SamplingModel.
From PLV Require Disc.ShotsModel.
Import ListNotations.
Open Scope Z_scope.

Definition nonneg (w : list Z) : Prop := Forall (fun x => 0 <= x) w.

Lemma sumZ_cons x l : sumZ (x :: l) = x + sumZ l.
Proof. reflexivity. Qed.

Lemma sumZ_app a b : sumZ (a ++ b) = sumZ a + sumZ b.
Proof. induction a as [|x a IH]; simpl; [reflexivity | rewrite IH; lia]. Qed.

Lemma sumZ_map_add {A} (f g : A -> Z) l :
  sumZ (map (fun x => f x + g x) l) = sumZ (map f l) + sumZ (map g l).
Proof. induction l as [|x l IH]; simpl; [reflexivity | rewrite IH; lia]. Qed.

Lemma sumZ_map_zero {A} (l : list A) : sumZ (map (fun _ => 0) l) = 0.
Proof. induction l; simpl; lia. Qed.

Lemma sumZ_map_scale {A} (P : A -> bool) c l :
  sumZ (map (fun x => if P x then c else 0) l) = c * sumZ (map (fun x => if P x then 1 else 0) l).
Proof. induction l as [|x l IH]; simpl; [lia | rewrite IH; destruct (P x); lia]. Qed.

Lemma sumZ_nonneg l : nonneg l -> 0 <= sumZ l.
Proof. induction 1; simpl; lia. Qed.

Lemma sum_if_filter {A} (P : A -> bool) (g : A -> Z) l :
  sumZ (map (fun x => if P x then g x else 0) l) = sumZ (map g (filter P l)).
Proof. unfold sumZ. induction l as [|x l IH]; [reflexivity|]. cbn. destruct (P x); cbn; rewrite IH; lia. Qed.

Lemma indicator_notin v keys : ~ In v keys -> sumZ (map (fun k => if k =? v then 1 else 0) keys) = 0.
Proof.
  induction keys as [|x keys IH]; intros H; [reflexivity|].
  cbn [map]. rewrite sumZ_cons, IH by (intros Hv; apply H; now right).
  destruct (Z.eqb_spec x v); [exfalso; apply H; now left | reflexivity].
Qed.

Lemma indicator_in v keys : NoDup keys -> In v keys -> sumZ (map (fun k => if k =? v then 1 else 0) keys) = 1.
Proof.
  induction 1 as [|x keys Hx _ IH]; [intros [] | intros [->|Hv]]; cbn [map]; rewrite sumZ_cons.
  - now rewrite Z.eqb_refl, indicator_notin.
  - rewrite IH by assumption. destruct (Z.eqb_spec x v) as [->|]; [contradiction | reflexivity].
Qed.

Lemma Forall_firstn_skipn {A} (P : A -> Prop) n l : Forall P l -> Forall P (firstn n l) /\ Forall P (skipn n l).
Proof. intros H. apply Forall_app. now rewrite firstn_skipn. Qed.

Lemma eq_lb_eq a : forall b, eq_lb a b = true <-> a = b.
Proof.
  induction a as [|x a IH]; intros [|y b]; simpl; try (split; [discriminate | discriminate]); [tauto|].
  rewrite andb_true_iff, IH, eqb_true_iff. split; [intros [-> ->]; reflexivity | intros H; inversion H; auto].
Qed.

Lemma eq_lz_eq a : forall b, eq_lz a b = true -> a = b.
Proof.
  induction a as [|x a IH]; intros [|y b]; simpl; try discriminate; [reflexivity|].
  intros H. apply andb_prop in H as [H1 H2]. apply Z.eqb_eq in H1. apply IH in H2. congruence.
Qed.

Lemma pow2_nat m : Z.of_nat (2 ^ m) = 2 ^ Z.of_nat m.
Proof. rewrite Nat2Z.inj_pow. reflexivity. Qed.

Lemma powers_S n : powers_of_two (S n) = 2 ^ Z.of_nat n :: powers_of_two n.
Proof.
  unfold powers_of_two. rewrite seq_S, map_app, rev_app_distr. cbn [map rev app plus].
  rewrite Z.shiftl_1_l. reflexivity.
Qed.

Lemma powers_length n : length (powers_of_two n) = n.
Proof. unfold powers_of_two. now rewrite rev_length, map_length, seq_length. Qed.

Lemma land_pow2 k j : 0 <= j -> (0 <? Z.land k (2 ^ j)) = Z.testbit k j.
Proof.
  intros Hj. replace (Z.land k (2 ^ j)) with (if Z.testbit k j then 2 ^ j else 0).
  - destruct (Z.testbit k j); [apply Z.ltb_lt, Z.pow_pos_nonneg; lia | reflexivity].
  - apply Z.bits_inj'. intros m Hm. rewrite Z.land_spec, Z.pow2_bits_eqb by lia.
    destruct (Z.testbit k j) eqn:E; rewrite ?Z.pow2_bits_eqb, ?Z.bits_0 by lia;
      destruct (Z.eqb_spec j m) as [->|]; rewrite ?E, ?andb_false_r; reflexivity.
Qed.

Lemma bits_S n k : bits_of_index (S n) k = Z.testbit k (Z.of_nat n) :: bits_of_index n k.
Proof. unfold bits_of_index. rewrite powers_S. cbn [map]. rewrite land_pow2 by lia. reflexivity. Qed.

Lemma bits_length n k : length (bits_of_index n k) = n.
Proof. unfold bits_of_index. now rewrite map_length, powers_length. Qed.

Lemma index_cons b bs : index_of_bits (b :: bs) = b2z b * 2 ^ Z.of_nat (length bs) + index_of_bits bs.
Proof. unfold index_of_bits. cbn [length]. rewrite powers_S. reflexivity. Qed.

Lemma b2z_Zb2z b : b2z b = Z.b2z b.
Proof. destruct b; reflexivity. Qed.

Lemma index_bits_mod n : forall k, index_of_bits (bits_of_index n k) = k mod 2 ^ Z.of_nat n.
Proof.
  induction n as [|n IH]; intros k.
  - cbn. now rewrite Z.mod_1_r.
  - rewrite bits_S, index_cons, bits_length, IH, Nat2Z.inj_succ, Z.pow_succ_r by lia.
    rewrite b2z_Zb2z, Z.testbit_spec' by lia. pose proof (pow2_pos n).
    rewrite (Z.mul_comm 2), Z.rem_mul_r by lia. lia.
Qed.

Lemma index_of_bits_of_index n k : 0 <= k < 2 ^ Z.of_nat n -> index_of_bits (bits_of_index n k) = k.
Proof. intros H. rewrite index_bits_mod. now apply Z.mod_small. Qed.

Lemma index_range bs : 0 <= index_of_bits bs < 2 ^ Z.of_nat (length bs).
Proof.
  induction bs as [|b bs IH]; [cbn; lia|].
  rewrite index_cons. cbn [length]. rewrite Nat2Z.inj_succ, Z.pow_succ_r by lia.
  destruct b; cbn [b2z]; lia.
Qed.

(* a bit row is determined by its length and its index: the leading bit is the quotient by 2^(length of the rest) *)
Lemma index_inj : forall a b, length a = length b -> index_of_bits a = index_of_bits b -> a = b.
Proof.
  induction a as [|x a IH]; intros [|y b] L E; try discriminate L; [reflexivity|].
  injection L as L. rewrite !index_cons, L in E.
  pose proof (index_range a) as Ra. pose proof (index_range b) as Rb. rewrite L in Ra.
  assert (x = y /\ index_of_bits a = index_of_bits b) as [-> E']
    by (destruct x, y; cbn [b2z] in E; split; (reflexivity || lia)).
  f_equal. now apply IH.
Qed.

Lemma bits_of_index_of_bits bs : bits_of_index (length bs) (index_of_bits bs) = bs.
Proof. apply index_inj; [apply bits_length | apply index_of_bits_of_index, index_range]. Qed.

Lemma bits_big_endian n : forall k j, (j < n)%nat ->
  nth j (bits_of_index n k) false = Z.testbit k (Z.of_nat (n - 1 - j)).
Proof.
  induction n as [|n IH]; intros k j Hj; [lia|].
  rewrite bits_S. destruct j as [|j]; cbn [nth].
  - f_equal. lia.
  - rewrite IH by lia. f_equal. lia.
Qed.

Lemma bits_eq_iff m bs j : length bs = m -> 0 <= j < 2 ^ Z.of_nat m ->
  eq_lb bs (bits_of_index m j) = (j =? index_of_bits bs).
Proof.
  intros L Hj. apply eq_true_iff_eq. rewrite eq_lb_eq, Z.eqb_eq. split; intros ->.
  - now rewrite index_of_bits_of_index.
  - subst m. symmetry. apply bits_of_index_of_bits.
Qed.

Lemma basis_states_in m j : In j (basis_states m) <-> 0 <= j < 2 ^ Z.of_nat m.
Proof.
  unfold basis_states. rewrite in_map_iff, <- (pow2_nat m). split.
  - intros (i & <- & Hi). apply in_seq in Hi. lia.
  - intros H. exists (Z.to_nat j). split; [lia|]. apply in_seq. lia.
Qed.

Lemma basis_states_length m : length (basis_states m) = (2 ^ m)%nat.
Proof. unfold basis_states. now rewrite map_length, seq_length. Qed.

Lemma basis_states_nodup m : NoDup (basis_states m).
Proof. apply Injective_map_NoDup; [intros a b; apply Nat2Z.inj | apply seq_NoDup]. Qed.

Lemma nth_error_basis m i : (i < 2 ^ m)%nat -> nth_error (basis_states m) i = Some (Z.of_nat i).
Proof.
  intros H. unfold basis_states.
  rewrite nth_error_map, (nth_error_nth' _ 0%nat), seq_nth by (rewrite ?seq_length; assumption). reflexivity.
Qed.

Definition target (n : nat) (mw : list nat) (k : Z) : Z := index_of_bits (select mw (bits_of_index n k)).

Lemma select_length ws row : length (select ws row) = length ws.
Proof. apply map_length. Qed.

Lemma target_range n mw k : 0 <= target n mw k < 2 ^ Z.of_nat (length mw).
Proof. unfold target. rewrite <- (select_length mw (bits_of_index n k)). apply index_range. Qed.

Lemma marg_test n mw k j : 0 <= j < 2 ^ Z.of_nat (length mw) ->
  eq_lb (select mw (bits_of_index n k)) (bits_of_index (length mw) j) = (j =? target n mw k).
Proof. apply bits_eq_iff, select_length. Qed.

Lemma snd_combine {A B} (a : list A) : forall (b : list B), (length b <= length a)%nat -> map snd (combine a b) = b.
Proof.
  induction a as [|x a IH]; intros [|y b] H; cbn in *; try reflexivity; [lia|]. f_equal. apply IH. lia.
Qed.

Lemma sum_swap (L : list (Z * Z)) (J : list Z) (T : Z * Z -> Z -> bool) :
  (forall kw, In kw L -> sumZ (map (fun j => if T kw j then 1 else 0) J) = 1) ->
  sumZ (map (fun j => sumZ (map (fun kw => if T kw j then snd kw else 0) L)) J) = sumZ (map snd L).
Proof.
  induction L as [|kw L IH]; intros H; [apply sumZ_map_zero|].
  cbn [map]. rewrite sumZ_cons, <- IH by (intros; apply H; now right).
  rewrite <- (Z.mul_1_r (snd kw)), <- (H kw) at 1 by now left.
  rewrite <- sumZ_map_scale, <- sumZ_map_add. reflexivity.
Qed.

Lemma marginal_total n mw w : length w = (2 ^ n)%nat -> sumZ (marginal n mw w) = sumZ w.
Proof.
  intros Lw. unfold marginal, marg_entry.
  rewrite (sum_swap (combine (basis_states n) w) (basis_states (length mw))
             (fun kw j => eq_lb (select mw (bits_of_index n (fst kw))) (bits_of_index (length mw) j))).
  - rewrite snd_combine; [reflexivity | rewrite basis_states_length; lia].
  - intros kw _. rewrite (map_ext_in _ (fun j => if j =? target n mw (fst kw) then 1 else 0)).
    + apply indicator_in; [apply basis_states_nodup | apply basis_states_in, target_range].
    + intros j Hj. apply basis_states_in in Hj. now rewrite marg_test.
Qed.

(* entry j of the marginal = total weight of the basis states whose measured wires spell j
   (the unmeasured bits are summed out) *)
Lemma marginal_entry n mw w j : 0 <= j < 2 ^ Z.of_nat (length mw) ->
  nth (Z.to_nat j) (marginal n mw w) 0 =
  sumZ (map snd (filter (fun kw => target n mw (fst kw) =? j) (combine (basis_states n) w))).
Proof.
  intros H. rewrite <- sum_if_filter. apply nth_error_nth. unfold marginal.
  pose proof H as H'. rewrite <- pow2_nat in H'. rewrite nth_error_map, nth_error_basis, Z2Nat.id by lia.
  cbn [option_map]. f_equal. unfold marg_entry. f_equal. apply map_ext. intros kw.
  now rewrite marg_test, Z.eqb_sym.
Qed.

Lemma marginal_length n mw w : length (marginal n mw w) = (2 ^ length mw)%nat.
Proof. unfold marginal. now rewrite map_length, basis_states_length. Qed.

Lemma marginal_nonneg n mw w : nonneg w -> nonneg (marginal n mw w).
Proof.
  intros H. apply Forall_map, Forall_forall. intros j _. apply sumZ_nonneg, Forall_map, Forall_forall.
  intros [k x] Hkw. destruct (eq_lb _ _); [|lia].
  apply in_combine_r in Hkw. exact (proj1 (Forall_forall _ _) H x Hkw).
Qed.

Definition psum (w : list Z) (k : nat) : Z := sumZ (firstn k w).

Lemma psum_0 w : psum w 0 = 0.
Proof. reflexivity. Qed.

Lemma psum_cons x w k : psum (x :: w) (S k) = x + psum w k.
Proof. reflexivity. Qed.

Lemma psum_S w : forall k, psum w (S k) = psum w k + nth k w 0.
Proof.
  induction w as [|x w IH]; intros [|k]; try reflexivity.
  - rewrite psum_cons, !psum_0. cbn. lia.
  - rewrite !psum_cons, IH. cbn [nth]. lia.
Qed.

Lemma psum_nonneg w k : nonneg w -> 0 <= psum w k.
Proof. intros H. now apply sumZ_nonneg, Forall_firstn_skipn. Qed.

Lemma psum_all w : psum w (length w) = sumZ w.
Proof. unfold psum. now rewrite firstn_all. Qed.

Section Choice.
  Variable u : Q.
  Variable W : Z.
  (* c/W <= u, cross-multiplied *)
  Definition le_uW (c : Z) : Prop := c * Z.pos (Qden u) <= Qnum u * W.

  Lemma qle_iff c : Qle_bool (inject_Z c) (u * inject_Z W) = true <-> le_uW c.
  Proof.
    rewrite Qle_bool_iff. unfold Qle, Qmult, inject_Z, le_uW. cbn [Qnum Qden].
    rewrite Pos.mul_1_r, Z.mul_1_r. reflexivity.
  Qed.

  Lemma le_uW_mono c c' : c <= c' -> le_uW c' -> le_uW c.
  Proof. unfold le_uW. intros. pose proof (Pos2Z.is_pos (Qden u)). nia. Qed.

  Lemma search_nonneg cum : 0 <= search_right u W cum.
  Proof. induction cum as [|c r IH]; cbn [search_right]; [lia|]. destruct (Qle_bool _ _); lia. Qed.

  (* the search stops at k exactly when the running sum crosses u*W between k and k+1 *)
  Lemma search_spec : forall w acc k, nonneg w -> (k < length w)%nat -> le_uW acc ->
    (search_right u W (cumsum_from acc w) = Z.of_nat k <->
     le_uW (acc + psum w k) /\ ~ le_uW (acc + psum w (S k))).
  Proof.
    induction w as [|x w IH]; intros acc k Hw Hk Hacc; [cbn in Hk; lia|].
    inversion Hw as [|? ? Hx Hw']; subst. cbn [cumsum_from search_right].
    pose proof (search_nonneg (cumsum_from (acc + x) w)) as NN.
    destruct (Qle_bool (inject_Z (acc + x)) (u * inject_Z W)) eqn:E.
    - apply qle_iff in E. destruct k as [|k]; rewrite !psum_cons, ?psum_0, ?Z.add_0_r.
      + split; [lia | tauto].
      + cbn [length] in Hk. rewrite !Z.add_assoc, <- (IH (acc + x) k) by (assumption || lia). lia.
    - assert (N : ~ le_uW (acc + x)) by (rewrite <- qle_iff, E; discriminate).
      destruct k as [|k]; rewrite !psum_cons, ?psum_0, ?Z.add_0_r.
      + split; [tauto | reflexivity].
      + split; [lia|]. intros [H _]. contradict N. apply (le_uW_mono (acc + x)) in H; [exact H|].
        pose proof (psum_nonneg w k Hw'). lia.
  Qed.

  Lemma search_lt : forall w acc, le_uW acc -> ~ le_uW (acc + sumZ w) ->
    0 <= search_right u W (cumsum_from acc w) < Z.of_nat (length w).
  Proof.
    induction w as [|x w IH]; intros acc Ha Hn.
    - exfalso. apply Hn. cbn. now rewrite Z.add_0_r.
    - cbn [cumsum_from search_right length]. destruct (Qle_bool _ _) eqn:E; [|lia].
      apply qle_iff in E. rewrite sumZ_cons, Z.add_assoc in Hn. specialize (IH (acc + x) E Hn). lia.
  Qed.
End Choice.

Definition unit_interval (u : Q) : Prop := (0 <= u)%Q /\ (u < 1)%Q.

(* cdf_k = (w_0 + ... + w_(k-1)) / W as a rational;  prob_k = w_k / W *)
Definition cdf (w : list Z) (k : nat) : Q := Qmake (psum w k) (Z.to_pos (sumZ w)).
Definition prob (w : list Z) (k : nat) : Q := Qmake (nth k w 0) (Z.to_pos (sumZ w)).

Lemma le_uW_cdf u w k : 0 < sumZ w -> (le_uW u (sumZ w) (psum w k) <-> (cdf w k <= u)%Q).
Proof. intros H. unfold le_uW, cdf, Qle. cbn [Qnum Qden]. rewrite Z2Pos.id by assumption. reflexivity. Qed.

Lemma le_uW_zero u W : (0 <= u)%Q -> 0 < W -> le_uW u W 0.
Proof. unfold Qle, le_uW. cbn. intros. nia. Qed.

Lemma not_le_uW_total u W : (u < 1)%Q -> 0 < W -> ~ le_uW u W (0 + W).
Proof. unfold Qlt, le_uW. cbn. intros. pose proof (Pos2Z.is_pos (Qden u)). nia. Qed.

(* outcome k  iff  cdf(k) <= u < cdf(k+1)   (cdf(0) = 0) *)
Lemma choice_interval_lemma w u k : nonneg w -> 0 < sumZ w -> (0 <= u)%Q -> (k < length w)%nat ->
  (choice_idx w u = Z.of_nat k <-> (cdf w k <= u)%Q /\ (u < cdf w (S k))%Q).
Proof.
  intros Hw HW Hu Hk. unfold choice_idx.
  rewrite (search_spec u (sumZ w) w 0 k Hw Hk (le_uW_zero u (sumZ w) Hu HW)).
  rewrite !Z.add_0_l, !le_uW_cdf by assumption.
  split; intros [A B]; (split; [assumption|]); [now apply Qnot_le_lt | now apply Qlt_not_le].
Qed.

(* the preimage interval of k has length p_k *)
Lemma interval_length_lemma w k : (cdf w (S k) - cdf w k == prob w k)%Q.
Proof.
  unfold cdf, prob, Qeq, Qminus, Qplus, Qopp. cbn [Qnum Qden]. rewrite psum_S, Pos2Z.inj_mul. ring.
Qed.

(* a zero-probability outcome is never selected *)
Lemma choice_positive_lemma w u k : nonneg w -> 0 < sumZ w -> (0 <= u)%Q -> (k < length w)%nat ->
  choice_idx w u = Z.of_nat k -> 0 < nth k w 0.
Proof.
  intros Hw HW Hu Hk E. apply (choice_interval_lemma w u k Hw HW Hu Hk) in E as [A B].
  pose proof (Qle_lt_trans _ _ _ A B) as C. unfold cdf, Qlt in C. cbn [Qnum Qden] in C.
  rewrite psum_S in C. pose proof (Pos2Z.is_pos (Z.to_pos (sumZ w))). nia.
Qed.

Lemma choice_total_lemma w u : nonneg w -> 0 < sumZ w -> unit_interval u ->
  exists k, (k < length w)%nat /\ choice_idx w u = Z.of_nat k /\ 0 < nth k w 0.
Proof.
  intros Hw HW [Hu0 Hu1].
  pose proof (search_lt u (sumZ w) w 0 (le_uW_zero u (sumZ w) Hu0 HW) (not_le_uW_total u _ Hu1 HW)) as R.
  fold (choice_idx w u) in R. exists (Z.to_nat (choice_idx w u)).
  assert (E : choice_idx w u = Z.of_nat (Z.to_nat (choice_idx w u))) by lia.
  split; [lia|]. split; [exact E|]. apply (choice_positive_lemma w u); (assumption || lia).
Qed.

Lemma choice_unique_lemma w u : nonneg w -> 0 < sumZ w -> unit_interval u ->
  exists! k, (k < length w)%nat /\ (cdf w k <= u)%Q /\ (u < cdf w (S k))%Q.
Proof.
  intros Hw HW Hu. destruct (choice_total_lemma w u Hw HW Hu) as (k & Hk & E & _).
  exists k. split.
  - split; [assumption|]. now apply (choice_interval_lemma w u k Hw HW (proj1 Hu) Hk).
  - intros k' (Hk' & I). apply (choice_interval_lemma w u k' Hw HW (proj1 Hu) Hk') in I. lia.
Qed.

Lemma count_eq_cons k v vals : count_eq k (v :: vals) = (if k =? v then 1 else 0) + count_eq k vals.
Proof. unfold count_eq, lenZ. cbn [filter]. destruct (k =? v); cbn [length]; lia. Qed.

Lemma count_eq_nonneg k vals : 0 <= count_eq k vals.
Proof. unfold count_eq, lenZ. lia. Qed.

Lemma counts_sum keys vals : NoDup keys -> Forall (fun v => In v keys) vals ->
  sumZ (map (fun k => count_eq k vals) keys) = lenZ vals.
Proof.
  intros ND. induction 1 as [|v vals Hv _ IH]; [apply sumZ_map_zero|].
  rewrite (map_ext _ (fun k => (if k =? v then 1 else 0) + count_eq k vals)) by (intros; apply count_eq_cons).
  rewrite (sumZ_map_add (fun k => if k =? v then 1 else 0)), IH, indicator_in by assumption.
  unfold lenZ. cbn [length]. lia.
Qed.

(* dropping the keys that were never observed drops zeros only *)
Lemma filter_keeps_sum all l : Forall (fun kc : Z * Z => 0 <= snd kc) l ->
  sumZ (map snd (filter (fun kc => all || (0 <? snd kc)) l)) = sumZ (map snd l).
Proof.
  induction 1 as [|kc l H _ IH]; [reflexivity|]. cbn [filter map]. rewrite sumZ_cons, <- IH.
  destruct (all || (0 <? snd kc)) eqn:E; [reflexivity|].
  apply orb_false_elim in E as [_ E]. apply Z.ltb_ge in E. lia.
Qed.

Lemma counts_over_total keys all vals : NoDup keys -> Forall (fun v => In v keys) vals ->
  sumZ (map snd (counts_over keys all vals)) = lenZ vals.
Proof.
  intros ND Hv. unfold counts_over. rewrite filter_keeps_sum.
  - rewrite map_map. now apply counts_sum.
  - apply Forall_map, Forall_forall. intros k _. apply count_eq_nonneg.
Qed.

Definition cols (n : nat) (ws : list nat) : nat := match ws with [] => n | _ => length ws end.

Lemma sel_rows_length n ws rows : Forall (fun r => length r = n) rows ->
  Forall (fun r => length r = cols n ws) (sel_rows ws rows).
Proof.
  intros H. destruct ws as [|a ws]; [exact H|]. unfold sel_rows, cols.
  apply Forall_map, Forall_forall. intros r _. apply select_length.
Qed.

Lemma sel_rows_count ws rows : length (sel_rows ws rows) = length rows.
Proof. destruct ws; [reflexivity | apply map_length]. Qed.

(* what holds of f on every row of the selected width holds of every value f computes from the selected rows *)
Lemma sel_rows_map {B} (f : list bool -> B) (P : B -> Prop) n ws rows : Forall (fun r => length r = n) rows ->
  (forall r, length r = cols n ws -> P (f r)) -> Forall P (map f (sel_rows ws rows)).
Proof. intros H HP. apply Forall_map. eapply Forall_impl; [exact HP | now apply sel_rows_length]. Qed.

Lemma counts_rows_total n ws keys all (f : list bool -> Z) rows : NoDup keys ->
  Forall (fun r => length r = n) rows -> (forall r, length r = cols n ws -> In (f r) keys) ->
  sumZ (map snd (counts_over keys all (map f (sel_rows ws rows)))) = lenZ rows.
Proof.
  intros ND H Hf. rewrite counts_over_total; [| assumption | now apply (sel_rows_map f _ n)].
  unfold lenZ. now rewrite map_length, sel_rows_count.
Qed.

Lemma counts_total_lemma n ws all rows l : Forall (fun r => length r = n) rows ->
  process n (MCounts ws all) rows = RCounts l -> sumZ (map snd l) = lenZ rows.
Proof.
  intros H E. cbn [process] in E. injection E as <-. fold (cols n ws).
  apply (counts_rows_total n); [apply basis_states_nodup | assumption |].
  intros r <-. apply basis_states_in, index_range.
Qed.

Lemma eig_valid_lemma eigs bs : length eigs = (2 ^ length bs)%nat -> In (eig_of eigs bs) eigs.
Proof.
  intros L. unfold eig_of. destruct (eq_lz eigs [1; -1]) eqn:E.
  - apply eq_lz_eq in E. subst eigs. destruct (hd false bs); cbn; auto.
  - apply nth_In. pose proof (index_range bs) as R. rewrite <- (pow2_nat (length bs)) in R. lia.
Qed.

Lemma eig_samples_valid_lemma n ws eigs rows l : Forall (fun r => length r = n) rows ->
  length eigs = (2 ^ cols n ws)%nat ->
  process n (MSampleObs ws eigs) rows = REig l -> Forall (fun v => In v eigs) l /\ length l = length rows.
Proof.
  intros H L E. cbn [process] in E. injection E as <-. split.
  - apply (sel_rows_map _ _ n); [assumption|]. intros r Hr. apply eig_valid_lemma. now rewrite Hr.
  - now rewrite map_length, sel_rows_count.
Qed.

(* counts of an observable: keys are the distinct eigenvalues *)
Fixpoint strict_sorted (l : list Z) : Prop :=
  match l with [] => True | a :: r => Forall (Z.lt a) r /\ strict_sorted r end.

Lemma insert_u_in x l y : In y (insert_u x l) <-> y = x \/ In y l.
Proof.
  induction l as [|a l IH]; cbn [insert_u]; [cbn; intuition|].
  destruct (Z.ltb_spec x a); [cbn; intuition|]. destruct (Z.eqb_spec x a) as [->|]; [cbn; intuition|].
  cbn [In]. rewrite IH. intuition.
Qed.

Lemma insert_u_sorted x l : strict_sorted l -> strict_sorted (insert_u x l).
Proof.
  induction l as [|a l IH]; intros S; [repeat constructor|]. destruct S as [Ha S]. cbn [insert_u].
  destruct (Z.ltb_spec x a); [|destruct (Z.eqb_spec x a); [now split|]]; (split; [|auto; now split]).
  - constructor; [assumption|]. eapply Forall_impl; [|exact Ha]. cbn. lia.
  - rewrite Forall_forall in *. intros y Hy. apply insert_u_in in Hy as [->|Hy]; [lia | now apply Ha].
Qed.

Lemma strict_sorted_nodup l : strict_sorted l -> NoDup l.
Proof.
  induction l as [|a l IH]; [constructor|]. intros [Ha S]. constructor; [|now apply IH].
  rewrite Forall_forall in Ha. intros Hin. apply Ha in Hin. lia.
Qed.

Lemma sort_dedupe_in l y : In y (sort_dedupe l) <-> In y l.
Proof.
  induction l as [|x l IH]; [reflexivity|]. change (sort_dedupe (x :: l)) with (insert_u x (sort_dedupe l)).
  rewrite insert_u_in, IH. cbn. intuition.
Qed.

Lemma sort_dedupe_sorted l : strict_sorted (sort_dedupe l).
Proof. induction l as [|x l IH]; [exact I|]. now apply (insert_u_sorted x (sort_dedupe l)). Qed.

Lemma counts_obs_total_lemma n ws eigs all rows l : Forall (fun r => length r = n) rows ->
  length eigs = (2 ^ cols n ws)%nat ->
  process n (MCountsObs ws eigs all) rows = RCounts l ->
  sumZ (map snd l) = lenZ rows /\ Forall (fun kc => In (fst kc) eigs) l.
Proof.
  intros H L E. cbn [process] in E. injection E as <-. split.
  - apply (counts_rows_total n); [apply strict_sorted_nodup, sort_dedupe_sorted | assumption |].
    intros r Hr. apply sort_dedupe_in, eig_valid_lemma. now rewrite Hr.
  - apply Forall_forall. intros kc Hkc. apply filter_In in Hkc as [Hkc _].
    apply in_map_iff in Hkc as (k & <- & Hk). now apply sort_dedupe_in.
Qed.

Lemma bins_same_as_C44 l : forall lb, bins_from lb l = Disc.ShotsModel.bins_from lb l.
Proof. induction l as [|s l IH]; intros lb; cbn; [reflexivity | now rewrite IH]. Qed.

Lemma bins_from_length sv : forall lb, length (bins_from lb sv) = length sv.
Proof. induction sv as [|s sv IH]; intros lb; cbn; [reflexivity | now rewrite IH]. Qed.

Lemma firstn_add_skipn {A} : forall x y (l : list A), firstn (x + y) l = firstn x l ++ firstn y (skipn x l).
Proof.
  induction x as [|x IH]; intros y l; [reflexivity|]. destruct l as [|a l]; cbn.
  - now rewrite firstn_nil.
  - now rewrite IH.
Qed.

Lemma slice_app {A} (rows : list A) a b c : 0 <= a <= b -> b <= c ->
  slice rows (a, b) ++ slice rows (b, c) = slice rows (a, c).
Proof.
  intros H1 H2. unfold slice. cbn [fst snd].
  replace (Z.to_nat (c - a)) with (Z.to_nat (b - a) + Z.to_nat (c - b))%nat by lia.
  rewrite firstn_add_skipn. f_equal. f_equal. rewrite <- skipn_add. f_equal. lia.
Qed.

Lemma slice_all {A} (rows : list A) : slice rows (0, lenZ rows) = rows.
Proof. unfold slice, lenZ. cbn [fst snd skipn Z.to_nat]. rewrite Z.sub_0_r, Nat2Z.id. apply firstn_all. Qed.

Lemma Forall_slice {A} (P : A -> Prop) rows b : Forall P rows -> Forall P (slice rows b).
Proof. intros H. now apply Forall_firstn_skipn, Forall_firstn_skipn. Qed.

Lemma bins_concat {A} (rows : list A) : forall sv lb, nonneg sv -> 0 <= lb ->
  concat (map (slice rows) (bins_from lb sv)) = slice rows (lb, lb + sumZ sv).
Proof.
  induction sv as [|s sv IH]; intros lb H Hlb.
  - cbn. unfold slice. cbn [fst snd]. now replace (lb + 0 - lb) with 0 by lia.
  - inversion H as [|? ? Hs Hsv]; subst. cbn [bins_from map concat]. rewrite IH by (assumption || lia).
    pose proof (sumZ_nonneg sv Hsv). rewrite slice_app, sumZ_cons, Z.add_assoc by lia. reflexivity.
Qed.

Lemma bins_sizes {A} (rows : list A) : forall sv lb, nonneg sv -> 0 <= lb -> lb + sumZ sv <= lenZ rows ->
  map (fun b => lenZ (slice rows b)) (bins_from lb sv) = sv.
Proof.
  induction sv as [|s sv IH]; intros lb H Hlb Hlen; [reflexivity|].
  inversion H as [|? ? Hs Hsv]; subst. rewrite sumZ_cons in Hlen. pose proof (sumZ_nonneg sv Hsv).
  cbn [bins_from map]. rewrite IH by (assumption || lia). f_equal.
  unfold slice, lenZ in *. cbn [fst snd]. rewrite firstn_length, skipn_length. lia.
Qed.

Lemma bins_partition_lemma {A} (rows : list A) sv : nonneg sv -> lenZ rows = sumZ sv ->
  concat (map (slice rows) (bins_from 0 sv)) = rows /\
  map (fun b => lenZ (slice rows b)) (bins_from 0 sv) = sv /\
  length (bins_from 0 sv) = length sv.
Proof.
  intros H L. split; [|split].
  - rewrite bins_concat, Z.add_0_l, <- L by (assumption || lia). apply slice_all.
  - apply bins_sizes; (assumption || lia).
  - apply bins_from_length.
Qed.

Lemma map_opt_some {A B} (f : A -> option B) : forall l r, map_opt f l = Some r -> map f l = map Some r.
Proof.
  induction l as [|x l IH]; intros r H; cbn in H; [now injection H as <-|].
  destruct (f x) eqn:E, (map_opt f l); try discriminate. injection H as <-. cbn. now rewrite E, (IH _ eq_refl).
Qed.

Lemma sample_probs_valid_lemma be D p shots m us rows rest :
  0 <= shots -> 0 < sumZ p -> Forall unit_interval us ->
  sample_probs be D p shots m us = Ok (rows, rest) ->
  lenZ rows = shots /\ rest = skipn (Z.to_nat shots) us /\
  Forall (fun row => length row = m /\ 0 < nth (Z.to_nat (index_of_bits row)) p 0) rows.
Proof.
  intros Hs HW Hu. unfold sample_probs.
  destruct (match be with BNumpy => tol_bad D (sumZ p) | BJax => false end); [discriminate|].
  destruct (forallb (fun x => 0 <=? x) p) eqn:Hp; [|discriminate]. cbn [negb].
  destruct (length p =? 2 ^ m)%nat eqn:Hl; [|discriminate]. cbn [negb]. apply Nat.eqb_eq in Hl.
  destruct (lenZ us <? shots) eqn:Hn; [discriminate|]. apply Z.ltb_ge in Hn.
  destruct (map_opt _ _) as [ks|] eqn:E; [|discriminate]. intros H. injection H as <- <-.
  apply map_opt_some in E.
  assert (Hw : nonneg p).
  { apply Forall_forall. intros x Hx. rewrite forallb_forall in Hp. specialize (Hp x Hx). lia. }
  apply (Forall_firstn_skipn _ (Z.to_nat shots)) in Hu as [Hu _]. rewrite Forall_forall in Hu.
  split; [|split; [reflexivity|]].
  - apply (f_equal (@length _)) in E. unfold lenZ in *. rewrite !map_length, firstn_length in *. lia.
  - apply Forall_map, Forall_forall. intros k Hk. split; [apply bits_length|].
    apply (in_map Some) in Hk. rewrite <- E in Hk. apply in_map_iff in Hk as (u & Hc & Hu_in).
    destruct (choice_total_lemma p u Hw HW (Hu u Hu_in)) as (i & Hi & Ei & Pi). unfold choice_one in Hc.
    rewrite Ei, Nat2Z.id, nth_error_basis in Hc by lia. injection Hc as <-.
    rewrite index_of_bits_of_index, Nat2Z.id by (rewrite <- (pow2_nat m); lia). exact Pi.
Qed.

Definition wires_or_all (n : nat) (wires : list nat) : list nat := match wires with [] => seq 0 n | _ => wires end.

Lemma sample_state_valid_lemma be n D w wires shots us rows rest :
  0 <= shots -> 0 < sumZ w -> Forall unit_interval us ->
  sample_state be n D w wires shots us = Ok (rows, rest) ->
  lenZ rows = shots /\
  Forall (fun row => length row = length (wires_or_all n wires) /\
                     0 < nth (Z.to_nat (index_of_bits row)) (marginal n (wires_or_all n wires) w) 0) rows.
Proof.
  intros Hs HW Hu. unfold sample_state. fold (wires_or_all n wires).
  destruct (length w =? 2 ^ n)%nat eqn:Hl; [|discriminate]. cbn [negb]. apply Nat.eqb_eq in Hl.
  destruct (forallb _ _ && all_distinct _); [|discriminate]. cbn [negb]. intros H.
  apply sample_probs_valid_lemma in H; [| assumption | now rewrite marginal_total | assumption].
  destruct H as (A & _ & B). split; assumption.
Qed.

(* one measurement group: the sample array has sum(sv) rows of n bits and is cut at C44's bins *)
Lemma measure_structure_lemma be n D w sv mps us part bins :
  nonneg sv -> 0 < sumZ w -> Forall unit_interval us ->
  measure be n D w sv mps us = Ok (part, bins) ->
  part = (1 <? lenZ sv) /\
  exists rows, lenZ rows = sumZ sv /\ Forall (fun r => length r = n) rows /\
               bins = map (fun b => map (fun m => process n m (slice rows b)) mps) (bins_from 0 sv).
Proof.
  intros Hsv HW Hu. unfold measure.
  destruct (sample_state be n D w [] (sumZ sv) us) as [[rows rest]|] eqn:E; [|discriminate].
  intros H. injection H as <- <-. split; [reflexivity|]. exists rows.
  apply sample_state_valid_lemma in E; [| now apply sumZ_nonneg | assumption | assumption].
  destruct E as [A B]. split; [assumption|]. split; [|reflexivity].
  eapply Forall_impl; [|exact B]. cbn. intros r [Hr _]. now rewrite seq_length in Hr.
Qed.

(* every counts dictionary of bin i totals the i-th entry of the shot vector *)
Lemma measure_counts_lemma be n D w sv mps us part bins :
  nonneg sv -> 0 < sumZ w -> Forall unit_interval us ->
  measure be n D w sv mps us = Ok (part, bins) ->
  length bins = length sv /\
  forall i s bin j ws all l, nth_error sv i = Some s -> nth_error bins i = Some bin ->
    nth_error mps j = Some (MCounts ws all) -> nth_error bin j = Some (RCounts l) ->
    sumZ (map snd l) = s.
Proof.
  intros Hsv HW Hu H. apply measure_structure_lemma in H as (_ & rows & HL & HR & ->); try assumption.
  destruct (bins_partition_lemma rows sv Hsv HL) as (_ & Sz & Len).
  split; [now rewrite map_length|].
  intros i s bin j ws all l Hs Hb Hm Hr.
  rewrite nth_error_map in Hb. destruct (nth_error (bins_from 0 sv) i) as [b|] eqn:Eb; [|discriminate].
  injection Hb as <-. rewrite nth_error_map, Hm in Hr.
  assert (Hr' : process n (MCounts ws all) (slice rows b) = RCounts l) by (cbn [option_map] in Hr; congruence).
  apply counts_total_lemma in Hr'; [|now apply Forall_slice].
  rewrite <- Sz, nth_error_map, Eb in Hs. cbn [option_map] in Hs. congruence.
Qed.
