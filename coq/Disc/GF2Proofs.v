(* C50: lemmas about the GF(2) model (Disc/GF2Model.v).
   Row spaces are the inductive closure `span`; both eliminations are compositions of the one row operation elim_row
   (and of row swaps), each of which keeps the row space because it can be undone.  The echelon loops carry the
   invariants good (shape, row space, zeros below and to the left of the cursor) and pinv (rows above the cursor own
   a unit pivot column); solve reads (I|x) off the echelon form of (A|b); rank builds a triangular, hence
   independent, family with the same row space. *)
From Coq Require Import List ZArith Bool Arith Lia.
From PLV Require Import Alg.ListFacts Disc.GF2Model.
Import ListNotations.

Definition zeros (n : nat) : row := repeat false n.
Definition rect (n : nat) (M : matrix) : Prop := Forall (fun r => length r = n) M.

(* the GF(2) row space of A (vectors of width n): closure of the rows under 0 and xor *)
Inductive span (n : nat) (A : matrix) : row -> Prop :=
| sp_zero : span n A (zeros n)
| sp_in : forall r, In r A -> span n A r
| sp_xor : forall u v, span n A u -> span n A v -> span n A (xorv u v).

Definition sub (n : nat) (A B : matrix) : Prop := forall r, In r A -> span n B r.
(* same row space *)
Definition row_equiv (n : nat) (A B : matrix) : Prop := sub n B A /\ sub n A B.

Lemma xorv_length : forall a b, length a = length b -> length (xorv a b) = length a.
Proof.
  induction a as [|x a IH]; intros [|y b] H; simpl in *; try discriminate; auto.
Qed.

Lemma xorv_zeros_r : forall a, xorv a (zeros (length a)) = a.
Proof.
  unfold zeros. induction a as [|x a IH]; simpl; auto.
  rewrite xorb_false_r, IH. reflexivity.
Qed.

Lemma xorv_zeros_l : forall a, xorv (zeros (length a)) a = a.
Proof. unfold zeros. induction a as [|x a IH]; simpl; auto. rewrite IH. destruct x; reflexivity. Qed.

Lemma xorv_cancel : forall a b, length a = length b -> xorv (xorv a b) b = a.
Proof.
  induction a as [|x a IH]; intros [|y b] H; simpl in *; try discriminate; auto.
  rewrite IH by lia. f_equal. destruct x, y; reflexivity.
Qed.

Lemma xorv_app : forall a1 b1 a2 b2, length a1 = length b1 ->
  xorv (a1 ++ a2) (b1 ++ b2) = xorv a1 b1 ++ xorv a2 b2.
Proof.
  induction a1 as [|x a IH]; intros [|y b] a2 b2 H; simpl in *; try discriminate; auto.
  rewrite IH by lia. reflexivity.
Qed.

Lemma nth_xorv : forall a b j, length a = length b ->
  nth j (xorv a b) false = xorb (nth j a false) (nth j b false).
Proof.
  induction a as [|x a IH]; intros [|y b] j H; simpl in *; try discriminate.
  - destruct j; reflexivity.
  - destruct j; auto.
Qed.

Lemma zeros_length : forall n, length (zeros n) = n.
Proof. intros. apply repeat_length. Qed.

Lemma nth_zeros : forall n l, nth l (zeros n) false = false.
Proof. intros. apply nth_repeat. Qed.

Lemma set_nth_length : forall A (l : list A) i x, length (set_nth l i x) = length l.
Proof. induction l; destruct i; simpl; auto. Qed.

Lemma nth_set_nth_eq : forall A (l : list A) i x d, i < length l -> nth i (set_nth l i x) d = x.
Proof. induction l; destruct i; simpl; intros; try lia; auto. apply IHl; lia. Qed.

Lemma nth_set_nth_neq : forall A (l : list A) i j x d, j <> i -> nth j (set_nth l i x) d = nth j l d.
Proof. induction l; destruct i, j; simpl; intros; try lia; auto. Qed.

Lemma In_set_nth : forall A (l : list A) i x y, In y (set_nth l i x) -> y = x \/ In y l.
Proof.
  induction l as [|h t IH]; intros i x y H; destruct i; simpl in H; try contradiction.
  - destruct H; [left; auto | right; right; auto].
  - destruct H as [H|H]; [right; left; auto|].
    apply IH in H. destruct H; [left | right; right]; auto.
Qed.

Lemma map2_length : forall {A B C} (f : A -> B -> C) a b,
  length (map2 f a b) = Nat.min (length a) (length b).
Proof. induction a; destruct b; simpl; auto. Qed.

Lemma nth_map2 : forall {A B C} (f : A -> B -> C) a b i da db dc,
  i < length a -> i < length b -> nth i (map2 f a b) dc = f (nth i a da) (nth i b db).
Proof.
  induction a; destruct b; simpl; intros; try lia.
  destruct i; auto. apply IHa; lia.
Qed.

Lemma firstn_low : forall c r, (forall j, j < c -> nth j r false = false) ->
  firstn c r = zeros (Nat.min c (length r)).
Proof.
  unfold zeros. induction c; intros r H; simpl; auto.
  destruct r as [|b r]; simpl; auto.
  pose proof (H 0 ltac:(lia)) as H0. simpl in H0. subst b.
  f_equal. apply IHc. intros j Hj. apply (H (S j)). lia.
Qed.

Lemma map_andb : forall c l, map (andb c) l = if c then l else zeros (length l).
Proof. unfold zeros. intros c l. destruct c; induction l; simpl; congruence. Qed.

Lemma column_length : forall M j, length (column M j) = length M.
Proof. intros. apply map_length. Qed.

Lemma nth_column : forall M j i, nth i (column M j) false = getb M i j.
Proof.
  unfold column, getb.
  induction M as [|r M IH]; intros j i; destruct i; simpl; auto; destruct j; reflexivity.
Qed.

Lemma getb_overflow : forall M a j, length M <= a -> getb M a j = false.
Proof. intros. unfold getb. rewrite (nth_overflow M []) by auto. destruct j; reflexivity. Qed.

Lemma getb_skipn : forall M i a j, getb (skipn i M) a j = getb M (i + a) j.
Proof. intros. unfold getb. rewrite nth_skipn. reflexivity. Qed.

Lemma first_true_some : forall l k, first_true l = Some k -> k < length l /\ nth k l false = true.
Proof.
  induction l as [|a l IH]; simpl; intros k H; try discriminate.
  destruct a.
  - injection H as <-. split; [lia | auto].
  - destruct (first_true l) eqn:E; simpl in H; try discriminate.
    injection H as <-. destruct (IH n eq_refl). split; [lia | auto].
Qed.

Lemma first_true_none : forall l, first_true l = None -> forall j, nth j l false = false.
Proof.
  induction l as [|a l IH]; simpl; intros H j.
  - destruct j; auto.
  - destruct a; try discriminate.
    destruct (first_true l) eqn:E; simpl in H; try discriminate.
    destruct j; auto.
Qed.

Lemma forall_rows : forall (P : row -> Prop) (M : matrix),
  (forall a, a < length M -> P (nth a M [])) -> forall r, In r M -> P r.
Proof. intros P M H r Hr. destruct (In_nth _ _ [] Hr) as (a & Ha & <-). auto. Qed.

Lemma rect_In : forall n M r, rect n M -> In r M -> length r = n.
Proof. intros n M r R. revert r. apply Forall_forall. exact R. Qed.

Lemma rect_nth : forall n M i, rect n M -> i < length M -> length (nth i M []) = n.
Proof. intros n M i R Hi. apply (rect_In n M); auto using nth_In. Qed.

Lemma rect_rows : forall n M, (forall a, a < length M -> length (nth a M []) = n) -> rect n M.
Proof. intros n M H. apply Forall_forall, forall_rows, H. Qed.

Lemma span_length : forall n A v, rect n A -> span n A v -> length v = n.
Proof.
  intros n A v R H. induction H.
  - apply zeros_length.
  - apply (rect_In n A); auto.
  - rewrite xorv_length; lia.
Qed.

Lemma span_nth : forall n A a, a < length A -> span n A (nth a A []).
Proof. intros. apply sp_in, nth_In. auto. Qed.

Lemma span_sub : forall n A B v, sub n A B -> span n A v -> span n B v.
Proof.
  intros n A B v S H. induction H; [apply sp_zero | apply S; auto | apply sp_xor; auto].
Qed.

(* a linear functional that vanishes on the rows of A vanishes on their span *)
Lemma span_linear : forall n A (f : row -> bool), rect n A -> f (zeros n) = false ->
  (forall u v, length u = length v -> f (xorv u v) = xorb (f u) (f v)) ->
  (forall r, In r A -> f r = false) -> forall v, span n A v -> f v = false.
Proof.
  intros n A f R F0 FX FA v S. induction S; auto.
  rewrite FX, IHS1, IHS2 by (rewrite !(span_length n A); auto). reflexivity.
Qed.

Lemma span_bit_zero : forall n l A v, rect n A -> (forall r, In r A -> nth l r false = false) ->
  span n A v -> nth l v false = false.
Proof.
  intros n l A v R Z. apply (span_linear n A (fun r => nth l r false)); auto.
  - apply nth_zeros.
  - intros. apply nth_xorv. auto.
Qed.

Lemma sub_rows : forall n A B, (forall a, a < length A -> span n B (nth a A [])) -> sub n A B.
Proof. intros n A B. exact (forall_rows (span n B) A). Qed.

Lemma sub_refl : forall n A, sub n A A.
Proof. intros n A r H. apply sp_in. auto. Qed.

Lemma sub_trans : forall n A B C, sub n A B -> sub n B C -> sub n A C.
Proof. intros n A B C H1 H2 r H. eapply span_sub; eauto. Qed.

Lemma sub_incl : forall n A B, incl A B -> sub n A B.
Proof. intros n A B H r Hr. apply sp_in. auto. Qed.

Lemma sub_cons : forall n p A B, sub n A B -> sub n (p :: A) (p :: B).
Proof.
  intros n p A B S r [<-|H]; [apply sp_in; left; auto|].
  apply (span_sub n B); [apply sub_incl, incl_tl, incl_refl | auto].
Qed.

Lemma row_equiv_refl : forall n A, row_equiv n A A.
Proof. intros; split; apply sub_refl. Qed.

Lemma row_equiv_trans : forall n A B C, row_equiv n A B -> row_equiv n B C -> row_equiv n A C.
Proof. intros n A B C [H1 H2] [H3 H4]. split; eapply sub_trans; eauto. Qed.

(* xor the row p onto r if c is set: the elementary row operation of both eliminations *)
Definition elim_row (p r : row) (c : bool) : row := if c then xorv r p else r.

Lemma elim_row_length : forall p r c, length r = length p -> length (elim_row p r c) = length r.
Proof. intros p r [] H; simpl; auto using xorv_length. Qed.

Lemma nth_elim_row : forall p r c j, length r = length p ->
  nth j (elim_row p r c) false = xorb (nth j r false) (c && nth j p false).
Proof. intros p r [] j H; simpl; [apply nth_xorv; auto | symmetry; apply xorb_false_r]. Qed.

Lemma elim_row_span : forall n A p r c, span n A p -> span n A r -> span n A (elim_row p r c).
Proof. intros n A p r [] Hp Hr; simpl; auto using sp_xor. Qed.

Lemma elim_row_twice : forall p r c, length r = length p -> elim_row p (elim_row p r c) c = r.
Proof. intros p r [] H; simpl; auto using xorv_cancel. Qed.

Definition transp (i k a : nat) : nat := if a =? k then i else if a =? i then k else a.

Lemma transp_l : forall i k, transp i k i = k.
Proof. intros. unfold transp. rewrite Nat.eqb_refl. destruct (Nat.eqb_spec i k); auto. Qed.

Lemma transp_other : forall i k a, a <> i -> a <> k -> transp i k a = a.
Proof. intros. unfold transp. destruct (Nat.eqb_spec a k), (Nat.eqb_spec a i); congruence. Qed.

Lemma transp_twice : forall i k a, transp i k (transp i k a) = a.
Proof.
  intros. unfold transp at 2. destruct (Nat.eqb_spec a k) as [->|Nk]; [apply transp_l|].
  destruct (Nat.eqb_spec a i) as [->|Ni]; [|apply transp_other; auto].
  unfold transp. rewrite Nat.eqb_refl. reflexivity.
Qed.

Lemma transp_lt : forall i k a m, i < m -> k < m -> a < m -> transp i k a < m.
Proof. intros. unfold transp. destruct (a =? k); [|destruct (a =? i)]; auto. Qed.

Definition swap_rows (M : matrix) (i k : nat) : matrix :=
  set_nth (set_nth M i (nth k M [])) k (nth i M []).

(* the slice swap is a swap of whole rows when both are zero left of the slice *)
Lemma swap_slice_eq : forall n M i k c, rect n M -> i < length M -> k < length M ->
  (forall j, j < c -> getb M i j = false) -> (forall j, j < c -> getb M k j = false) ->
  swap_slice M i k c = swap_rows M i k.
Proof.
  intros n M i k c R Hi Hk Zi Zk. unfold swap_slice, swap_rows.
  assert (E : firstn c (nth i M []) = firstn c (nth k M [])).
  { rewrite (firstn_low c _ Zi), (firstn_low c _ Zk), !(rect_nth n) by auto. reflexivity. }
  rewrite E, firstn_skipn, <- E, firstn_skipn. reflexivity.
Qed.

Lemma swap_rows_length : forall M i k, length (swap_rows M i k) = length M.
Proof. intros. unfold swap_rows. rewrite !set_nth_length. reflexivity. Qed.

Lemma nth_swap_rows : forall M i k a, i < length M -> k < length M ->
  nth a (swap_rows M i k) [] = nth (transp i k a) M [].
Proof.
  intros M i k a Hi Hk. unfold swap_rows, transp.
  destruct (Nat.eqb_spec a k) as [->|Nk].
  - apply nth_set_nth_eq. rewrite set_nth_length. auto.
  - rewrite nth_set_nth_neq by auto.
    destruct (Nat.eqb_spec a i) as [->|Ni]; [apply nth_set_nth_eq | apply nth_set_nth_neq]; auto.
Qed.

Lemma getb_swap_rows : forall M i k a j, i < length M -> k < length M ->
  getb (swap_rows M i k) a j = getb M (transp i k a) j.
Proof. intros. unfold getb. rewrite nth_swap_rows by auto. reflexivity. Qed.

Lemma swap_rows_equiv : forall n M i k, i < length M -> k < length M ->
  row_equiv n M (swap_rows M i k).
Proof.
  intros n M i k Hi Hk. split; apply sub_rows; intros a Ha.
  - rewrite swap_rows_length in Ha. rewrite nth_swap_rows by auto. apply span_nth, transp_lt; auto.
  - rewrite <- (transp_twice i k a), <- nth_swap_rows by auto.
    apply span_nth. rewrite swap_rows_length. apply transp_lt; auto.
Qed.

(* the outer-product xor update is: every other row with a 1 in the pivot column ^= pivot row *)
Lemma elim_f_eq : forall icol p r c, length r = length p ->
  (forall j, j < icol -> nth j p false = false) ->
  firstn icol r ++ xorv (skipn icol r) (map (andb c) (skipn icol p)) = elim_row p r c.
Proof.
  intros icol p r c L Z. rewrite map_andb. destruct c; simpl.
  - rewrite <- (firstn_skipn icol r) at 3. rewrite <- (firstn_skipn icol p) at 2.
    rewrite xorv_app by (rewrite !firstn_length; lia).
    f_equal. rewrite (firstn_low icol p Z).
    replace (Nat.min icol (length p)) with (length (firstn icol r)) by (rewrite firstn_length; lia).
    symmetry. apply xorv_zeros_r.
  - replace (length (skipn icol p)) with (length (skipn icol r)) by (rewrite !skipn_length; lia).
    rewrite xorv_zeros_r. apply firstn_skipn.
Qed.

Lemma elim_step_length : forall M irow icol, length (elim_step M irow icol) = length M.
Proof.
  intros. unfold elim_step. rewrite map2_length, set_nth_length, column_length. apply Nat.min_id.
Qed.

Lemma nth_elim : forall n M irow icol a, rect n M -> irow < length M -> a < length M ->
  (forall j, j < icol -> getb M irow j = false) ->
  nth a (elim_step M irow icol) [] =
  elim_row (nth irow M []) (nth a M []) (if a =? irow then false else getb M a icol).
Proof.
  intros n M irow icol a R Hi Ha Z. unfold elim_step. cbv zeta.
  rewrite (nth_map2 _ _ _ a [] false []), elim_f_eq;
    rewrite ?set_nth_length, ?column_length, ?(rect_nth n); auto.
  f_equal. destruct (Nat.eqb_spec a irow) as [->|N].
  - apply nth_set_nth_eq. rewrite column_length. auto.
  - rewrite nth_set_nth_neq by auto. apply nth_column.
Qed.

Lemma getb_elim : forall n M irow icol a j, rect n M -> irow < length M ->
  (forall j, j < icol -> getb M irow j = false) ->
  getb (elim_step M irow icol) a j =
  xorb (getb M a j) ((if a =? irow then false else getb M a icol) && getb M irow j).
Proof.
  intros n M irow icol a j R Hi Z.
  destruct (lt_dec a (length M)) as [Ha|Ha].
  - unfold getb at 1. rewrite (nth_elim n), nth_elim_row by (rewrite ?(rect_nth n); auto). reflexivity.
  - rewrite (getb_overflow (elim_step M irow icol)) by (rewrite elim_step_length; lia).
    rewrite !(getb_overflow M a) by lia. destruct (a =? irow); reflexivity.
Qed.

(* rows irow.. are zero left of column icol *)
Definition lowzero (M : matrix) (irow icol : nat) : Prop :=
  forall i j, irow <= i -> j < icol -> getb M i j = false.

(* invariant of the echelon loops at cursor (irow, icol), M0 being the input: it is what makes the slice swap and
   the slice update of the code operations on whole rows *)
Definition good (n : nat) (M0 M : matrix) (irow icol : nat) : Prop :=
  rect n M /\ length M = length M0 /\ row_equiv n M0 M /\ lowzero M irow icol.

Definition unitcol (M : matrix) (c k : nat) : Prop := forall a, getb M a c = (a =? k).

(* row k either owns a pivot column c (a unit column, k <= c, zeros to its left) or is zero *)
Definition pivrow (nc : nat) (M : matrix) (icol k : nat) : Prop :=
  (exists c, k <= c /\ c < icol /\ c < nc /\ unitcol M c k /\ forall j, j < c -> getb M k j = false)
  \/ (nc <= icol /\ forall j, j < nc -> getb M k j = false).

(* second invariant: the rows above the cursor are finished; irow <= icol (until the columns run out) is what
   gives k <= c in pivrow *)
Definition pinv (nc : nat) (M : matrix) (irow icol : nat) : Prop :=
  (irow <= icol \/ nc <= icol) /\ forall k, k < irow -> pivrow nc M icol k.

Lemma good_init : forall n M, rect n M -> good n M M 0 0.
Proof. intros n M R. repeat split; auto; try apply row_equiv_refl. intros a j _ Hj. lia. Qed.

Lemma pinv_init : forall nc M, pinv nc M 0 0.
Proof. intros. split; [lia | intros k Hk; lia]. Qed.

(* a pivot row stays one when its entries left of icol and the unit columns left of icol are kept *)
Lemma pivrow_ext : forall nc M M' icol icol' k, icol <= icol' ->
  (forall c, c < icol -> unitcol M c k -> unitcol M' c k) ->
  (forall j, j < icol -> getb M' k j = getb M k j) ->
  pivrow nc M icol k -> pivrow nc M' icol' k.
Proof.
  intros nc M M' icol icol' k Hle HU HR [(c & H1 & H2 & H3 & U & Z)|[H1 Z]]; [left; exists c | right];
    repeat split; auto; try lia; intros j Hj; rewrite HR by lia; auto.
Qed.

Lemma swap_good : forall n M0 M irow icol k,
  good n M0 M irow icol -> irow <= k -> k < length M -> good n M0 (swap_rows M irow k) irow icol.
Proof.
  intros n M0 M irow icol k (R & L & EQ & LZ) Hik Hk.
  assert (Hi : irow < length M) by lia.
  split; [|split; [|split]].
  - apply rect_rows. intros a Ha. rewrite swap_rows_length in Ha.
    rewrite nth_swap_rows by auto. apply rect_nth, transp_lt; auto.
  - rewrite swap_rows_length. auto.
  - apply (row_equiv_trans n M0 M); [exact EQ | apply swap_rows_equiv; auto].
  - intros a j Ha Hj. rewrite getb_swap_rows by auto. apply LZ; auto.
    unfold transp. destruct (a =? k); [|destruct (a =? irow)]; auto.
Qed.

Lemma swap_pinv : forall nc M irow icol k,
  pinv nc M irow icol -> irow <= k -> k < length M -> pinv nc (swap_rows M irow k) irow icol.
Proof.
  intros nc M irow icol k [P1 P2] Hik Hk.
  assert (Hi : irow < length M) by lia.
  split; auto. intros k0 Hk0. apply (pivrow_ext nc M _ icol); auto.
  - (* rows above irow do not move *)
    intros c _ U a. rewrite getb_swap_rows, U by auto.
    destruct (Nat.eqb_spec a k0) as [->|N].
    + rewrite transp_other by lia. apply Nat.eqb_refl.
    + apply Nat.eqb_neq. intros E. apply N.
      rewrite <- (transp_twice irow k a), E. apply transp_other; lia.
  - intros j _. rewrite getb_swap_rows, transp_other by lia. reflexivity.
Qed.

Lemma good_col_step : forall n M0 M irow icol, good n M0 M irow icol ->
  first_true (column (skipn irow M) icol) = None -> good n M0 M irow (S icol).
Proof.
  intros n M0 M irow icol (R & L & EQ & LZ) FT. repeat split; auto; try apply EQ.
  intros a j Ha Hj. destruct (Nat.eq_dec j icol) as [->|Nj]; [|apply LZ; auto; lia].
  pose proof (first_true_none _ FT (a - irow)) as Z.
  rewrite nth_column, getb_skipn in Z. replace (irow + (a - irow)) with a in Z by lia. exact Z.
Qed.

Lemma pinv_col_step : forall nc M irow icol, pinv nc M irow icol -> pinv nc M irow (S icol).
Proof.
  intros nc M irow icol [P1 P2]. split; [lia|].
  intros k Hk. apply (pivrow_ext nc M M icol); auto.
Qed.

Lemma good_row_step : forall n M0 M irow icol, good n M0 M irow icol -> good n M0 M (S irow) icol.
Proof.
  intros n M0 M irow icol (R & L & EQ & LZ). repeat split; auto; try apply EQ.
  intros a j Ha Hj. apply LZ; lia.
Qed.

Lemma pinv_row_step : forall n M0 nc M irow icol,
  good n M0 M irow icol -> pinv nc M irow icol -> nc <= icol -> pinv nc M (S irow) icol.
Proof.
  intros n M0 nc M irow icol (R & L & EQ & LZ) [P1 P2] Hc. split; [right; auto|].
  intros k Hk. destruct (Nat.eq_dec k irow) as [->|Nk].
  - right. split; auto. intros j Hj. apply LZ; lia.
  - apply P2. lia.
Qed.

Lemma elim_good : forall n M0 M irow icol,
  good n M0 M irow icol -> irow < length M -> getb M irow icol = true ->
  good n M0 (elim_step M irow icol) (S irow) (S icol).
Proof.
  intros n M0 M irow icol (R & L & EQ & LZ) Hi PV.
  set (E := elim_step M irow icol). set (p := nth irow M []).
  set (c := fun a => if a =? irow then false else getb M a icol).
  assert (LE : length E = length M) by apply elim_step_length.
  assert (NTH : forall a, a < length M -> nth a E [] = elim_row p (nth a M []) (c a))
    by (intros; apply (nth_elim n); auto).
  assert (Lp : forall a, a < length M -> length (nth a M []) = length p)
    by (intros; unfold p; rewrite !(rect_nth n); auto).
  assert (NP : nth irow E [] = p) by (rewrite NTH by auto; unfold c; rewrite Nat.eqb_refl; reflexivity).
  split; [|split; [|split]].
  - apply rect_rows. intros a Ha. rewrite LE in Ha.
    rewrite NTH, elim_row_length by auto. apply rect_nth; auto.
  - lia.
  - apply (row_equiv_trans n M0 M); [exact EQ|]. split; apply sub_rows; intros a Ha.
    + rewrite LE in Ha. rewrite NTH by auto. apply elim_row_span; apply span_nth; auto.
    + (* undo the operation with the pivot row, which is unchanged *)
      rewrite <- (elim_row_twice p (nth a M []) (c a)), <- NTH, <- NP by auto.
      apply elim_row_span; apply span_nth; lia.
  - intros a j Ha Hj. unfold E. rewrite (getb_elim n) by auto.
    destruct (Nat.eqb_spec a irow) as [|_]; [lia|].
    destruct (Nat.eq_dec j icol) as [->|Nj].
    + rewrite PV, andb_true_r. apply xorb_nilpotent.
    + rewrite (LZ a j), (LZ irow j), andb_false_r by lia. reflexivity.
Qed.

Lemma elim_pinv : forall n M0 nc M irow icol,
  good n M0 M irow icol -> pinv nc M irow icol -> irow < length M -> icol < nc ->
  getb M irow icol = true -> pinv nc (elim_step M irow icol) (S irow) (S icol).
Proof.
  intros n M0 nc M irow icol (R & L & EQ & LZ) [P1 P2] Hi Hc PV.
  assert (GE : forall a j, getb (elim_step M irow icol) a j =
     xorb (getb M a j) ((if a =? irow then false else getb M a icol) && getb M irow j))
    by (intros; apply (getb_elim n); auto).
  split; [left; lia|].
  intros k Hk. destruct (Nat.eq_dec k irow) as [->|Nk].
  - left. exists icol. split; [lia|]. split; [lia|]. split; [auto|]. split.
    + intros a. rewrite GE, PV, andb_true_r. 
      destruct (Nat.eqb_spec a irow) as [->|_]; [rewrite xorb_false_r; exact PV | apply xorb_nilpotent].
    + intros j Hj. rewrite GE, Nat.eqb_refl. rewrite xorb_false_r. apply LZ; auto.
  - apply (pivrow_ext nc M _ icol); [lia | | | apply P2; lia].
    + intros c Hci U a. rewrite GE, (U irow), (proj2 (Nat.eqb_neq irow k)) by lia.
      rewrite andb_false_r, xorb_false_r. apply U.
    + intros j Hj. rewrite GE, (LZ irow j) by lia. rewrite andb_false_r. apply xorb_false_r.
Qed.

(* the pivot search ends, within nc - icol + 2 steps (one less if the pivot is already there),
   in a state that satisfies the invariant and has a pivot at (irow, icol1) unless icol1 = nc *)
Lemma find_pivot_spec : forall n M0 nc fuel M irow icol,
  good n M0 M irow icol -> pinv nc M irow icol -> irow < length M ->
  nc - icol + (if getb M irow icol then 1 else 2) <= fuel ->
  exists M1 icol1, find_pivot fuel M irow icol nc = Some (M1, icol1) /\
    good n M0 M1 irow icol1 /\ pinv nc M1 irow icol1 /\
    (icol1 <? nc) && negb (getb M1 irow icol1) = false.
Proof.
  intros n M0 nc. induction fuel as [|f IH]; intros M irow icol G P Hi Hf.
  { destruct (getb M irow icol); lia. }
  cbn [find_pivot]. destruct ((icol <? nc) && negb (getb M irow icol)) eqn:C; [|eauto 6].
  apply andb_true_iff in C. destruct C as [C1 C2].
  apply Nat.ltb_lt in C1. apply negb_true_iff in C2. rewrite C2 in Hf.
  destruct (first_true (column (skipn irow M) icol)) as [k|] eqn:FT.
  - apply first_true_some in FT. destruct FT as [Hk Ek].
    rewrite column_length, skipn_length in Hk. rewrite nth_column, getb_skipn in Ek.
    rewrite (swap_slice_eq n) by (try apply G; try lia; intros; apply G; lia).
    apply IH.
    + apply swap_good; auto; lia.
    + apply swap_pinv; auto; lia.
    + rewrite swap_rows_length. auto.
    + rewrite getb_swap_rows, transp_l, Ek by lia. lia.
  - apply IH; auto.
    + apply good_col_step; auto.
    + apply pinv_col_step; auto.
    + destruct (getb M irow (S icol)); lia.
Qed.

Lemma rref_rows_spec : forall n M0 nc todo irow icol M,
  good n M0 M irow icol -> pinv nc M irow icol -> irow + todo = length M ->
  exists R icolf, rref_rows todo irow icol nc M = Some R /\
    good n M0 R (length M0) icolf /\ pinv nc R (length M0) icolf.
Proof.
  intros n M0 nc. induction todo as [|t IH]; intros irow icol M G P HL; cbn [rref_rows].
  - exists M, icol. replace (length M0) with irow by (destruct G as (_ & L & _); lia). auto.
  - destruct (find_pivot_spec n M0 nc (S (S nc)) M irow icol G P) as (M1 & icol1 & -> & G1 & P1 & EX);
      [lia | destruct (getb M irow icol); lia |].
    assert (L1 : length M1 = length M) by (destruct G as (_ & ? & _), G1 as (_ & ? & _); lia).
    destruct ((icol1 <? nc) && getb M1 irow icol1) eqn:C.
    + apply andb_true_iff in C. destruct C as [C1 C2]. apply Nat.ltb_lt in C1.
      apply IH; [apply elim_good | apply (elim_pinv n M0) | rewrite elim_step_length]; auto; lia.
    + assert (nc <= icol1).
      { destruct (Nat.ltb_spec icol1 nc); [|auto]. destruct (getb M1 irow icol1); discriminate. }
      apply IH; [apply good_row_step | apply (pinv_row_step n M0) | lia]; auto.
Qed.

Lemma rref_spec : forall n M, rect n M ->
  exists R icolf, rref M = Some R /\
    good n M R (length M) icolf /\ pinv (ncols M) R (length M) icolf.
Proof.
  intros n M RC. apply rref_rows_spec; auto using good_init, pinv_init.
Qed.

(* rref never runs out of fuel *)
Lemma rref_total_lemma : forall n M, rect n M -> exists R, rref M = Some R.
Proof. intros n M RC. destruct (rref_spec n M RC) as (R & _ & E & _). eauto. Qed.

Lemma rref_row_equiv_lemma : forall n M R, rect n M -> rref M = Some R ->
  rect n R /\ length R = length M /\ row_equiv n M R.
Proof.
  intros n M R RC H. destruct (rref_spec n M RC) as (R' & icolf & E & (R1 & L & EQ & _) & _).
  rewrite H in E. injection E as <-. auto.
Qed.

Lemma rref_structure_lemma : forall n M R, rect n M -> rref M = Some R ->
  forall k, k < length M ->
    (exists c, k <= c /\ c < ncols M /\ unitcol R c k /\ forall j, j < c -> getb R k j = false)
    \/ (forall j, j < ncols M -> getb R k j = false).
Proof.
  intros n M R RC H k Hk. destruct (rref_spec n M RC) as (R' & icolf & E & _ & _ & PV).
  rewrite H in E. injection E as <-.
  destruct (PV k Hk) as [(c & H1 & H2 & H3 & U & Z)|[H1 Z]]; [left; exists c|]; auto.
Qed.

(* if the first m columns (m = number of rows) contain a pivot for every row, they form the identity: downwards
   from the last row (d bounds m - k), a pivot column c > k of row k would also be the unit column of row c *)
Lemma diag_unit : forall (R : matrix) m,
  (forall k, k < m -> exists c, k <= c /\ c < m /\ unitcol R c k) ->
  forall d k, k < m -> m - k <= d -> unitcol R k k.
Proof.
  intros R m H. induction d as [|d IH]; intros k Hk Hd; [lia|].
  destruct (H k Hk) as (c & H1 & H2 & U).
  destruct (Nat.eq_dec c k) as [->|N]; auto.
  assert (Uc : unitcol R c c) by (apply IH; lia).
  pose proof (Uc c) as E1. pose proof (U c) as E2.
  rewrite Nat.eqb_refl in E1. rewrite (proj2 (Nat.eqb_neq c k)) in E2 by lia. congruence.
Qed.

Fixpoint dot (a x : list bool) : bool :=
  match a, x with
  | u :: a', v :: x' => xorb (u && v) (dot a' x')
  | _, _ => false
  end.

Lemma dot_xorv : forall u v y, length u = length v -> dot (xorv u v) y = xorb (dot u y) (dot v y).
Proof.
  induction u as [|a u IH]; intros [|b v] y H; simpl in *; try discriminate; auto.
  destruct y as [|c y]; simpl; auto.
  rewrite IH by lia. destruct a, b, c, (dot u y), (dot v y); reflexivity.
Qed.

Lemma dot_zeros : forall k y, dot (zeros k) y = false.
Proof.
  unfold zeros. induction k as [|k IH]; intros [|b y]; simpl; auto.
  rewrite IH. reflexivity.
Qed.

Lemma dot_span : forall n R y v, rect n R -> (forall r, In r R -> dot r y = false) ->
  span n R v -> dot v y = false.
Proof.
  intros n R y v RC H. apply (span_linear n R (fun r => dot r y)); auto.
  - apply dot_zeros.
  - intros. apply dot_xorv. auto.
Qed.

Lemma dot_app1 : forall a x beta, length a = length x ->
  dot (a ++ [beta]) (x ++ [true]) = xorb (dot a x) beta.
Proof.
  induction a as [|u a IH]; intros [|v x] beta H; simpl in *; try discriminate.
  - destruct beta; reflexivity.
  - rewrite IH by lia. symmetry. apply xorb_assoc.
Qed.

Lemma dot_snoc : forall x r v, dot r (x ++ [v]) = xorb (dot r x) (nth (length x) r false && v).
Proof.
  induction x as [|u x IH]; intros [|a r] v; simpl; auto.
  - destruct r; apply xorb_comm.
  - rewrite IH. symmetry. apply xorb_assoc.
Qed.

(* against the unit vector e_k (as far as x reaches) the product reads off x_k *)
Lemma dot_unit : forall x r k, length x <= length r ->
  (forall j, j < length x -> nth j r false = (k =? j)) -> dot r x = nth k x false.
Proof.
  induction x as [|v x IH]; intros [|a r] k L Z; simpl in *; try lia; try (destruct k; reflexivity).
  pose proof (Z 0 ltac:(lia)) as Z0. destruct k as [|k]; simpl in Z0; subst a.
  - rewrite andb_true_l, (IH r (length x)), nth_overflow by
      (try lia; intros j Hj; rewrite (Z (S j)) by lia; symmetry; apply Nat.eqb_neq; lia).
    apply xorb_false_r.
  - rewrite andb_false_l, xorb_false_l. apply (IH r k); [lia|]. intros j Hj. apply (Z (S j)). lia.
Qed.

Lemma hstack_length : forall A b, length A = length b -> length (hstack_col A b) = length A.
Proof. intros. unfold hstack_col. rewrite map2_length. lia. Qed.

Lemma hstack_rect : forall n A b, rect n A -> rect (S n) (hstack_col A b).
Proof.
  unfold rect, hstack_col. induction A as [|a A IH]; intros [|x b] H; simpl; constructor.
  - rewrite app_length. inversion H; subst. simpl. lia.
  - apply IH. inversion H; auto.
Qed.

Lemma hstack_forall2 : forall n x A b, length x = n -> rect n A -> length A = length b ->
  (forall r, In r (hstack_col A b) -> dot r (x ++ [true]) = false) ->
  Forall2 (fun a beta => dot a x = beta) A b.
Proof.
  unfold rect, hstack_col. intros n x. induction A as [|a A IH]; intros [|beta b] Lx R L H; simpl in *; try discriminate; constructor.
  - inversion R; subst. specialize (H (a ++ [beta]) (or_introl eq_refl)).
    rewrite dot_app1 in H by lia. apply xorb_eq. exact H.
  - inversion R; subst. apply IH; auto.
Qed.

Lemma hstack_forall2_inv : forall n x A b, length x = n -> rect n A ->
  Forall2 (fun a beta => dot a x = beta) A b ->
  forall r, In r (hstack_col A b) -> dot r (x ++ [true]) = false.
Proof.
  unfold rect, hstack_col. intros n x A b Lx R F. induction F as [|a beta A b E F IH]; intros r Hr; simpl in Hr; [contradiction|].
  inversion R; subst. destruct Hr as [<-|Hr].
  - rewrite dot_app1 by lia. apply xorb_nilpotent.
  - apply IH; auto.
Qed.

Lemma existsb_removelast : forall (r : list bool), existsb (fun x => x) (removelast r) = true ->
  exists j, S j < length r /\ nth j r false = true.
Proof.
  induction r as [|a r IH]; [discriminate|]. destruct r as [|b r]; [discriminate|].
  cbn [removelast existsb]. intros H. apply orb_true_iff in H. destruct H as [->|H].
  - exists 0. simpl. split; [lia | auto].
  - destruct (IH H) as (j & Hj & Ej). exists (S j). simpl in *. split; [lia | auto].
Qed.

Lemma last_nth_len : forall (r : list bool) n, length r = S n -> last r false = nth n r false.
Proof.
  induction r as [|a r IH]; intros n L; simpl in *; try discriminate.
  destruct r as [|b r]; destruct n; simpl in *; try discriminate; auto.
Qed.

(* an accepted system: the echelon form of (A|b) is (I|x) *)
Lemma solve_structure : forall n A b x, rect n A -> length A = n -> solve A b = Ok x ->
  length A = length b /\
  exists R, rect (S n) R /\ length R = n /\ row_equiv (S n) (hstack_col A b) R /\
            x = map (fun r => last r false) R /\
            (forall k j, k < n -> j < n -> getb R k j = (k =? j)).
Proof.
  intros n A b x RA LA H. unfold solve in H.
  destruct (negb (length A =? length b)) eqn:LB; try discriminate.
  apply negb_false_iff, Nat.eqb_eq in LB.
  destruct (rref (hstack_col A b)) as [R|] eqn:RR; try discriminate.
  destruct (existsb (fun r => negb (existsb (fun x => x) (removelast r))) R) eqn:EX; try discriminate.
  injection H as <-.
  pose proof (hstack_rect n A b RA) as RAug.
  destruct (rref_row_equiv_lemma (S n) _ R RAug RR) as (RR1 & LR & EQ).
  pose proof (rref_structure_lemma (S n) _ R RAug RR) as PV.
  rewrite hstack_length, LA in LR, PV by auto.
  split; auto. exists R. repeat split; auto; try apply EQ.
  destruct A as [|a0 A'].
  { simpl in LA. subst n. intros; lia. }
  destruct b as [|b0 b']; [simpl in LB; discriminate|].
  replace (ncols (hstack_col (a0 :: A') (b0 :: b'))) with (S n) in PV.
  2:{ unfold ncols. simpl. rewrite app_length, (rect_In n (a0 :: A') a0); simpl; auto; lia. }
  (* every row has a 1 among its first n entries, so its pivot column is among the first n *)
  assert (PC : forall k, k < n -> exists c, k <= c /\ c < n /\ unitcol R c k).
  { intros k Hk.
    pose proof (existsb_nth _ R [] (n := k) ltac:(lia) EX) as E.
    apply negb_false_iff, existsb_removelast in E. destruct E as (j & Hj & Ej).
    rewrite (rect_nth (S n) R k) in Hj by (auto; lia). fold (getb R k j) in Ej.
    destruct (PV k Hk) as [(c & H1 & H2 & U & Z)|Z]; [|rewrite Z in Ej by lia; discriminate].
    exists c. repeat split; auto.
    destruct (Nat.eq_dec c n) as [->|]; [|lia].
    rewrite Z in Ej by lia. discriminate. }
  intros k j Hk Hj. apply (diag_unit R n PC (n - j) j); auto.
Qed.

(* the augmented rows of (I|x) against a candidate y *)
Lemma unit_rows_dot : forall n (R : matrix) y k, rect (S n) R -> length R = n -> length y = n -> k < n ->
  (forall k j, k < n -> j < n -> getb R k j = (k =? j)) ->
  dot (nth k R []) (y ++ [true]) =
  xorb (nth k y false) (nth k (map (fun r => last r false) R) false).
Proof.
  intros n R y k RR LR Ly Hk ID.
  assert (Lr : length (nth k R []) = S n) by (apply rect_nth; auto; lia).
  rewrite dot_snoc, (dot_unit y _ k), andb_true_r, Ly by (try lia; rewrite Ly; intros; apply ID; auto).
  rewrite <- (last_nth_len _ n Lr). f_equal. symmetry. apply (map_nth (fun r => last r false) R []).
Qed.

Lemma solve_sound_lemma : forall n A b x, rect n A -> length A = n -> solve A b = Ok x ->
  length x = n /\ Forall2 (fun a beta => dot a x = beta) A b.
Proof.
  intros n A b x RA LA H.
  destruct (solve_structure n A b x RA LA H) as (LB & R & RR & LR & [_ SUB] & -> & ID).
  assert (Lx : length (map (fun r => last r false) R) = n) by (rewrite map_length; auto).
  split; auto.
  apply (hstack_forall2 n); auto.
  intros r Hr. apply (dot_span (S n) R); auto.
  apply forall_rows. intros k Hk. rewrite LR in Hk.
  rewrite (unit_rows_dot n); auto. apply xorb_nilpotent.
Qed.

(* an accepted system has no other solution: acceptance implies regularity *)
Lemma solve_unique_lemma : forall n A b x y, rect n A -> length A = n -> solve A b = Ok x ->
  length y = n -> Forall2 (fun a beta => dot a y = beta) A b -> y = x.
Proof.
  intros n A b x y RA LA H Ly F.
  destruct (solve_structure n A b x RA LA H) as (LB & R & RR & LR & [SUB _] & -> & ID).
  assert (Lx : length (map (fun r => last r false) R) = n) by (rewrite map_length; auto).
  apply nth_ext with (d := false) (d' := false); [lia|].
  intros k Hk. rewrite Ly in Hk.
  assert (E : dot (nth k R []) (y ++ [true]) = false).
  { apply (dot_span (S n) (hstack_col A b)).
    - apply hstack_rect; auto.
    - apply (hstack_forall2_inv n); auto.
    - apply SUB. apply nth_In. lia. }
  rewrite (unit_rows_dot n) in E; auto. apply xorb_eq. exact E.
Qed.

(* the linear combination of the rows of B selected by c *)
Fixpoint comb (n : nat) (c : list bool) (B : matrix) : row :=
  match c, B with
  | x :: c', r :: B' => xorv (if x then r else zeros n) (comb n c' B')
  | _, _ => zeros n
  end.

(* linear independence over GF(2): only the trivial combination gives the zero vector *)
Definition independent (n : nat) (B : matrix) : Prop :=
  forall c, length c = length B -> comb n c B = zeros n -> c = repeat false (length B).

(* triangular family: each row has a 1 at a position where all later rows have 0 *)
Inductive tri : matrix -> Prop :=
| tri_nil : tri []
| tri_cons : forall p B l, nth l p false = true ->
    (forall r, In r B -> nth l r false = false) -> tri B -> tri (p :: B).

Lemma comb_span : forall n c B, span n B (comb n c B).
Proof.
  induction c as [|x c IH]; intros [|r B]; simpl; try apply sp_zero.
  apply sp_xor.
  - destruct x; [apply sp_in; left; auto | apply sp_zero].
  - apply (span_sub n B); [apply sub_incl, incl_tl, incl_refl | apply IH].
Qed.

Lemma tri_indep : forall n B, tri B -> rect n B -> independent n B.
Proof.
  intros n B T. induction T as [|p B l Hp Z T IH]; intros R c Lc E.
  - destruct c; [reflexivity | discriminate].
  - destruct c as [|x c]; [discriminate|]. cbn [comb] in E.
    apply Forall_cons_iff in R. destruct R as [Lp R].
    pose proof (comb_span n c B) as SC.
    pose proof (span_length n B _ R SC) as LC.
    (* bit l of the combination is x *)
    assert (X : x = false).
    { apply (f_equal (fun v => nth l v false)) in E.
      rewrite nth_zeros, nth_xorv, (span_bit_zero n l B _ R Z SC), xorb_false_r in E
        by (rewrite LC; destruct x; auto using zeros_length).
      destruct x; [congruence | reflexivity]. }
    subst x. simpl. f_equal. apply IH; auto.
    rewrite <- (xorv_zeros_l (comb n c B)), LC. exact E.
Qed.

Lemma last_true_some : forall l k, last_true l = Some k -> nth k l false = true.
Proof.
  induction l as [|b l IH]; simpl; intros k H; try discriminate.
  destruct (last_true l) as [k'|] eqn:E.
  - injection H as <-. simpl. auto.
  - destruct b; try discriminate. injection H as <-. reflexivity.
Qed.

Lemma last_true_none : forall l, last_true l = None -> existsb (fun b : bool => b) l = false.
Proof.
  induction l as [|b l IH]; simpl; intros H; auto.
  destruct (last_true l); try discriminate. destruct b; try discriminate. simpl. auto.
Qed.

Lemma existsb_id_false : forall l, existsb (fun b : bool => b) l = false -> l = zeros (length l).
Proof.
  unfold zeros. induction l as [|b l IH]; simpl; intros H; auto.
  apply orb_false_iff in H. destruct H as [-> H]. f_equal. auto.
Qed.

Definition rank_upd (lsb : nat) (pv : row) (M' : matrix) : matrix :=
  map (fun r => elim_row pv r (nth lsb r false)) M'.

Lemma rank_loop_nil : forall fuel acc, rank_loop fuel [] acc = Some acc.
Proof. destruct fuel; reflexivity. Qed.

Lemma rank_loop_snoc : forall f M' pv acc,
  rank_loop (S f) (M' ++ [pv]) acc =
  if existsb (fun b => b) pv then
    match last_true pv with
    | None => None
    | Some lsb => rank_loop f (rank_upd lsb pv M') (acc + 1)
    end
  else rank_loop f M' acc.
Proof.
  intros. destruct (M' ++ [pv]) as [|r0 M0] eqn:E; [destruct M'; discriminate|].
  cbn [rank_loop]. rewrite <- E. rewrite last_last, removelast_last. reflexivity.
Qed.

Lemma rank_upd_rect : forall n lsb pv M', rect n M' -> length pv = n -> rect n (rank_upd lsb pv M').
Proof.
  intros n lsb pv M' R L. apply Forall_map. revert R. apply Forall_impl.
  intros r Lr. rewrite elim_row_length; congruence.
Qed.

Lemma rank_upd_bit : forall n lsb pv M', rect n M' -> length pv = n -> nth lsb pv false = true ->
  forall r, In r (rank_upd lsb pv M') -> nth lsb r false = false.
Proof.
  intros n lsb pv M' R L PV r Hr. apply in_map_iff in Hr. destruct Hr as (r0 & <- & Hr0).
  rewrite nth_elim_row, PV, andb_true_r by (rewrite (rect_In n M' r0); auto).
  apply xorb_nilpotent.
Qed.

(* popping the pivot row and clearing its lowest set bit from the others keeps the row space *)
Lemma rank_upd_equiv : forall n lsb pv M', rect n M' -> length pv = n ->
  row_equiv n (M' ++ [pv]) (pv :: rank_upd lsb pv M').
Proof.
  intros n lsb pv M' R L.
  assert (Ipv : span n (M' ++ [pv]) pv) by (apply sp_in, in_or_app; simpl; auto).
  split.
  - intros r [<-|Hr]; auto. apply in_map_iff in Hr. destruct Hr as (r0 & <- & Hr0).
    apply elim_row_span; auto. apply sp_in, in_or_app. auto.
  - intros r Hr. apply in_app_or in Hr. destruct Hr as [Hr|[<-|[]]]; [|apply sp_in; left; auto].
    rewrite <- (elim_row_twice pv r (nth lsb r false)) by (rewrite (rect_In n M' r); auto).
    apply elim_row_span; apply sp_in; [left; auto | 
      right; apply (in_map (fun r => elim_row pv r (nth lsb r false))); auto].
Qed.

Lemma zero_row_equiv : forall n M', row_equiv n (M' ++ [zeros n]) M'.
Proof.
  intros n M'. split.
  - apply sub_incl, incl_appl, incl_refl.
  - intros r Hr. apply in_app_or in Hr. destruct Hr as [Hr|[<-|[]]]; [apply sp_in; auto | apply sp_zero].
Qed.

Lemma row_equiv_cons : forall n p A B, row_equiv n A B -> row_equiv n (p :: A) (p :: B).
Proof. intros n p A B [H1 H2]. split; apply sub_cons; auto. Qed.

(* the count is the size of a triangular family with the same row space *)
Lemma rank_loop_basis : forall n fuel M acc k, rect n M -> length M <= fuel ->
  rank_loop fuel M acc = Some k ->
  exists B, k = (acc + Z.of_nat (length B))%Z /\ rect n B /\ row_equiv n M B /\ tri B.
Proof.
  intros n. induction fuel as [|f IH]; intros M acc k R HL H;
    destruct M as [|pv M' _] using rev_ind; try (rewrite app_length in HL; simpl in HL; lia).
  1,2: rewrite rank_loop_nil in H; injection H as <-; exists [];
       (split; [simpl; lia|]); (split; [constructor|]); (split; [apply row_equiv_refl | constructor]).
  rewrite rank_loop_snoc in H. rewrite app_length in HL. simpl in HL.
  apply Forall_app in R. destruct R as [R' Lpv]. apply Forall_inv in Lpv.
  destruct (existsb (fun b => b) pv) eqn:EX.
  - destruct (last_true pv) as [lsb|] eqn:LT; try discriminate.
    apply last_true_some in LT.
    pose proof (rank_upd_rect n lsb pv M' R' Lpv) as RU.
    apply IH in H; auto; [|unfold rank_upd; rewrite map_length; lia].
    destruct H as (B & -> & RB & EQ & T).
    exists (pv :: B). split; [simpl length; lia|]. split; [constructor; auto|]. split.
    + apply (row_equiv_trans n _ (pv :: rank_upd lsb pv M')); [apply rank_upd_equiv | apply row_equiv_cons]; auto.
    + apply tri_cons with (l := lsb); auto.
      intros r Hr. apply (span_bit_zero n lsb (rank_upd lsb pv M')); auto; [|apply EQ; auto].
      apply (rank_upd_bit n); auto.
  - apply IH in H; auto; [|lia].
    destruct H as (B & -> & RB & EQ & T).
    exists B. repeat split; auto; try apply (row_equiv_trans n _ M' B); auto;
      rewrite (existsb_id_false _ EX), Lpv; apply zero_row_equiv.
Qed.

Lemma rank_basis_lemma : forall n M k, rect n M -> rank M = Some k ->
  exists B, k = Z.of_nat (length B) /\ rect n B /\ row_equiv n M B /\ independent n B.
Proof.
  intros n M k R H. unfold rank in H.
  apply (rank_loop_basis n) in H; auto.
  destruct H as (B & -> & RB & EQ & T).
  exists B. repeat split; auto; try apply EQ. apply tri_indep; auto.
Qed.

Lemma rank_loop_total : forall fuel M acc, length M <= fuel -> exists k, rank_loop fuel M acc = Some k.
Proof.
  induction fuel as [|f IH]; intros M acc H;
    destruct M as [|pv M' _] using rev_ind; try (rewrite app_length in H; simpl in H; lia).
  1,2: rewrite rank_loop_nil; eauto.
  rewrite rank_loop_snoc. rewrite app_length in H. simpl in H.
  destruct (existsb (fun b => b) pv) eqn:EX; [|apply IH; lia].
  destruct (last_true pv) eqn:LT.
  - apply IH. unfold rank_upd. rewrite map_length. lia.
  - apply last_true_none in LT. congruence.
Qed.

Lemma rank_total_lemma : forall M, exists k, rank M = Some k.
Proof. intros. unfold rank. apply rank_loop_total. auto. Qed.
