(* Lemmas about the pass drivers of Disc/PassesModel.v over an ABSTRACT circuit semantics:
   a monoid (G, mul, e) up to an equivalence `equ` (exact equality of unitaries, or equality up to a global
   phase), a denotation `sem : gate -> G`, and exactly the algebraic facts each pass relies on. *)
From Coq Require Import List ZArith Bool Lia Setoid Morphisms.
From PLV Require Import Disc.PassesModel.
Import ListNotations.
Open Scope Z_scope.

(* ------------------------------------------------------------------ list facts *)
Lemma find_next_gate_split ws l i :
  find_next_gate ws l = Some i ->
  exists pre ng post, l = pre ++ ng :: post /\ length pre = i /\ nth_error l i = Some ng /\
    remove_nth i l = pre ++ post /\ shares ws (gwires ng) = true /\
    Forall (fun g => shares ws (gwires g) = false) pre.
Proof.
  revert i. induction l as [|g r IH]; intros i H; cbn in H; [discriminate|].
  destruct (shares ws (gwires g)) eqn:Hs.
  - inversion H; subst. exists [], g, r. cbn. repeat split; auto.
  - destruct (find_next_gate ws r) as [j|] eqn:Hf; [|discriminate]. inversion H; subst.
    destruct (IH j eq_refl) as (pre & ng & post & -> & Hl & Hn & Hr & Hsh & Hall).
    exists (g :: pre), ng, post. cbn. repeat split; auto; try congruence.
Qed.

Lemma find_next_gate_none ws l :
  find_next_gate ws l = None -> Forall (fun g => shares ws (gwires g) = false) l.
Proof.
  induction l as [|g r IH]; intros H; cbn in H; [constructor|].
  destruct (shares ws (gwires g)) eqn:Hs; [discriminate|].
  destruct (find_next_gate ws r); [discriminate|]. constructor; auto.
Qed.

Lemma remove_nth_length i l ng : nth_error l i = Some ng -> length l = S (length (remove_nth i l)).
Proof.
  revert i; induction l as [|x r IH]; intros [|i] H; cbn in *; try discriminate; auto.
Qed.

Lemma list_eqb_eq a b : list_eqb a b = true -> a = b.
Proof.
  revert b; induction a as [|x a IH]; intros [|y b] H; cbn in H; try discriminate; auto.
  apply andb_true_iff in H as [H1 H2]. apply Z.eqb_eq in H1. subst. f_equal; auto.
Qed.

Lemma check_eq_true a b : check_eq a b = Some true -> a = b.
Proof.
  revert b; induction a as [|x a IH]; intros [|y b] H; cbn in H; try discriminate; auto.
  destruct (x =? y) eqn:E; [|discriminate]. apply Z.eqb_eq in E. subst. f_equal; auto.
Qed.

Lemma check_eq_same_length a b : length a = length b -> check_eq a b <> None.
Proof.
  revert b; induction a as [|x a IH]; intros [|y b] H; cbn in *; try discriminate.
  destruct (x =? y); [apply IH; lia|discriminate].
Qed.

Lemma last_l_length a : length (last_l a) = (if Nat.eqb (length a) 0 then 0 else 1)%nat.
Proof.
  unfold last_l. destruct a as [|x a]; cbn; auto.
  destruct (rev a ++ [x]) eqn:E; cbn; auto.
  apply (f_equal (@length Z)) in E. rewrite app_length in E. cbn in E. lia.
Qed.

Lemma Forall_remove_nth (P : gate -> Prop) i l : Forall P l -> Forall P (remove_nth i l).
Proof.
  revert i; induction l as [|x r IH]; intros [|i] H; cbn; auto; inversion H; subst; auto.
Qed.

Lemma gate_eta g : g = G (gname g) (gadj g) (gwires g) (gparam g).
Proof. now destruct g. Qed.

(* the gate merge_rotations merges with: same class and wires as cur, not an Adjoint *)
Lemma same_type_wires cur ng :
  same_type cur ng && list_eqb (gwires cur) (gwires ng) = true -> ng = with_param cur (gparam ng).
Proof.
  unfold same_type, with_param. rewrite !andb_true_iff, negb_true_iff, Z.eqb_eq. intros [[Ha Hn] Hw].
  apply list_eqb_eq in Hw. rewrite (gate_eta ng) at 1. now rewrite Ha, Hn, Hw.
Qed.

(* ------------------------------------------------------------------ _can_cancel: inverse test, then wire test *)
Lemma are_inverses_spec a b : are_inverses a b = true ->
  gname a = gname b /\ gadj a = false /\
  (gadj b = false /\ self_inverse (gname a) = true \/ gadj b = true /\ gparam b = gparam a).
Proof.
  unfold are_inverses, ops_equal_base. intros H.
  apply orb_true_iff in H as [H|H]; rewrite !andb_true_iff, !negb_true_iff, !Z.eqb_eq in H.
  - destruct H as (((Ha & Hs) & Hb) & Hn). auto.
  - destruct H as (Hb & (Ha & Hn) & Hp). auto.
Qed.

Definition wires_check (op1 op2 : gate) : option bool :=
  match check_eq (gwires op1) (gwires op2) with
  | None => None
  | Some true => Some true
  | Some false =>
      if negb (Nat.eqb (num_shared (gwires op1) (gwires op2)) (length (gwires op1))) then Some false
      else if sym_all (gname op1) then Some true
      else if sym_ctrl (gname op1) then check_eq (last_l (gwires op1)) (last_l (gwires op2))
      else Some false
  end.

Lemma can_cancel_unfold g h :
  can_cancel g h = if gadj g then (if are_inverses h g then wires_check h g else Some false)
                   else (if are_inverses g h then wires_check g h else Some false).
Proof. unfold can_cancel. destruct (gadj g); reflexivity. Qed.

(* the wire relation accepted by _can_cancel *)
Definition wire_rel (n : Z) (w w' : list Z) : Prop :=
  w = w' \/ (length w = length w' /\ num_shared w w' = length w /\
             (sym_all n = true \/ (sym_ctrl n = true /\ last_l w = last_l w'))).

Lemma wires_check_sound a b : length (gwires a) = length (gwires b) ->
  wires_check a b = Some true -> wire_rel (gname a) (gwires a) (gwires b).
Proof.
  intros Hl. unfold wires_check.
  destruct (check_eq (gwires a) (gwires b)) as [[|]|] eqn:CE; [intros _; left; now apply check_eq_true| |discriminate].
  destruct (Nat.eqb _ _) eqn:NS; cbn [negb]; [|discriminate]. apply Nat.eqb_eq in NS.
  destruct (sym_all (gname a)) eqn:SA; [intros _; right; auto|].
  destruct (sym_ctrl (gname a)) eqn:SC; [|discriminate].
  intros H. right. repeat split; auto. right. split; [exact SC|now apply check_eq_true].
Qed.

(* zip(strict=True) cannot raise on wire lists of equal length *)
Lemma wires_check_total a b : length (gwires a) = length (gwires b) -> wires_check a b <> None.
Proof.
  intros Hl. unfold wires_check. pose proof (check_eq_same_length _ _ Hl) as C.
  destruct (check_eq (gwires a) (gwires b)) as [[|]|]; try discriminate; [|congruence].
  destruct (negb _); [discriminate|]. destruct (sym_all _); [discriminate|]. destruct (sym_ctrl _); [|discriminate].
  apply check_eq_same_length. rewrite !last_l_length, Hl. reflexivity.
Qed.

(* ------------------------------------------------------------------ the abstract semantics *)
Section Sem.
  Variable Gm : Type.
  Variable equ : Gm -> Gm -> Prop.
  Variable mul : Gm -> Gm -> Gm.
  Variable e : Gm.
  Variable sem : gate -> Gm.
  Context {equ_equiv : Equivalence equ} {mul_proper : Proper (equ ==> equ ==> equ) mul}.
  Infix "==" := equ (at level 70).
  Infix "*" := mul.
  Hypothesis mul_assoc : forall a b c, (a * b) * c == a * (b * c).
  Hypothesis mul_e_l : forall a, e * a == a.
  Hypothesis mul_e_r : forall a, a * e == a.

  (* ordered product of a circuit: first gate leftmost (read "then") *)
  Fixpoint prod (l : list gate) : Gm := match l with [] => e | g :: r => sem g * prod r end.

  Lemma prod_app a b : prod (a ++ b) == prod a * prod b.
  Proof.
    induction a as [|g a IH]; cbn.
    - now rewrite mul_e_l.
    - rewrite IH. now rewrite mul_assoc.
  Qed.

  (* (H_comm) gates on disjoint wires commute *)
  Hypothesis H_comm : forall g h, shares (gwires g) (gwires h) = false -> sem g * sem h == sem h * sem g.

  Lemma comm_through ws (x : gate) pre : gwires x = ws ->
    Forall (fun g => shares ws (gwires g) = false) pre -> sem x * prod pre == prod pre * sem x.
  Proof.
    intros Hw. induction pre as [|g r IH]; intros HF; cbn.
    - now rewrite mul_e_l, mul_e_r.
    - inversion HF; subst. rewrite <- mul_assoc. rewrite (H_comm x g) by assumption.
      rewrite mul_assoc. rewrite IH by assumption. now rewrite mul_assoc.
  Qed.

  (* The local rule shared by cancel_inverses and merge_rotations: the current gate a reaches the next
     gate ng on its wires across the gates pre in between, and the two merge into a'. *)
  Lemma absorb_next (a a' : Gm) pre ng post :
    a * prod pre == prod pre * a -> a' * prod pre == prod pre * a' -> a * sem ng == a' ->
    a * prod (pre ++ ng :: post) == a' * prod (pre ++ post).
  Proof.
    intros Ca Ca' M. rewrite !prod_app. cbn [prod].
    rewrite <- !mul_assoc, Ca, Ca'. rewrite !mul_assoc. rewrite <- (mul_assoc a), M. reflexivity.
  Qed.

  (* ================================================================ cancel_inverses *)
  Variable ar : Z -> nat.                       (* arity of each (fixed-arity) operator name *)
  Definition wf (g : gate) : Prop := length (gwires g) = ar (gname g).

  (* (H_inv) self-inverse names; (H_adj) Adjoint is a two-sided inverse;
     (H_symall) / (H_symctrl) invariance under the wire permutations named by the attribute sets *)
  Hypothesis H_inv : forall n w a a', self_inverse n = true -> sem (G n false w a) * sem (G n false w a') == e.
  Hypothesis H_adj_r : forall n w a, sem (G n false w a) * sem (G n true w a) == e.
  Hypothesis H_adj_l : forall n w a, sem (G n true w a) * sem (G n false w a) == e.
  Hypothesis H_symall : forall n b w w' a, sym_all n = true -> length w = length w' ->
    num_shared w w' = length w -> sem (G n b w a) == sem (G n b w' a).
  Hypothesis H_symctrl : forall n b w w' a, sym_ctrl n = true -> length w = length w' ->
    num_shared w w' = length w -> last_l w = last_l w' -> sem (G n b w a) == sem (G n b w' a).

  Lemma wire_rel_sem n b w w' a : wire_rel n w w' -> sem (G n b w a) == sem (G n b w' a).
  Proof.
    intros [->|(Hl & Hs & [Ha|[Hc Hlast]])]; [reflexivity| |].
    - now apply H_symall.
    - now apply H_symctrl.
  Qed.

  Lemma inverses_sem a b : are_inverses a b = true -> wire_rel (gname a) (gwires a) (gwires b) ->
    sem a * sem b == e /\ sem b * sem a == e.
  Proof.
    intros AI WR. destruct (are_inverses_spec a b AI) as (Hn & Ha & Hcase).
    rewrite (gate_eta a), (gate_eta b), Ha, <- Hn.
    destruct Hcase as [[-> Hs]|[-> ->]].
    - rewrite <- (wire_rel_sem _ false _ _ (gparam b) WR). split; now apply H_inv.
    - rewrite <- (wire_rel_sem _ true _ _ (gparam a) WR). split; [apply H_adj_r|apply H_adj_l].
  Qed.

  Lemma inverses_same_length a b : wf a -> wf b -> are_inverses a b = true ->
    length (gwires a) = length (gwires b).
  Proof.
    unfold wf. intros Wa Wb AI. destruct (are_inverses_spec a b AI) as (Hn & _). now rewrite Wa, Wb, Hn.
  Qed.

  Lemma can_cancel_sound g h : wf g -> wf h -> can_cancel g h = Some true -> sem g * sem h == e.
  Proof.
    intros Wg Wh. rewrite can_cancel_unfold.
    destruct (gadj g); (destruct (are_inverses _ _) eqn:AI; [|discriminate]); intros H.
    - apply (inverses_sem h g AI), wires_check_sound; [now apply inverses_same_length|exact H].
    - apply (inverses_sem g h AI), wires_check_sound; [now apply inverses_same_length|exact H].
  Qed.

  Lemma can_cancel_total g h : wf g -> wf h -> can_cancel g h <> None.
  Proof.
    intros Wg Wh. rewrite can_cancel_unfold.
    destruct (gadj g); (destruct (are_inverses _ _) eqn:AI; [|discriminate]);
      now apply wires_check_total, inverses_same_length.
  Qed.

  Lemma Forall_wf_split pre ng post : Forall wf (pre ++ ng :: post) -> Forall wf pre /\ wf ng /\ Forall wf post.
  Proof.
    intros H. apply Forall_app in H as [H1 H2]. inversion H2; subst. auto.
  Qed.

  (* _try_to_cancel_with_next on well-formed gates: never raises; a cancellation preserves the product *)
  Lemma try_cancel_spec cur l : wf cur -> Forall wf l ->
    try_cancel cur l = Ok (l, false) \/
    (exists l', try_cancel cur l = Ok (l', true) /\ sem cur * prod l == prod l' /\ Forall wf l' /\ length l = S (length l')).
  Proof.
    intros Wc Wl. unfold try_cancel.
    destruct (find_next_gate (gwires cur) l) as [i|] eqn:F; [|left; reflexivity].
    destruct (find_next_gate_split _ _ _ F) as (pre & ng & post & El & Hl & Hn & Hr & Hs & Hall).
    rewrite Hn. subst l. destruct (Forall_wf_split _ _ _ Wl) as (Wpre & Wng & Wpost).
    pose proof (can_cancel_total cur ng Wc Wng) as T.
    destruct (can_cancel cur ng) as [[|]|] eqn:C; [right|left; reflexivity|contradiction].
    exists (remove_nth i (pre ++ ng :: post)). split; [reflexivity|]. rewrite Hr. split; [|split].
    - rewrite <- (mul_e_l (prod (pre ++ post))). apply absorb_next.
      + exact (comm_through (gwires cur) cur pre eq_refl Hall).
      + now rewrite mul_e_l, mul_e_r.
      + exact (can_cancel_sound cur ng Wc Wng C).
    - apply Forall_app. split; assumption.
    - rewrite !app_length. cbn. lia.
  Qed.

  Lemma prod_rev_cons top acc : prod (rev (top :: acc)) == prod (rev acc) * sem top.
  Proof. cbn [rev]. rewrite prod_app. cbn [prod]. now rewrite mul_e_r. Qed.

  Lemma unwind_spec acc : forall l, Forall wf acc -> Forall wf l ->
    exists acc' l', unwind acc l = Ok (acc', l') /\ prod (rev acc) * prod l == prod (rev acc') * prod l' /\
                    Forall wf acc' /\ Forall wf l' /\ (length l' <= length l)%nat.
  Proof.
    induction acc as [|top acc IH]; intros l Wa Wl.
    - exists [], l. cbn. repeat split; auto. reflexivity.
    - inversion Wa; subst. cbn [unwind].
      destruct (try_cancel_spec top l H1 Wl) as [E|(l1 & E & Hp & W1 & Hlen)]; rewrite E.
      + exists (top :: acc), l. repeat split; auto. reflexivity.
      + destruct (IH l1 H2 W1) as (acc' & l' & E' & Hp' & Wa' & Wl' & Hle).
        exists acc', l'. rewrite E'. repeat split; auto; [|lia].
        rewrite prod_rev_cons. rewrite mul_assoc. rewrite Hp. exact Hp'.
  Qed.

  (* the main loop: result, semantics and totality at once *)
  Lemma ci_loop_spec recursive : forall fuel acc l, Forall wf acc -> Forall wf l -> (length l < fuel)%nat ->
    exists out, ci_loop fuel recursive acc l = Ok out /\ prod out == prod (rev acc) * prod l /\ Forall wf out.
  Proof.
    induction fuel as [|f IH]; intros acc l Wa Wl Hf; [lia|].
    destruct l as [|cur rest]; cbn [ci_loop].
    - exists (rev acc). cbn [prod]. split; [reflexivity|]. split; [now rewrite mul_e_r|]. now apply Forall_rev.
    - inversion Wl; subst. cbn [length] in Hf.
      destruct (try_cancel_spec cur rest H1 H2) as [E|(l1 & E & Hp & W1 & Hlen)]; rewrite E.
      + destruct (IH (cur :: acc) rest) as (out & Eo & Ho & Wo); [now constructor|assumption|lia|].
        exists out. split; [exact Eo|]. split; [|exact Wo]. rewrite Ho. rewrite prod_rev_cons. cbn [prod]. now rewrite mul_assoc.
      + destruct recursive.
        * destruct (unwind_spec acc l1 Wa W1) as (acc' & l' & E' & Hp' & Wa' & Wl' & Hle). rewrite E'.
          destruct (IH acc' l' Wa' Wl') as (out & Eo & Ho & Wo); [lia|].
          exists out. split; [exact Eo|]. split; [|exact Wo]. rewrite Ho, <- Hp'. cbn [prod]. now rewrite Hp.
        * destruct (IH acc l1 Wa W1) as (out & Eo & Ho & Wo); [lia|].
          exists out. split; [exact Eo|]. split; [|exact Wo]. rewrite Ho. cbn [prod]. now rewrite Hp.
  Qed.

  Theorem cancel_inverses_total_sem recursive l : Forall wf l ->
    exists out, cancel_inverses recursive l = Ok out /\ prod out == prod l.
  Proof.
    intros W. destruct (ci_loop_spec recursive (S (length l)) [] l) as (out & E & H & _); [constructor|assumption|lia|].
    exists out. split; [exact E|]. rewrite H. cbn. now rewrite mul_e_l.
  Qed.

  (* ================================================================ merge_rotations *)
  Variable is_zero : Z -> bool.
  Variable included : Z -> bool.
  (* (H_rot) angles of composable rotations on equal wires add; (H_zero) a rotation by a (numerically) zero angle is the identity *)
  Hypothesis H_rot : forall n w a b, composable n = true -> sem (G n false w a) * sem (G n false w b) == sem (G n false w (a + b)).
  Hypothesis H_zero : forall n w a, composable n = true -> is_zero a = true -> sem (G n false w a) == e.
  Hypothesis H_adjrot : forall n w a, composable n = true -> sem (G n true w a) == sem (G n false w (- a)).

  Lemma mr_inner_spec cur : composable (gname cur) = true ->
    forall fuel cum cancel rest, (cancel = true -> is_zero cum = true) -> (length rest < fuel)%nat ->
    exists cum' cancel' rest', mr_inner is_zero fuel cur cum cancel rest = Ok (cum', cancel', rest') /\
      sem (with_param cur cum) * prod rest == sem (with_param cur cum') * prod rest' /\
      (cancel' = true -> is_zero cum' = true) /\ (length rest' <= length rest)%nat.
  Proof.
    intros Hc. induction fuel as [|f IH]; intros cum cancel rest Hz Hf; [lia|]. cbn [mr_inner].
    destruct (find_next_gate (gwires cur) rest) as [i|] eqn:F.
    2:{ exists cum, cancel, rest. repeat split; auto. reflexivity. }
    destruct (find_next_gate_split _ _ _ F) as (pre & ng & post & El & Hl & Hn & Hr & Hs & Hall).
    rewrite Hn.
    destruct (same_type cur ng && list_eqb (gwires cur) (gwires ng)) eqn:ST.
    2:{ exists cum, cancel, rest. repeat split; auto. reflexivity. }
    apply same_type_wires in ST as Eng.
    destruct (IH (cum + gparam ng) (is_zero (cum + gparam ng)) (remove_nth i rest)) as (cum' & cancel' & rest' & E & Hp & Hz' & Hle).
    { auto. }
    { rewrite (remove_nth_length i rest ng Hn) in Hf. lia. }
    exists cum', cancel', rest'. split; [exact E|]. split; [|split; [exact Hz'|]].
    - rewrite <- Hp, Hr. subst rest. apply absorb_next.
      + exact (comm_through (gwires cur) (with_param cur cum) pre eq_refl Hall).
      + exact (comm_through (gwires cur) (with_param cur (cum + gparam ng)) pre eq_refl Hall).
      + rewrite Eng at 1. exact (H_rot _ _ _ _ Hc).
    - rewrite (remove_nth_length i rest ng Hn). lia.
  Qed.

  Lemma mr_loop_spec : forall fuel l, (length l < fuel)%nat ->
    exists out, mr_loop is_zero included fuel l = Ok out /\ prod out == prod l.
  Proof.
    induction fuel as [|f IH]; intros l Hf; [lia|]. destruct l as [|cur rest]; cbn [mr_loop].
    - exists []. split; reflexivity.
    - cbn [length] in Hf.
      destruct (negb (included (gname cur)) || negb (composable (gname cur) && negb (gadj cur))) eqn:C.
      + destruct (IH rest) as (o & E & H); [lia|]. rewrite E. exists (cur :: o). split; [reflexivity|]. cbn [prod]. now rewrite H.
      + apply orb_false_iff in C as [_ C]. apply negb_false_iff in C. apply andb_true_iff in C as [Hc Ha].
        apply negb_true_iff in Ha.
        destruct (mr_inner_spec cur Hc (S (length rest)) (gparam cur) false rest) as (cum & cancel & rest' & E & Hp & Hz & Hle);
          [discriminate|lia|]. rewrite E.
        destruct (IH rest') as (o & Eo & Ho); [lia|]. rewrite Eo.
        assert (Ecur : cur = with_param cur (gparam cur)).
        { unfold with_param. rewrite (gate_eta cur) at 1. now rewrite Ha. }
        exists (if cancel then o else with_param cur cum :: o). split; [reflexivity|].
        cbn [prod]. rewrite Ecur at 2. rewrite Hp.
        destruct cancel.
        * unfold with_param. rewrite (H_zero _ _ _ Hc (Hz eq_refl)). rewrite mul_e_l. exact Ho.
        * cbn [prod]. now rewrite Ho.
  Qed.

  Lemma expand_adj_sem l : prod (map expand_adj l) == prod l.
  Proof.
    induction l as [|g r IH]; cbn [map prod]; [reflexivity|]. rewrite IH.
    unfold expand_adj. destruct (gadj g && composable (gname g)) eqn:C; [|reflexivity].
    apply andb_true_iff in C as [Ha Hc]. apply mul_proper; [|reflexivity].
    rewrite <- (H_adjrot _ _ _ Hc). rewrite <- Ha. rewrite <- gate_eta. reflexivity.
  Qed.

  Theorem merge_rotations_total_sem l :
    exists out, merge_rotations is_zero included l = Ok out /\ prod out == prod l.
  Proof.
    unfold merge_rotations, merge_rotations_core.
    destruct (mr_loop_spec (S (length (map expand_adj l))) (map expand_adj l)) as (o & E & H); [lia|].
    exists o. split; [exact E|]. rewrite H. apply expand_adj_sem.
  Qed.

  (* ================================================================ remove_barrier *)
  Hypothesis H_bar : forall g, is_barrier g = true -> sem g == e.

  Theorem remove_barrier_sem l : prod (remove_barrier l) == prod l.
  Proof.
    induction l as [|g r IH]; cbn; [reflexivity|]. destruct (is_barrier g) eqn:B; cbn.
    - rewrite (H_bar g B). now rewrite mul_e_l.
    - now rewrite IH.
  Qed.

  (* ================================================================ combine_global_phases *)
  (* (H_gp) a GlobalPhase denotes the same as the wire-less one with its angle; it is central; angles add *)
  Hypothesis H_gp_norm : forall g, is_gphase g = true -> sem g == sem (gphase_gate (gparam g)).
  Hypothesis H_gp_central : forall a x, sem (gphase_gate a) * x == x * sem (gphase_gate a).
  Hypothesis H_gp_add : forall a b, sem (gphase_gate a) * sem (gphase_gate b) == sem (gphase_gate (a + b)).

  Definition phase_of (has : bool) (phi : Z) : Gm := if has then sem (gphase_gate phi) else e.

  Lemma cgp_loop_sem : forall l acc phi has, (has = false -> phi = 0) ->
    prod (cgp_loop l acc phi has) == (prod (rev acc) * phase_of has phi) * prod l.
  Proof.
    induction l as [|g r IH]; intros acc phi has H0; cbn [cgp_loop prod].
    - rewrite mul_e_r. destruct has; cbn [phase_of].
      + rewrite prod_rev_cons. reflexivity.
      + now rewrite mul_e_r.
    - destruct (is_gphase g) eqn:Gp.
      + rewrite IH by discriminate. cbn [phase_of]. rewrite (H_gp_norm g Gp).
        rewrite !mul_assoc. apply mul_proper; [reflexivity|]. rewrite <- mul_assoc. apply mul_proper; [|reflexivity].
        destruct has; cbn [phase_of].
        * symmetry. apply H_gp_add.
        * rewrite (H0 eq_refl). cbn [Z.add]. now rewrite mul_e_l.
      + rewrite IH by assumption. rewrite prod_rev_cons. rewrite !mul_assoc. apply mul_proper; [reflexivity|].
        rewrite <- !mul_assoc. apply mul_proper; [|reflexivity].
        destruct has; cbn [phase_of].
        * symmetry. apply H_gp_central.
        * now rewrite mul_e_l, mul_e_r.
  Qed.

  Theorem combine_global_phases_sem l : prod (combine_global_phases l) == prod l.
  Proof.
    unfold combine_global_phases. rewrite cgp_loop_sem by reflexivity. cbn. now rewrite !mul_e_l.
  Qed.
End Sem.

(* ------------------------------------------------------------------ structural facts (no semantics needed) *)
Lemma remove_barrier_no_barrier l : Forall (fun g => is_barrier g = false) (remove_barrier l).
Proof.
  unfold remove_barrier. apply Forall_forall. intros g Hg. apply filter_In in Hg as [_ H]. now apply negb_true_iff in H.
Qed.

Definition sum_gphase (l : list gate) : Z := fold_right (fun g a => if is_gphase g then gparam g + a else a) 0 l.

Lemma cgp_loop_shape : forall l acc phi has,
  cgp_loop l acc phi has =
    rev acc ++ filter (fun g => negb (is_gphase g)) l ++
    (if has || existsb is_gphase l then [gphase_gate (phi + sum_gphase l)] else []).
Proof.
  induction l as [|g r IH]; intros acc phi has; cbn [cgp_loop filter existsb sum_gphase fold_right].
  - rewrite orb_false_r, Z.add_0_r. destruct has; cbn [rev]; [reflexivity|now rewrite app_nil_r].
  - destruct (is_gphase g) eqn:Gp; cbn [negb].
    + rewrite IH. cbn [orb]. rewrite orb_true_r. fold (sum_gphase r). now rewrite Z.add_assoc.
    + rewrite IH. cbn [rev orb]. fold (sum_gphase r). rewrite <- app_assoc. reflexivity.
Qed.

(* the output is the non-phase gates in order, followed by exactly one GlobalPhase carrying the summed angle iff the input had one *)
Lemma combine_global_phases_shape l :
  combine_global_phases l = filter (fun g => negb (is_gphase g)) l ++
                            (if existsb is_gphase l then [gphase_gate (sum_gphase l)] else []).
Proof. unfold combine_global_phases. now rewrite cgp_loop_shape. Qed.

(* the acceptance clause is REFUTED for variable-arity operators: a well-formed pair on which the driver raises, and one
   on which it cancels two operators of different arity (28 = MultiRZ) *)
Lemma cancel_inverses_raises_witness :
  cancel_inverses true [G 28 false [0; 1] 5; G 28 true [0; 1; 2] 5] = Raised.
Proof. vm_compute. reflexivity. Qed.
Lemma cancel_inverses_arity_mismatch_witness :
  cancel_inverses true [G 28 false [0; 1] 5; G 28 true [1; 0; 2] 5] = Ok [].
Proof. vm_compute. reflexivity. Qed.

(* ------------------------------------------------------------------ non-vacuity: a concrete semantics satisfying every hypothesis
   (the additive group Z; a gate denotes its signed angle if it is a composable rotation or a GlobalPhase, 0 otherwise) *)
Definition angle_sem (g : gate) : Z :=
  let v := if composable (gname g) || (gname g =? 31) then gparam g else 0 in if gadj g then - v else v.
Definition angle_prod := prod Z Z.add 0 angle_sem.
Definition exact_zero (a : Z) : bool := a =? 0.

Lemma Zadd_proper : Proper (eq ==> eq ==> eq) Z.add.
Proof. intros ? ? -> ? ? ->. reflexivity. Qed.

Lemma self_inverse_not_angle n : self_inverse n = true -> composable n || (n =? 31) = false.
Proof.
  unfold self_inverse, mem. cbn [existsb]. rewrite !orb_true_iff. rewrite !Z.eqb_eq.
  intros H. destruct (composable n || (n =? 31)) eqn:E; [|reflexivity].
  exfalso. apply orb_true_iff in E. unfold composable, mem in E. cbn [existsb] in E.
  rewrite !orb_true_iff in E. rewrite !Z.eqb_eq in E. lia.
Qed.

Lemma angle_instance_cancel (ar : Z -> nat) recursive l : Forall (wf ar) l ->
  exists out, cancel_inverses recursive l = Ok out /\ angle_prod out = angle_prod l.
Proof.
  apply (cancel_inverses_total_sem Z eq Z.add 0 angle_sem (equ_equiv := eq_equivalence) (mul_proper := Zadd_proper)).
  1-4: intros; lia.
  - intros n w a a' H. unfold angle_sem. cbn [gname gadj gparam]. rewrite (self_inverse_not_angle n H). reflexivity.
  - intros n w a. unfold angle_sem. cbn [gname gadj gparam]. lia.
  - intros n w a. unfold angle_sem. cbn [gname gadj gparam]. lia.
  - intros. reflexivity.
  - intros. reflexivity.
Qed.

Lemma angle_instance_merge included l :
  exists out, merge_rotations exact_zero included l = Ok out /\ angle_prod out = angle_prod l.
Proof.
  apply (merge_rotations_total_sem Z eq Z.add 0 angle_sem (equ_equiv := eq_equivalence) (mul_proper := Zadd_proper)).
  1-4: intros; lia.
  - intros n w a b H. unfold angle_sem. cbn [gname gadj gparam]. rewrite H. reflexivity.
  - intros n w a H Hz. unfold angle_sem, exact_zero in *. cbn [gname gadj gparam]. rewrite H. cbn. now apply Z.eqb_eq in Hz.
  - intros n w a H. unfold angle_sem. cbn [gname gadj gparam]. rewrite H. reflexivity.
Qed.

Lemma angle_instance_gphase l : angle_prod (combine_global_phases l) = angle_prod l.
Proof.
  apply (combine_global_phases_sem Z eq Z.add 0 angle_sem (equ_equiv := eq_equivalence) (mul_proper := Zadd_proper)).
  1-3: intros; lia.
  - intros g H. unfold is_gphase in H. apply andb_true_iff in H as [Hn Ha]. apply negb_true_iff in Ha.
    unfold angle_sem. cbn [gphase_gate gname gadj gparam]. rewrite Ha, Hn. rewrite orb_true_r. reflexivity.
  - intros; lia.
  - intros a b. unfold angle_sem. cbn. reflexivity.
Qed.

(* the instance is not degenerate: it distinguishes circuits *)
Lemma angle_sem_nontrivial : angle_prod [G 16 false [0] 3; G 31 false [] 4] = 7 /\ angle_prod [] = 0.
Proof. split; reflexivity. Qed.
