(* C71  Proofs about the model of qp.snapshots (SnapshotsModel.v).

   occs_from pre c lists the snapshots of c given that pre has been executed already; the inductions
   over c carry pre along, the device state being run (gates_of pre) init and the snapshot counter
   nsnaps pre (exec_dev_spec for the two debugger paths, split_spec for tape splitting).  Each path
   thereby becomes a fold of its own dictionary update over the same list of records, and what is
   found under a key (dq_lookup, over_lookup) and the key order (keys_fold) are facts about such
   folds alone.  default.mixed is the overwrite fold whenever no tag is the empty string (exec_dm_over). *)
From Coq Require Import List ZArith Bool Arith Lia.
From PLV Require Import Disc.SnapshotsModel.
Import ListNotations.

Lemma key_eqb_eq : forall a b, key_eqb a b = true <-> a = b.
Proof. intros [n|s] [m|t]; cbn; rewrite ?Nat.eqb_eq, ?Z.eqb_eq; split; congruence. Qed.
Lemma key_eqb_refl : forall a, key_eqb a a = true.
Proof. intros a; now apply key_eqb_eq. Qed.
Lemma key_eqb_sym : forall a b, key_eqb a b = key_eqb b a.
Proof. intros [n|s] [m|t]; cbn; auto using Nat.eqb_sym, Z.eqb_sym. Qed.

Section Proofs.
  Variables (G St K V : Type).
  Variable apply : G -> St -> St.
  Variable measure : K -> St -> V.
  Notation instr := (instr G K).
  Notation entry := (entry V).
  Notation log := (log V).
  Notation run := (run G St apply).
  Notation gates_of := (gates_of G K).
  Notation nsnaps := (nsnaps G K).
  Notation occs_from := (occs_from G St K V apply measure).
  Notation occs := (occs G St K V apply measure).
  Notation exec_dev := (exec_dev G St K V apply measure).
  Notation exec := (exec G St K V apply measure).
  Notation lookup := (lookup V).
  Notation set := (set V).
  Notation upd_dq := (upd_dq V).
  Notation upd_dm := (upd_dm V).
  Notation vals := (vals V).
  Notation pack := (pack V).
  Notation pack_last := (pack_last V).
  Notation erase := (erase G K).

  Lemma gates_of_app : forall a b, gates_of (a ++ b) = gates_of a ++ gates_of b.
  Proof. induction a as [|[g|t k] a IH]; intros b; cbn; [reflexivity| now rewrite IH | apply IH]. Qed.
  Lemma nsnaps_app : forall a b, nsnaps (a ++ b) = (nsnaps a + nsnaps b)%nat.
  Proof. induction a as [|[g|t k] a IH]; intros b; cbn; [reflexivity| apply IH | now rewrite IH]. Qed.
  Lemma run_app : forall a b st, run (a ++ b) st = run b (run a st).
  Proof. intros; unfold SnapshotsModel.run; apply fold_left_app. Qed.
  Lemma gates_of_erase : forall c, gates_of (erase c) = gates_of c.
  Proof. induction c as [|[g|t k] c IH]; cbn; [reflexivity| now rewrite IH | apply IH]. Qed.
  Lemma nsnaps_erase : forall c, nsnaps (erase c) = 0%nat.
  Proof. induction c as [|[g|t k] c IH]; cbn; auto. Qed.

  Lemma exec_dev_spec : forall upd c pre init l,
      exec_dev upd c (run (gates_of pre) init) (nsnaps pre) l
      = (run (gates_of (pre ++ c)) init,
         fold_left (fun l o => match o with (t, ord, v) => upd (tag_key t ord) v l end)
                   (occs_from pre c init) l).
  Proof.
    intros upd; induction c as [|[g|t k] c IH]; intros pre init l.
    - cbn. now rewrite app_nil_r.
    - cbn [SnapshotsModel.exec_dev SnapshotsModel.occs_from].
      specialize (IH (pre ++ [Gate G K g]) init l).
      rewrite gates_of_app, nsnaps_app, run_app in IH. cbn in IH. rewrite Nat.add_0_r in IH.
      rewrite IH. now rewrite <- app_assoc.
    - cbn [SnapshotsModel.exec_dev SnapshotsModel.occs_from fold_left].
      specialize (IH (pre ++ [Snap G K t k]) init
                     (upd (tag_key t (nsnaps pre)) (measure k (run (gates_of pre) init)) l)).
      rewrite gates_of_app, nsnaps_app in IH. cbn in IH. rewrite app_nil_r, Nat.add_1_r in IH.
      rewrite IH. now rewrite <- app_assoc.
  Qed.

  (* the j-th snapshot, sitting at position p, is logged with the value of the circuit truncated at p,
     and with ordinal = number of snapshots before it *)
  Lemma occs_from_prefix : forall c pre init p t k,
      nth_error c p = Some (Snap G K t k) ->
      nth_error (occs_from pre c init) (nsnaps (firstn p c))
      = Some (t, nsnaps (pre ++ firstn p c), measure k (run (gates_of (pre ++ firstn p c)) init)).
  Proof.
    induction c as [|x c IH]; intros pre init [|p] t k H; cbn in H; try discriminate.
    - inversion H; subst. cbn. now rewrite app_nil_r.
    - destruct x as [g|t' k'].
      + cbn [firstn SnapshotsModel.nsnaps SnapshotsModel.occs_from].
        rewrite (IH (pre ++ [Gate G K g]) init p t k H). now rewrite <- !app_assoc.
      + cbn [firstn SnapshotsModel.nsnaps SnapshotsModel.occs_from nth_error].
        rewrite (IH (pre ++ [Snap G K t' k']) init p t k H). now rewrite <- !app_assoc.
  Qed.

  Lemma occs_length : forall c pre init, length (occs_from pre c init) = nsnaps c.
  Proof. induction c as [|[g|t k] c IH]; intros; cbn; auto. Qed.

  Lemma occs_erase : forall c pre init, occs_from pre (erase c) init = [].
  Proof. induction c as [|[g|t k] c IH]; intros; cbn; auto. Qed.

  Lemma lookup_set : forall k k0 e l,
      lookup k (set k0 e l) = if key_eqb k k0 then Some e else lookup k l.
  Proof.
    intros k k0 e; induction l as [|[k' e'] l IH]; cbn.
    - reflexivity.
    - destruct (key_eqb k0 k') eqn:E0; cbn.
      + apply key_eqb_eq in E0; subst k'. destruct (key_eqb k k0); reflexivity.
      + destruct (key_eqb k k') eqn:E1.
        * destruct (key_eqb k k0) eqn:E2; [|reflexivity].
          apply key_eqb_eq in E1, E2; subst. now rewrite key_eqb_refl in E0.
        * apply IH.
  Qed.

  Lemma keys_set : forall k e l, map fst (set k e l) = add_key (map fst l) k.
  Proof.
    intros k e; unfold add_key; induction l as [|[k' e'] l IH]; cbn; [reflexivity|].
    destruct (key_eqb k k') eqn:E; cbn.
    - apply key_eqb_eq in E; now subst.
    - rewrite IH. destruct (existsb (key_eqb k) (map fst l)); reflexivity.
  Qed.

  Lemma keys_upd_dq : forall k v l, map fst (upd_dq k v l) = add_key (map fst l) k.
  Proof. intros; unfold SnapshotsModel.upd_dq. destruct (lookup k l) as [[v0|vs]|]; apply keys_set. Qed.

  Lemma keys_fold : forall (upd : key -> V -> log -> log),
      (forall k v l, map fst (upd k v l) = add_key (map fst l) k) ->
      forall kvs l, map fst (fold_left (fun l kv => upd (fst kv) (snd kv) l) kvs l)
                    = fold_left add_key (map fst kvs) (map fst l).
  Proof.
    intros upd H; induction kvs as [|[k v] kvs IH]; intros l; cbn; [reflexivity|].
    now rewrite IH, H.
  Qed.

  Lemma vals_snoc : forall k kvs k0 v,
      vals k (kvs ++ [(k0, v)]) = vals k kvs ++ (if key_eqb k k0 then [v] else []).
  Proof.
    intros. unfold SnapshotsModel.vals. rewrite filter_app, map_app. cbn.
    destruct (key_eqb k k0); reflexivity.
  Qed.

  (* default.qubit: under every key the list of all values logged under it, in order *)
  Lemma dq_lookup : forall kvs k,
      lookup k (fold_left (fun l kv => upd_dq (fst kv) (snd kv) l) kvs []) = pack (vals k kvs).
  Proof.
    induction kvs as [|[k0 v] kvs IH] using rev_ind; intros k; [reflexivity|].
    rewrite fold_left_app, vals_snoc. cbn [fold_left fst snd].
    set (L := fold_left (fun l kv => upd_dq (fst kv) (snd kv) l) kvs []) in *.
    unfold SnapshotsModel.upd_dq.
    pose proof (IH k0) as H0.
    destruct (lookup k0 L) as [[v0|vs]|] eqn:E0; rewrite lookup_set;
      destruct (key_eqb k k0) eqn:E; try (rewrite app_nil_r; apply IH);
      apply key_eqb_eq in E; subst k0.
    - (* One v0 *) destruct (vals k kvs) as [|a [|b r]]; cbn in H0; inversion H0; subst; reflexivity.
    - (* Many vs *) destruct (vals k kvs) as [|a [|b r]]; cbn in H0; inversion H0; subst. reflexivity.
    - destruct (vals k kvs) as [|a [|b r]]; cbn in H0; try discriminate. reflexivity.
  Qed.

  (* overwrite (default.mixed, tape splitting): the last value logged under the key *)
  Lemma over_lookup : forall kvs k,
      lookup k (fold_left (fun l kv => set (fst kv) (One V (snd kv)) l) kvs []) = pack_last (vals k kvs).
  Proof.
    induction kvs as [|[k0 v] kvs IH] using rev_ind; intros k; [reflexivity|].
    rewrite fold_left_app, vals_snoc. cbn [fold_left fst snd]. rewrite lookup_set.
    destruct (key_eqb k k0).
    - unfold SnapshotsModel.pack_last. now rewrite rev_app_distr.
    - rewrite app_nil_r. apply IH.
  Qed.

  Lemma fold_occs_kvs : forall (upd : key -> V -> log -> log) (kf : option Z -> nat -> key) os l,
      fold_left (fun l o => match o with (t, ord, v) => upd (kf t ord) v l end) os l
      = fold_left (fun l kv => upd (fst kv) (snd kv) l)
                  (map (fun o : option Z * nat * V => match o with (t, ord, v) => (kf t ord, v) end) os) l.
  Proof. intros upd kf; induction os as [|[[t ord] v] os IH]; intros l; cbn; [reflexivity | apply IH]. Qed.

  Lemma exec_dev_kvs : forall (upd : key -> V -> log -> log) c init,
      exec_dev upd c init 0 []
      = (run (gates_of c) init,
         fold_left (fun l kv => upd (fst kv) (snd kv) l) (dev_kvs G St K V apply measure c init) []).
  Proof.
    intros. unfold dev_kvs, SnapshotsModel.occs. rewrite <- fold_occs_kvs.
    exact (exec_dev_spec upd c [] init []).
  Qed.

  (* default.mixed: with no empty-string tag the falsy-tag branch is only taken by the very first
     snapshot (integer tag 0) on an empty log, where both branches coincide *)
  Lemma exec_dm_over : forall c st num l,
      no_empty G K c = true -> (num = 0%nat -> l = []) -> (l = [] -> num = 0%nat) ->
      exec_dev upd_dm c st num l
      = exec_dev (fun k v l => set k (One V v) l) c st num l.
  Proof.
    induction c as [|[g|t k] c IH]; intros st num l Hne H1 H2; [reflexivity| |].
    - cbn [SnapshotsModel.exec_dev]. apply IH; auto.
    - cbn [SnapshotsModel.exec_dev].
      assert (Hu : upd_dm (tag_key t num) (measure k st) l = set (tag_key t num) (One V (measure k st)) l).
      { unfold SnapshotsModel.upd_dm. destruct (truthy (tag_key t num)) eqn:T; [reflexivity|].
        destruct t as [s|]; cbn in T.
        - destruct s; cbn in T; cbn in Hne; discriminate.
        - destruct num; [|discriminate]. now rewrite (H1 eq_refl). }
      rewrite Hu. apply IH.
      + destruct t as [[| |]|]; cbn in Hne; auto; discriminate.
      + discriminate.
      + intros E. exfalso. destruct l as [|[k' e'] l']; cbn in E; [discriminate|].
        destruct (key_eqb (tag_key t num) k'); discriminate.
  Qed.

  Lemma exec_dm_spec : forall c init, no_empty G K c = true ->
      exec (DM) c init
      = (run (gates_of c) init,
         fold_left (fun l kv => set (fst kv) (One V (snd kv)) l) (dev_kvs G St K V apply measure c init) []).
  Proof.
    intros c init Hne. unfold SnapshotsModel.exec. rewrite exec_dm_over by auto.
    apply (exec_dev_kvs (fun k v l => set k (One V v) l)).
  Qed.

  Lemma split_spec : forall c pre init,
      map (fun x => match x with (k, ops, m) => (k, measure m (run ops init)) end)
          (fst (split G K c (gates_of pre) (nsnaps pre)))
      = map (fun o => match o with (t, ord, v) => (tape_key t ord, v) end) (occs_from pre c init)
      /\ snd (split G K c (gates_of pre) (nsnaps pre)) = gates_of (pre ++ c).
  Proof.
    induction c as [|[g|t k] c IH]; intros pre init.
    - cbn. now rewrite app_nil_r.
    - cbn [SnapshotsModel.split SnapshotsModel.occs_from].
      specialize (IH (pre ++ [Gate G K g]) init). rewrite gates_of_app, nsnaps_app in IH. cbn in IH.
      rewrite Nat.add_0_r, <- app_assoc in IH. exact IH.
    - cbn [SnapshotsModel.split SnapshotsModel.occs_from].
      specialize (IH (pre ++ [Snap G K t k]) init). rewrite gates_of_app, nsnaps_app in IH. cbn in IH.
      rewrite app_nil_r, Nat.add_1_r, <- app_assoc in IH.
      destruct (split G K c (gates_of pre) (S (nsnaps pre))) as [ts fin]. cbn [fst snd map] in *.
      destruct IH as [IH1 IH2]. split; [now rewrite IH1 | exact IH2].
  Qed.

  Lemma exec_tape_spec : forall c init,
      exec (TAPE) c init
      = (run (gates_of c) init,
         fold_left (fun l kv => set (fst kv) (One V (snd kv)) l) (tape_kvs G St K V apply measure c init) []).
  Proof.
    intros. unfold SnapshotsModel.exec, exec_tape, tape_kvs, SnapshotsModel.occs.
    destruct (split_spec c [] init) as [H1 H2]. cbn in H1, H2.
    destruct (split G K c [] 0) as [ts fin]. cbn [fst snd] in *. subst fin. f_equal.
    rewrite <- H1. clear H1. generalize (@nil (key * entry)).
    induction ts as [|[[k ops] m] ts IH]; intros l; cbn; [reflexivity | apply IH].
  Qed.

  (* the final state is that of the circuit with the snapshots erased, on every path *)
  Lemma final_state : forall m c init, no_empty G K c = true \/ m <> DM ->
      fst (exec m c init) = run (gates_of c) init.
  Proof.
    intros [| |] c init H.
    - unfold SnapshotsModel.exec. now rewrite exec_dev_kvs.
    - destruct H as [H|H]; [now rewrite exec_dm_spec | congruence].
    - now rewrite exec_tape_spec.
  Qed.

  Lemma final_state_dm_any : forall c st num l, fst (exec_dev upd_dm c st num l) = run (gates_of c) st.
  Proof.
    induction c as [|[g|t k] c IH]; intros; cbn; [reflexivity | apply IH | apply IH].
  Qed.

  Lemma exec_erased : forall m c init, exec m (erase c) init = (run (gates_of c) init, []).
  Proof.
    intros m c init.
    assert (Hne : no_empty G K (erase c) = true) by (induction c as [|[g|t k] c IH]; cbn; auto).
    destruct m; [unfold SnapshotsModel.exec; rewrite exec_dev_kvs | rewrite exec_dm_spec by exact Hne | rewrite exec_tape_spec];
      unfold dev_kvs, tape_kvs, SnapshotsModel.occs; rewrite occs_erase, gates_of_erase; reflexivity.
  Qed.
End Proofs.

Definition ex_circ : list (instr Z Z) :=
  [Snap Z Z None 0%Z; Gate Z Z 10%Z; Snap Z Z (Some 5%Z) 1%Z; Gate Z Z 11%Z; Snap Z Z (Some 5%Z) 2%Z;
   Snap Z Z None 0%Z; Gate Z Z 12%Z].

Lemma ex_dq : c_exec 0 ex_circ
  = ([10; 11; 12]%Z,
     [(KInt 0, One _ (0%Z, [])); (KStr 5, Many _ [(1%Z, [10%Z]); (2%Z, [10%Z; 11%Z])]);
      (KInt 3, One _ (0%Z, [10%Z; 11%Z]))]).
Proof. vm_compute. reflexivity. Qed.
Lemma ex_dm_tape : c_exec 1 ex_circ = c_exec 2 ex_circ
  /\ c_exec 1 ex_circ
     = ([10; 11; 12]%Z,
        [(KInt 0, One _ (0%Z, [])); (KStr 5, One _ (2%Z, [10%Z; 11%Z])); (KInt 3, One _ (0%Z, [10%Z; 11%Z]))]).
Proof. split; vm_compute; reflexivity. Qed.
(* the empty-string tag: default.qubit keeps it as a key, default.mixed and the tape path replace it by an
   integer (len(log) resp. the ordinal), which differ from each other after a duplicate tag *)
Lemma ex_empty_tag :
  let c := [Snap Z Z (Some 5%Z) 0%Z; Snap Z Z (Some 5%Z) 0%Z; Snap Z Z (Some 0%Z) 0%Z] in
  map fst (snd (c_exec 0 c)) = [KStr 5; KStr 0] /\
  map fst (snd (c_exec 1 c)) = [KStr 5; KInt 1] /\
  map fst (snd (c_exec 2 c)) = [KStr 5; KInt 2].
Proof. vm_compute. auto. Qed.
