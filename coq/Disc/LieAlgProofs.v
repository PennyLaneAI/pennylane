(* Soundness of the checkers of Disc/LieAlgModel.v (property C55).  All statements are for ALL inputs; the
   automorphism property of the built-in involutions holds for all canonical Pauli words and every wire choice
   (Props/C55.v states it for the words on <= 4 qubits). *)
From Coq Require Import List ZArith Bool QArith Lia Setoid.
From PLV Require Import Disc.PauliAlgModel Disc.PauliAlgProofs Disc.LieAlgModel.
Import ListNotations.
Open Scope Z_scope.

Lemma rcoeff_app a b u : (rcoeff (a ++ b) u == rcoeff a u + rcoeff b u)%Q.
Proof.
  induction a as [|[w c] r IH]; cbn [app rcoeff].
  - ring.
  - rewrite IH. ring.
Qed.

Lemma rcoeff_rscale x s u : (rcoeff (rscale x s) u == x * rcoeff s u)%Q.
Proof.
  induction s as [|[w c] r IH]; cbn [rscale map rcoeff fst snd].
  - ring.
  - fold (rscale x r). rewrite IH. destruct (weqb w u); [rewrite Qred_correct|]; ring.
Qed.

Lemma word_eq_dec (a b : word) : {a = b} + {a <> b}.
Proof.
  destruct (weqb a b) eqn:E.
  - left. apply weqb_eq. exact E.
  - right. intros H. apply weqb_eq in H. congruence.
Qed.

Lemma rcoeff_notin s u : ~ In u (keysof s) -> (rcoeff s u == 0)%Q.
Proof.
  induction s as [|[w c] r IH]; cbn [keysof map rcoeff fst]; intros H.
  - reflexivity.
  - destruct (weqb w u) eqn:E.
    + apply weqb_eq in E. exfalso. apply H. left. exact E.
    + rewrite IH; [ring|]. intros I. apply H. right. exact I.
Qed.

Lemma seqb_sound a b : seqb a b = true -> seq_r a b.
Proof.
  unfold seqb, seq_r. intros H u. rewrite forallb_forall in H.
  destruct (in_dec word_eq_dec u (keysof a ++ keysof b)) as [I|N].
  - apply Qeq_bool_iff. exact (H u I).
  - rewrite (rcoeff_notin a u), (rcoeff_notin b u); [reflexivity| |];
      intros I; apply N; apply in_or_app; [right|left]; exact I.
Qed.

Lemma seqb_complete a b : seq_r a b -> seqb a b = true.
Proof.
  unfold seqb, seq_r. intros H. apply forallb_forall. intros u _. apply Qeq_bool_iff. apply H.
Qed.

Lemma seq_r_refl a : seq_r a a.
Proof. intros u. reflexivity. Qed.
Lemma seq_r_sym a b : seq_r a b -> seq_r b a.
Proof. intros H u. symmetry. apply H. Qed.
Lemma seq_r_trans a b c : seq_r a b -> seq_r b c -> seq_r a c.
Proof. intros H1 H2 u. rewrite (H1 u). apply H2. Qed.

Lemma in_span_sound fs B v c : in_span fs B v = Some c -> length c = length B /\ seq_r (lincomb c B) v.
Proof.
  unfold in_span. destruct ((length (coords fs v) =? length B)%nat && seqb (lincomb (coords fs v) B) v) eqn:E;
    [|discriminate].
  intros H. injection H as <-. apply andb_true_iff in E as [E1 E2].
  split; [apply Nat.eqb_eq; exact E1 | apply seqb_sound; exact E2].
Qed.

Lemma all_in_span_sound fs B vs : all_in_span fs B vs = true -> forall v, In v vs -> in_span_spec B v.
Proof.
  unfold all_in_span. intros H v I. rewrite forallb_forall in H. specialize (H v I).
  destruct (in_span fs B v) as [c|] eqn:E; [|discriminate]. exists c. exact (in_span_sound fs B v c E).
Qed.

Lemma dot_ext f a b : seq_r a b -> (dot f a == dot f b)%Q.
Proof.
  intros H. induction f as [|[w q] r IH]; cbn [dot]; [reflexivity|]. rewrite IH, (H w). reflexivity.
Qed.

Lemma dot_nil f : (dot f [] == 0)%Q.
Proof. induction f as [|[w q] r IH]; cbn [dot rcoeff]; [reflexivity|]. rewrite IH. ring. Qed.

Lemma dot_app f a b : (dot f (a ++ b) == dot f a + dot f b)%Q.
Proof.
  induction f as [|[w q] r IH]; cbn [dot]; [ring|]. rewrite IH, rcoeff_app. ring.
Qed.

Lemma dot_rscale f x s : (dot f (rscale x s) == x * dot f s)%Q.
Proof.
  induction f as [|[w q] r IH]; cbn [dot]; [ring|]. rewrite IH, rcoeff_rscale. ring.
Qed.

(* skipping the zero coefficients changes nothing *)
Lemma lincomb_cons x c b B : seq_r (lincomb (x :: c) (b :: B)) (rscale x b ++ lincomb c B).
Proof.
  intros u. cbn [lincomb]. destruct (Qeq_bool x 0) eqn:E; [|reflexivity].
  apply Qeq_bool_iff in E. rewrite rcoeff_app, rcoeff_rscale, E. ring.
Qed.

Fixpoint qdot (c l : list Q) : Q :=
  match c, l with x :: c', y :: l' => (x * y + qdot c' l')%Q | _, _ => 0%Q end.

Lemma dot_lincomb f : forall c B, (dot f (lincomb c B) == qdot c (map (dot f) B))%Q.
Proof.
  induction c as [|x c IH]; intros B; [apply dot_nil|]. destruct B as [|b B]; [apply dot_nil|].
  rewrite (dot_ext f _ _ (lincomb_cons x c b B)), dot_app, dot_rscale, IH. reflexivity.
Qed.

(* against a unit vector the weighted sum picks one coefficient.  `unitb i` counts i down along the list and asks
   for the 1 where it meets 0, so below 0 all remaining entries are 0 *)
Lemma unitb_neg : forall l i c, i < 0 -> unitb i l = true -> (qdot c l == 0)%Q.
Proof.
  induction l as [|x r IH]; intros i c N H; destruct c as [|y c]; try reflexivity.
  cbn [unitb] in H. apply andb_true_iff in H as [H1 H2]. apply Qeq_bool_iff in H1.
  assert (E : (i =? 0) = false) by (apply Z.eqb_neq; lia). rewrite E in H1.
  cbn [qdot]. rewrite H1, (IH (i - 1) c ltac:(lia) H2). ring.
Qed.

Lemma unitb_nth : forall l k c, length c = length l -> unitb (Z.of_nat k) l = true -> (qdot c l == nth k c 0)%Q.
Proof.
  induction l as [|x r IH]; intros k c L H; destruct c as [|y c]; try discriminate; [destruct k; reflexivity|].
  cbn [unitb] in H. apply andb_true_iff in H as [H1 H2]. apply Qeq_bool_iff in H1. cbn [qdot]. rewrite H1.
  destruct k as [|k]; cbn [nth].
  - rewrite (unitb_neg r (-1) c eq_refl H2). cbn. ring.
  - replace (Z.of_nat (S k) - 1) with (Z.of_nat k) in H2 by lia.
    rewrite (IH k c (eq_add_S _ _ L) H2). cbn. ring.
Qed.

Lemma checkrows_nth : forall fs i B, checkrows i fs B = true ->
  forall k f, nth_error fs k = Some f -> unitb (i + Z.of_nat k) (map (dot f) B) = true.
Proof.
  induction fs as [|g fs IH]; intros i B H k f E.
  - destruct k; discriminate.
  - cbn [checkrows] in H. apply andb_true_iff in H as [H1 H2]. destruct k as [|k].
    + cbn in E. injection E as <-. replace (i + Z.of_nat 0) with i by lia. exact H1.
    + cbn [nth_error] in E. replace (i + Z.of_nat (S k)) with ((i + 1) + Z.of_nat k) by lia.
      exact (IH (i + 1) B H2 k f E).
Qed.

Lemma check_dual_length fs B : check_dual fs B = true -> length fs = length B.
Proof. unfold check_dual. intros H. apply andb_true_iff in H as [H _]. apply Nat.eqb_eq. exact H. Qed.

(* the value of the k-th dual functional on a linear combination is its k-th coefficient *)
Lemma dual_coordinate fs B : check_dual fs B = true ->
  forall c k f, length c = length B -> nth_error fs k = Some f ->
  (dot f (lincomb c B) == nth k c 0)%Q.
Proof.
  unfold check_dual. intros H c k f L E. apply andb_true_iff in H as [_ H].
  rewrite dot_lincomb. apply unitb_nth; [rewrite map_length; exact L|]. exact (checkrows_nth fs 0 B H k f E).
Qed.

Lemma check_dual_sound fs B : check_dual fs B = true -> independent_spec B.
Proof.
  intros H c L Z0 k Hk. pose proof (check_dual_length fs B H) as Lf.
  destruct (nth_error fs k) as [f|] eqn:E.
  - rewrite <- (dual_coordinate fs B H c k f L E). rewrite (dot_ext f _ [] Z0). apply dot_nil.
  - apply nth_error_None in E. lia.
Qed.

Lemma check_independent_sound B : check_independent B = true -> independent_spec B.
Proof.
  unfold check_independent. destruct (duals B) as [fs|]; [|discriminate]. apply check_dual_sound.
Qed.

Lemma brackets_in_span fs B A C : all_in_span fs B (brackets A C) = true ->
  forall a c, In a A -> In c C -> in_span_spec B (rbracket a c).
Proof.
  intros H a c Ha Hc. apply (all_in_span_sound fs B _ H). unfold brackets. apply in_flat_map.
  exists a. split; [exact Ha|]. apply in_map. exact Hc.
Qed.

Lemma check_closure_sound B G : check_closure B G = true ->
  independent_spec B /\
  (forall g, In g G -> in_span_spec B g) /\
  (forall a b, In a B -> In b B -> in_span_spec B (rbracket a b)).
Proof.
  unfold check_closure. destruct (duals B) as [fs|]; [|discriminate]. intros H.
  rewrite !andb_true_iff in H. destruct H as [[H1 H2] H3].
  split; [exact (check_dual_sound fs B H1)|]. split.
  - exact (all_in_span_sound fs B G H2).
  - exact (brackets_in_span fs B B B H3).
Qed.

Lemma check_structure_sound f B : check_structure f B = true ->
  forall a b, (a < length B)%nat -> (b < length B)%nat ->
    seq_r (rbracket (nth a B []) (nth b B [])) (rscale (-1 # 1) (lincomb (fcol f (length B) a b) B)).
Proof.
  unfold check_structure. intros H a b Ha Hb. apply seqb_sound.
  rewrite forallb_forall in H. specialize (H a). rewrite forallb_forall in H. apply H; apply in_seq; lia.
Qed.

Lemma theta_app inv a b : theta inv (a ++ b) = theta inv a ++ theta inv b.
Proof. unfold theta. apply map_app. Qed.

Lemma qopp_invol q : Qopp (Qopp q) = q.
Proof. destruct q as [n d]. unfold Qopp. cbn. rewrite Z.opp_involutive. reflexivity. Qed.

Lemma theta_involutive inv s : theta inv (theta inv s) = s.
Proof.
  unfold theta. rewrite map_map. rewrite <- (map_id s) at 2. apply map_ext. intros [w c]. cbn [fst snd].
  destruct (kappa inv w); [reflexivity|]. rewrite qopp_invol. reflexivity.
Qed.

(* theta is the linear extension of a sign function on Pauli words *)
Lemma theta_coeff inv s u : (rcoeff (theta inv s) u == (if kappa inv u then 1 else -1) * rcoeff s u)%Q.
Proof.
  induction s as [|[w c] r IH]; cbn [theta map rcoeff fst snd].
  - ring.
  - fold (theta inv r). rewrite IH. destruct (weqb w u) eqn:E.
    + apply weqb_eq in E. subst w. destruct (kappa inv u); ring.
    + ring.
Qed.

Lemma uniform_theta inv val s : uniform inv val s = true ->
  theta inv s = map (fun e => (fst e, if val then snd e else Qopp (snd e))) s.
Proof.
  unfold uniform, theta. intros H. rewrite forallb_forall in H.
  apply map_ext_in. intros e I. rewrite (eqb_prop _ _ (H e I)). reflexivity.
Qed.

Lemma uniform_true_fix inv s : uniform inv true s = true -> theta inv s = s.
Proof.
  intros H. rewrite (uniform_theta inv true s H). rewrite <- (map_id s) at 2. apply map_ext. intros [w c]. reflexivity.
Qed.

(* The built-in involutions are automorphisms.  Each kappa is made of letters of the word read at one wire and of
   parities of the number of its letters of one kind (any, or Y).  The product of canonical words is wire-wise, so
   what remains is to read the 4 x 4 letter table: the letters read at a wire follow it directly, and a kind of
   letters h whose parity changes sign exactly on anticommuting letters gives a parity that changes sign exactly on
   anticommuting words. *)
Fixpoint par (h : P1 -> bool) (w : word) : bool :=
  match w with [] => false | (_, p) :: r => xorb (h p) (par h r) end.

Lemma par_filter h w : par h w = is_odd (length (filter (fun e => h (snd e)) w)).
Proof.
  induction w as [|[i p] r IH]; [reflexivity|]. cbn [par filter snd]. rewrite IH.
  destruct (h p); [|apply xorb_false_l]. cbn [length]. unfold is_odd. rewrite Nat.odd_succ, <- Nat.negb_odd. reflexivity.
Qed.

Lemma par_length w : wf w -> par (fun p => negb (p1_eqb p PI)) w = is_odd (length w).
Proof.
  intros W. rewrite par_filter. f_equal. f_equal.
  induction w as [|[i p] r IH]; [reflexivity|]. destruct W as [Hp [_ Wr]].
  cbn [filter snd]. rewrite (IH Wr). destruct p; [contradiction|reflexivity..].
Qed.

Lemma par_count_y w : par (fun p => p1_eqb p PY) w = is_odd (count_y w).
Proof. apply par_filter. Qed.

(* the anticommutation count, wire by wire along the merge *)
Lemma acount_cons i p a b : acount ((i, p) :: a) b = anticom1 p (lookup b i) + acount a b.
Proof.
  cbn [acount]. f_equal. induction b as [|[j q] b IH]; cbn [wmem lookup].
  - destruct p; reflexivity.
  - destruct (i =? j); [reflexivity|exact IH].
Qed.

Lemma acount_fresh i p a b : wf b -> lb i b -> acount ((i, p) :: a) b = acount a b.
Proof. intros W L. rewrite acount_cons, (lb_lookup b i W L i (Z.le_refl i)). destruct p; reflexivity. Qed.

Lemma acount_skip j q b : forall a, wf a -> lb j a -> acount a ((j, q) :: b) = acount a b.
Proof.
  induction a as [|[i p] a IH]; intros W L; [reflexivity|]. destruct W as [_ [La Wa]]. cbn [lb] in L.
  rewrite !acount_cons. cbn [lookup]. assert (E : (i =? j) = false) by (apply Z.eqb_neq; lia).
  rewrite E, (IH Wa); [reflexivity|]. apply (lb_weaken j i a La). lia.
Qed.

Lemma acount_same i p q a b : wf a -> lb i a -> acount ((i, p) :: a) ((i, q) :: b) = anticom1 p q + acount a b.
Proof. intros W L. rewrite acount_cons, (acount_skip i q b a W L). cbn [lookup]. rewrite Z.eqb_refl. reflexivity. Qed.

Lemma acount_nil_r a : acount a [] = 0.
Proof. induction a as [|[i p] a IH]; [reflexivity|]. rewrite acount_fresh; [exact IH|exact I..]. Qed.

Lemma commutes_odd a b : commutes a b = negb (Z.odd (acount a b)).
Proof. unfold commutes. rewrite Zmod_odd. destruct (Z.odd (acount a b)); reflexivity. Qed.

Definition odd_kind (h : P1 -> bool) : Prop :=
  forall p q, h (snd (mul1 p q)) = xorb (xorb (h p) (h q)) (Z.odd (anticom1 p q)).

Lemma par_wmerge h : odd_kind h -> forall a b, wf a -> wf b ->
  par h (snd (wmerge false a b)) = xorb (xorb (par h a) (par h b)) (Z.odd (acount a b)).
Proof.
  intros Hh. apply (merge_ind (fun a b => wf a -> wf b ->
    par h (snd (wmerge false a b)) = xorb (xorb (par h a) (par h b)) (Z.odd (acount a b)))).
  - intros b _ _. rewrite wmerge_nil_l. cbn [snd par acount Z.odd]. ring.
  - intros a _ _. rewrite wmerge_nil_r, acount_nil_r. cbn [snd par Z.odd]. ring.
  - intros i p a j q b L IH Wa Wb. rewrite wmerge_lt, (acount_fresh i p a _ Wb L) by exact L.
    cbn [snd par]. rewrite (IH (proj2 (proj2 Wa)) Wb). cbn [par]. ring.
  - intros i p a j q b L IH Wa Wb. rewrite wmerge_gt, (acount_skip j q b _ Wa L) by exact L.
    cbn [snd par]. rewrite (IH Wa (proj2 (proj2 Wb))). cbn [par]. ring.
  - intros i p a q b IH [_ [La Wa]] [_ [Lb Wb]]. rewrite wmerge_same, acount_same, Z.odd_add by assumption.
    assert (H0 : h PI = false).
    { pose proof (Hh PI PI) as E. cbn in E. destruct (h PI); [discriminate E|reflexivity]. }
    cbn [mulsw]. transitivity (xorb (h (snd (mul1 p q))) (par h (snd (wmerge false a b)))).
    + destruct (snd (mul1 p q)); [rewrite H0; symmetry; apply xorb_false_l|reflexivity..].
    + rewrite (Hh p q), (IH Wa Wb). cbn [par]. ring.
Qed.

Lemma par_wmul h a b : odd_kind h -> wf a -> wf b ->
  par h (snd (wmul a b)) = xorb (xorb (par h a) (par h b)) (negb (commutes a b)).
Proof. intros Hh Wa Wb. rewrite wmul_merge, commutes_odd, negb_involutive. apply par_wmerge; assumption. Qed.

Lemma wmul_lookup a b x : wf a -> wf b -> lookup (snd (wmul a b)) x = snd (mul1 (lookup a x) (lookup b x)).
Proof. intros Wa Wb. rewrite wmul_merge. apply wmerge_lookup; assumption. Qed.

Lemma wmul_wf a b : wf a -> wf b -> wf (snd (wmul a b)).
Proof. intros Wa Wb. rewrite wmul_merge. apply wmerge_wf; assumption. Qed.

Lemma odd_kind_any : odd_kind (fun p => negb (p1_eqb p PI)).
Proof. intros [] []; reflexivity. Qed.
Lemma odd_kind_y : odd_kind (fun p => p1_eqb p PY).
Proof. intros [] []; reflexivity. Qed.

Theorem kappa_automorphism inv w1 w2 : wf w1 -> wf w2 -> commutes w1 w2 = false ->
  kappa inv (snd (wmul w1 w2)) = Bool.eqb (kappa inv w1) (kappa inv w2).
Proof.
  intros W1 W2 C. pose proof (wmul_wf w1 w2 W1 W2) as W.
  assert (P : forall h, odd_kind h -> par h (snd (wmul w1 w2)) = Bool.eqb (par h w1) (par h w2)).
  { intros h Hh. rewrite par_wmul, C by assumption. destruct (par h w1), (par h w2); reflexivity. }
  destruct inv as [| |x|x|x|x]; cbn [kappa]; try rewrite (wmul_lookup w1 w2 x W1 W2).
  4-6: destruct (lookup w1 x), (lookup w2 x); reflexivity.
  - rewrite <- !par_length by assumption. apply P, odd_kind_any.
  - rewrite <- !par_count_y. apply P, odd_kind_y.
  - unfold is_odd. rewrite !Nat.odd_add. fold is_odd. rewrite <- !par_count_y, (P _ odd_kind_y).
    destruct (par _ w1), (par _ w2), (lookup w1 x), (lookup w2 x); reflexivity.
Qed.

Lemma wf_snoc k p : forall w, wf w -> (forall x, In x (keys w) -> x < k) -> p <> PI -> wf (w ++ [(k, p)]).
Proof.
  induction w as [|[i l] r IH]; intros W B Hp; [exact (conj Hp (conj I I))|].
  destruct W as [Hl [Lr Wr]]. cbn [app wf]. split; [exact Hl|]. split.
  - destruct r as [|[j m] r]; [|exact Lr]. apply B. left. reflexivity.
  - apply IH; [exact Wr| |exact Hp]. intros x Hx. apply B. right. exact Hx.
Qed.

Lemma all_words_wf : forall n w, In w (all_words n) -> wf w /\ forall x, In x (keys w) -> x < Z.of_nat n.
Proof.
  induction n as [|k IH]; intros w H.
  - destruct H as [<-|[]]. split; [exact I|intros x []].
  - cbn [all_words] in H. apply in_flat_map in H. destruct H as [v [Hv H]]. destruct (IH v Hv) as [Wv Bv].
    assert (Snoc : forall p, p <> PI -> wf (v ++ [(Z.of_nat k, p)]) /\
                  forall x, In x (keys (v ++ [(Z.of_nat k, p)])) -> x < Z.of_nat (S k)).
    { intros p Hp. split; [exact (wf_snoc _ p v Wv Bv Hp)|]. intros x Hx. unfold keys in Hx.
      rewrite map_app in Hx. apply in_app_or in Hx. destruct Hx as [Hx|[<-|[]]]; [specialize (Bv x Hx)|cbn [fst]]; lia. }
    destruct H as [<-|[<-|[<-|[<-|[]]]]]; [|apply Snoc; discriminate..].
    split; [exact Wv|]. intros x Hx. specialize (Bv x Hx). lia.
Qed.

Lemma check_cartan_sound inv k m : check_cartan inv k m = true ->
  (forall x, In x k -> theta inv x = x) /\
  (forall y, In y m -> theta inv y = map (fun e => (fst e, Qopp (snd e))) y) /\
  independent_spec k /\ independent_spec m /\
  (forall a b, In a k -> In b k -> in_span_spec k (rbracket a b)) /\
  (forall a b, In a k -> In b m -> in_span_spec m (rbracket a b)) /\
  (forall a b, In a m -> In b m -> in_span_spec k (rbracket a b)).
Proof.
  unfold check_cartan. destruct (duals k) as [fk|]; [|rewrite andb_false_r; discriminate].
  destruct (duals m) as [fm|]; [|rewrite andb_false_r; discriminate]. intros H.
  rewrite !andb_true_iff, !forallb_forall in H. destruct H as [[H1 H2] [[[[C1 C2] C3] C4] C5]].
  split; [intros x I; exact (uniform_true_fix inv x (H1 x I))|].
  split; [intros y I; exact (uniform_theta inv false y (H2 y I))|].
  split; [exact (check_dual_sound fk k C1)|].
  split; [exact (check_dual_sound fm m C2)|].
  split; [exact (brackets_in_span fk k k k C3)|].
  split; [exact (brackets_in_span fm m k m C4)|exact (brackets_in_span fk k m m C5)].
Qed.

Lemma lincomb_ext : forall c c' B, Forall2 Qeq c c' -> seq_r (lincomb c B) (lincomb c' B).
Proof.
  induction c as [|x c IH]; intros c' B F; inversion F as [|x0 y0 l l' Hxy Fl]; subst.
  - apply seq_r_refl.
  - destruct B as [|b B]; [apply seq_r_refl|].
    intros u. rewrite (lincomb_cons x c b B u), (lincomb_cons y0 l' b B u), !rcoeff_app, !rcoeff_rscale, Hxy, (IH l' B Fl u).
    reflexivity.
Qed.

Lemma coords_eq fs B : check_dual fs B = true -> forall c v,
  length c = length B -> seq_r (lincomb c B) v -> Forall2 Qeq (coords fs v) c.
Proof.
  intros H c v L S.
  assert (Lf : length fs = length c) by (rewrite L; exact (check_dual_length fs B H)).
  assert (P : forall k f, nth_error fs k = Some f -> (Qred (dot f v) == nth k c 0)%Q).
  { intros k f E. rewrite Qred_correct. rewrite <- (dot_ext f _ _ S). exact (dual_coordinate fs B H c k f L E). }
  clear H L S. unfold coords. revert c Lf P. induction fs as [|f fs IH]; intros c Lf P.
  - destruct c; [constructor|discriminate].
  - destruct c as [|x c]; [discriminate|]. cbn [map]. constructor.
    + exact (P 0%nat f eq_refl).
    + apply IH; [simpl in Lf; lia|]. intros k g E. exact (P (S k) g E).
Qed.

Lemma in_span_complete fs B v : check_dual fs B = true -> in_span_spec B v -> in_span fs B v <> None.
Proof.
  intros H [c [L S]]. unfold in_span.
  pose proof (coords_eq fs B H c v L S) as F.
  assert (E1 : (length (coords fs v) =? length B)%nat = true).
  { apply Nat.eqb_eq. unfold coords. rewrite map_length. exact (check_dual_length fs B H). }
  assert (E2 : seqb (lincomb (coords fs v) B) v = true).
  { apply seqb_complete. eapply seq_r_trans; [apply lincomb_ext; exact F | exact S]. }
  rewrite E1, E2. discriminate.
Qed.

(* PauliVSpace's question, decided exactly *)
Lemma vspace_independent_exact B v b : vspace_independent B v = Some b ->
  independent_spec B /\ (b = false <-> in_span_spec B v).
Proof.
  unfold vspace_independent. destruct (duals B) as [fs|]; [|discriminate].
  destruct (check_dual fs B) eqn:D; [|discriminate]. intros H. injection H as <-.
  split; [exact (check_dual_sound fs B D)|].
  destruct (in_span fs B v) as [c|] eqn:E.
  - split; [intros _|reflexivity]. exists c. exact (in_span_sound fs B v c E).
  - split; [discriminate|]. intros S. exfalso. exact (in_span_complete fs B v D S E).
Qed.
