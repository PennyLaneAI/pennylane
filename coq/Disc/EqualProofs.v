(* Proofs about Disc/EqualModel.v (the model of qp.equal).
   - The Comp case of `equal` maps `equal` over the left operands before sorting them (that form passes
     the guard checker).  The sorts read only key and wires, so they commute with omap (sortK_map);
     equal_comp_unfold gives the usable form "sort both operand lists, compare pointwise", and sortK_in
     carries the induction hypothesis through the sort.
   - Reflexivity and symmetry go by op_ind2 (induction with a Forall premise for operand lists).  Every
     structural test of qp.equal is symmetric; allclose is not, and `far` / `all_far` say when it is.
   - same_struct is equal 0 0 read as a relation, one constructor per way two operators can be equal. *)
From Coq Require Import List ZArith QArith Qabs Qminmax Bool Lia Lqa Arith.
From PLV Require Import Disc.EqualModel.
Import ListNotations.
Open Scope Z_scope.

Section OpInd.
  Variable P : op -> Prop.
  Hypothesis HPlain : forall n ps w h, P (Plain n ps w h).
  Hypothesis HCtrl : forall n b cw cv ww wt, P b -> P (Ctrl n b cw cv ww wt).
  Hypothesis HPow : forall n z b, P b -> P (PowO n z b).
  Hypothesis HAdj : forall n b, P b -> P (Adj n b).
  Hypothesis HSProd : forall s k p b, P b -> P (SProdO s k p b).
  Hypothesis HExp : forall n c k b, P b -> P (ExpO n c k b).
  Hypothesis HComp : forall n k p ops, Forall (fun o => P (snd o)) ops -> P (Comp n k p ops).
  Fixpoint op_ind2 (a : op) : P a :=
    match a with
    | Plain n ps w h => HPlain n ps w h
    | Ctrl n b cw cv ww wt => HCtrl n b cw cv ww wt (op_ind2 b)
    | PowO n z b => HPow n z b (op_ind2 b)
    | Adj n b => HAdj n b (op_ind2 b)
    | SProdO s k p b => HSProd s k p b (op_ind2 b)
    | ExpO n c k b => HExp n c k b (op_ind2 b)
    | Comp n k p ops =>
        HComp n k p ops
          ((fix go (l : list (Z * list Z * op)) : Forall (fun o => P (snd o)) l :=
              match l with
              | [] => Forall_nil _
              | o :: r => Forall_cons o (op_ind2 (snd o)) (go r)
              end) ops)
    end.
End OpInd.

Open Scope Q_scope.
Lemma close_iff : forall rt at_ a b, close rt at_ a b = true <-> Qabs (a - b) <= at_ + rt * Qabs b.
Proof. intros; unfold close; apply Qle_bool_iff. Qed.

Lemma close_false_iff : forall rt at_ a b, close rt at_ a b = false <-> at_ + rt * Qabs b < Qabs (a - b).
Proof.
  intros. split; intro H.
  - apply Qnot_le_lt. intro L. apply close_iff in L. congruence.
  - destruct (close rt at_ a b) eqn:E; auto. apply close_iff in E. apply Qle_not_lt in E. contradiction.
Qed.

Lemma close_refl : forall rt at_ a, 0 <= rt -> 0 <= at_ -> close rt at_ a a = true.
Proof.
  intros. apply close_iff. setoid_replace (a - a) with 0 by ring.
  pose proof (Qabs_nonneg a). simpl. nra.
Qed.

Lemma close_asym_window : forall rt at_ a b,
  (close rt at_ a b = true /\ close rt at_ b a = false) <->
  (at_ + rt * Qabs a < Qabs (a - b) /\ Qabs (a - b) <= at_ + rt * Qabs b).
Proof.
  intros. rewrite close_iff, close_false_iff. rewrite (Qabs_Qminus b a). tauto.
Qed.

(* a pair on which allclose gives the same answer in both orders: equal, or rejected from either side *)
Definition far (rt at_ a b : Q) : Prop :=
  a == b \/ (at_ + rt * Qabs a < Qabs (a - b) /\ at_ + rt * Qabs b < Qabs (a - b)).

Lemma close_wd : forall rt at_ a a' b b', a == a' -> b == b' -> close rt at_ a b = close rt at_ a' b'.
Proof.
  intros rt at_ a a' b b' Ha Hb. unfold close. rewrite Ha, Hb. reflexivity.
Qed.

Lemma close_sym_far : forall rt at_ a b, far rt at_ a b -> close rt at_ a b = close rt at_ b a.
Proof.
  intros rt at_ a b [E | [H1 H2]].
  - apply close_wd; [exact E | symmetry; exact E].
  - assert (close rt at_ a b = false) by (apply close_false_iff; exact H2).
    assert (close rt at_ b a = false) by (apply close_false_iff; rewrite (Qabs_Qminus b a); exact H1).
    congruence.
Qed.

(* the one-sided formulation with max, and the (stronger) factor 2 of the property text *)
Lemma far_of_max : forall rt at_ a b, 0 <= rt ->
  at_ + rt * Qmax (Qabs a) (Qabs b) < Qabs (a - b) -> far rt at_ a b.
Proof.
  intros. right.
  pose proof (Q.le_max_l (Qabs a) (Qabs b)). pose proof (Q.le_max_r (Qabs a) (Qabs b)).
  split; nra.
Qed.

Lemma far_of_twice_max : forall rt at_ a b, 0 <= rt -> 0 <= at_ ->
  2 * (at_ + rt * Qmax (Qabs a) (Qabs b)) < Qabs (a - b) -> far rt at_ a b.
Proof.
  intros. apply far_of_max; auto.
  pose proof (Q.le_max_l (Qabs a) (Qabs b)). pose proof (Qabs_nonneg a).
  assert (0 <= Qmax (Qabs a) (Qabs b)) by lra. nra.
Qed.

Lemma close_exact : forall a b, close 0 0 a b = true -> a == b.
Proof.
  intros a b H. apply close_iff in H.
  assert (L : Qabs (a - b) <= 0) by lra.
  apply Qabs_Qle_condition in L. destruct L. lra.
Qed.

Close Scope Q_scope.
Lemma forallb2_refl : forall A (f : A -> A -> bool) l,
  (forall x, In x l -> f x x = true) -> forallb2 f l l = true.
Proof.
  induction l; simpl; intros; auto. rewrite H by auto. simpl. apply IHl. intros; apply H; auto.
Qed.

Lemma forallb2_swap : forall A B (f : A -> B -> bool) (g : B -> A -> bool) l1 l2,
  (forall x y, In x l1 -> In y l2 -> f x y = g y x) -> forallb2 f l1 l2 = forallb2 g l2 l1.
Proof.
  induction l1; destruct l2; simpl; intros; auto.
  rewrite (H a b) by auto. f_equal. apply IHl1. intros; apply H; auto.
Qed.

Lemma forallb2_Forall2 : forall A B (f : A -> B -> bool) (R : A -> B -> Prop) l1 l2,
  Forall (fun x => forall y, f x y = true -> R x y) l1 ->
  forallb2 f l1 l2 = true -> Forall2 R l1 l2.
Proof.
  induction l1; destruct l2; simpl; intros HF H; try discriminate; constructor;
    inversion HF; subst; apply andb_prop in H as [Hx Hr]; auto.
Qed.

Lemma forallb2_map_l : forall A B C (g : A -> B) (f : B -> C -> bool) l1 l2,
  forallb2 f (map g l1) l2 = forallb2 (fun x y => f (g x) y) l1 l2.
Proof. induction l1; destruct l2; simpl; intros; auto. rewrite IHl1. reflexivity. Qed.

Lemma zlist_eqb_refl : forall l, zlist_eqb l l = true.
Proof. intros. apply forallb2_refl. intros. apply Z.eqb_refl. Qed.

Lemma zlist_eqb_sym : forall a b, zlist_eqb a b = zlist_eqb b a.
Proof. intros. apply forallb2_swap. intros. apply Z.eqb_sym. Qed.

Lemma zlist_eqb_eq : forall a b, zlist_eqb a b = true -> a = b.
Proof.
  induction a; destruct b; simpl; intros; try discriminate; auto.
  apply andb_prop in H. destruct H. apply Z.eqb_eq in H. subst. f_equal. auto.
Qed.

Lemma dict_eqb_sym : forall d1 d2, dict_eqb d1 d2 = dict_eqb d2 d1.
Proof.
  intros. unfold dict_eqb. rewrite (Nat.eqb_sym (length d1)).
  destruct (length d2 =? length d1)%nat; simpl; auto. apply andb_comm.
Qed.

Definition keys_nodup (d : list (Z * bool)) : Prop := NoDup (map fst d).

Lemma filter_keys_notin : forall w (d : list (Z * bool)),
  ~ In w (map fst (filter (fun kv => negb (fst kv =? w)) d)).
Proof.
  induction d; simpl; auto. destruct (Z.eqb_spec (fst a) w); simpl; auto.
  intros [E | I]; auto.
Qed.

Lemma filter_keys_nodup : forall (f : Z * bool -> bool) d, keys_nodup d -> keys_nodup (filter f d).
Proof.
  unfold keys_nodup. induction d; simpl; intros; auto. inversion H; subst.
  destruct (f a); simpl; auto. constructor; auto.
  intro I. apply H2. clear - I. induction d; simpl in *; auto. destruct (f a0); simpl in *; tauto.
Qed.

Lemma dict_of_nodup : forall ws vs acc, keys_nodup acc -> keys_nodup (dict_of ws vs acc).
Proof.
  induction ws; destruct vs; simpl; intros; auto.
  apply IHws. unfold keys_nodup. simpl. constructor.
  - apply filter_keys_notin.
  - apply filter_keys_nodup. exact H.
Qed.

Lemma dlookup_in_nodup : forall d k v, keys_nodup d -> In (k, v) d -> dlookup k d = Some v.
Proof.
  unfold keys_nodup. induction d; simpl; intros; [tauto|]. destruct a as [k0 v0]. simpl in *.
  inversion H; subst. destruct H0 as [E | I].
  - inversion E; subst. rewrite Z.eqb_refl. reflexivity.
  - destruct (Z.eqb_spec k0 k).
    + subst. exfalso. apply H3. change k with (fst (k, v)). apply in_map. exact I.
    + auto.
Qed.

Lemma dict_sub_refl : forall d, keys_nodup d -> dict_sub d d = true.
Proof.
  intros. unfold dict_sub. apply forallb_forall. intros [k v] I. simpl.
  rewrite (dlookup_in_nodup d k v H I). simpl. apply eqb_reflx.
Qed.

Lemma ctrl_dict_eqb_refl : forall cw cv, ctrl_dict_eqb cw cv cw cv = true.
Proof.
  intros. unfold ctrl_dict_eqb, dict_eqb. rewrite Nat.eqb_refl.
  rewrite dict_sub_refl by (apply dict_of_nodup; constructor). reflexivity.
Qed.

(* the sorts look only at keys and wires, so they commute with maps on the payload *)
Lemma sum_insert_map : forall A B (f : A -> B) x l,
  sum_insert (omap f x) (map (omap f) l) = map (omap f) (sum_insert x l).
Proof.
  induction l; simpl; auto.
  change (okey (omap f x)) with (okey x). change (okey (omap f a)) with (okey a).
  destruct (okey x <=? okey a); simpl; auto. rewrite IHl. reflexivity.
Qed.

Lemma sum_sort_map : forall A B (f : A -> B) l, sum_sort (map (omap f) l) = map (omap f) (sum_sort l).
Proof.
  unfold sum_sort. induction l; simpl; auto. rewrite IHl. apply sum_insert_map.
Qed.

Lemma prod_insert_map : forall A B (f : A -> B) x l,
  prod_insert (omap f x) (map (omap f) l) = map (omap f) (prod_insert x l).
Proof.
  induction l; simpl; auto. change (swappable (omap f a) (omap f x)) with (swappable a x).
  destruct (swappable a x); simpl; auto. rewrite IHl. reflexivity.
Qed.

Lemma prod_fold_map : forall A B (f : A -> B) l acc,
  fold_left (fun acc x => prod_insert x acc) (map (omap f) l) (map (omap f) acc)
  = map (omap f) (fold_left (fun acc x => prod_insert x acc) l acc).
Proof.
  induction l; simpl; intros; auto. rewrite prod_insert_map. apply IHl.
Qed.

Lemma prod_sort_map : forall A B (f : A -> B) l, prod_sort (map (omap f) l) = map (omap f) (prod_sort l).
Proof.
  intros. unfold prod_sort. change (@nil (operand B)) with (map (omap f) (@nil (operand A))).
  rewrite (prod_fold_map A B f l []). apply eq_sym, map_rev.
Qed.

Lemma sortK_map : forall A B (f : A -> B) k l, sortK k (map (omap f) l) = map (omap f) (sortK k l).
Proof.
  intros. unfold sortK. destruct (k =? SORT_SUM); [apply sum_sort_map|].
  destruct (k =? SORT_PROD); [apply prod_sort_map | reflexivity].
Qed.

Lemma sum_insert_in : forall A (x y : operand A) l, In y (sum_insert x l) -> y = x \/ In y l.
Proof.
  induction l; simpl; intros.
  - destruct H; auto.
  - destruct (okey x <=? okey a); simpl in H.
    + destruct H as [H | [H | H]]; auto.
    + destruct H as [H | H]; auto. apply IHl in H. tauto.
Qed.

Lemma sum_sort_in : forall A (y : operand A) l, In y (sum_sort l) -> In y l.
Proof.
  unfold sum_sort. induction l; simpl; intros; auto.
  apply sum_insert_in in H. destruct H; auto.
Qed.

Lemma prod_insert_in : forall A (x y : operand A) l, In y (prod_insert x l) -> y = x \/ In y l.
Proof.
  induction l; simpl; intros.
  - destruct H; auto.
  - destruct (swappable a x); simpl in H.
    + destruct H as [H | H]; auto. apply IHl in H. tauto.
    + destruct H as [H | [H | H]]; auto.
Qed.

Lemma prod_fold_in : forall A (y : operand A) l acc,
  In y (fold_left (fun acc x => prod_insert x acc) l acc) -> In y l \/ In y acc.
Proof.
  induction l; simpl; intros; auto. apply IHl in H. destruct H; auto.
  apply prod_insert_in in H. destruct H; auto.
Qed.

Lemma sortK_in : forall A k (y : operand A) l, In y (sortK k l) -> In y l.
Proof.
  intros A k y l. unfold sortK. destruct (k =? SORT_SUM); [apply sum_sort_in|].
  destruct (k =? SORT_PROD); auto.
  unfold prod_sort. intro H. apply in_rev in H. apply prod_fold_in in H. destruct H as [H | []]; auto.
Qed.

Lemma equal_comp_unfold : forall rt at_ n k p ops n' k' p' ops',
  equal rt at_ (Comp n k p ops) (Comp n' k' p' ops') =
  (n =? n') && (prep_match p p' ||
     ((length ops =? length ops')%nat &&
      forallb2 (fun x y => equal rt at_ (obody x) (obody y)) (sortK k ops) (sortK k' ops'))).
Proof.
  intros. cbn [equal].
  change (map (fun o : Z * list Z * op => (fst o, equal rt at_ (snd o))) ops)
    with (map (omap (equal rt at_)) ops).
  rewrite sortK_map, forallb2_map_l. reflexivity.
Qed.

Lemma params_close_refl : forall rt at_ ps, (0 <= rt)%Q -> (0 <= at_)%Q -> params_close rt at_ ps ps = true.
Proof.
  intros. unfold params_close. apply forallb2_refl. intros. apply forallb2_refl. intros.
  apply close_refl; auto.
Qed.

Lemma equal_refl_op : forall rt at_, (0 <= rt)%Q -> (0 <= at_)%Q -> forall a, equal rt at_ a a = true.
Proof.
  intros rt at_ Hr Ha. induction a using op_ind2.
  - cbn [equal]. rewrite Z.eqb_refl, zlist_eqb_refl, Z.eqb_refl, params_close_refl by auto.
    simpl. apply orb_true_r.
  - cbn [equal]. rewrite !Z.eqb_refl, zlist_eqb_refl, ctrl_dict_eqb_refl, IHa. reflexivity.
  - cbn [equal]. rewrite Z.eqb_refl, Qeq_bool_refl, IHa. reflexivity.
  - cbn [equal]. rewrite Z.eqb_refl, IHa. reflexivity.
  - cbn [equal]. rewrite Z.eqb_refl, close_refl, IHa by auto. simpl. apply orb_true_r.
  - cbn [equal]. rewrite !Z.eqb_refl, close_refl, IHa by auto. reflexivity.
  - rewrite equal_comp_unfold, Z.eqb_refl, Nat.eqb_refl, forallb2_refl.
    + apply orb_true_r.
    + intros x I. apply sortK_in in I. rewrite Forall_forall in H. apply (H x I).
Qed.

Lemma eig_close_refl : forall rt at_ e, (0 <= rt)%Q -> (0 <= at_)%Q -> eig_close rt at_ e e = true.
Proof.
  intros. destruct e; simpl; auto. apply forallb2_refl. intros. apply close_refl; auto.
Qed.

Lemma equal_refl_item : forall rt at_, (0 <= rt)%Q -> (0 <= at_)%Q -> forall a, equal_item rt at_ a a = true.
Proof.
  intros rt at_ Hr Ha [o | [k o w e x y]]; simpl.
  - apply equal_refl_op; auto.
  - rewrite !Z.eqb_refl. simpl. destruct o.
    + apply equal_refl_op; auto.
    + rewrite zlist_eqb_refl, eig_close_refl; auto.
Qed.

Lemma same_data_equal_item : forall rt at_, (0 <= rt)%Q -> (0 <= at_)%Q ->
  forall a b, a = b -> equal_item rt at_ a b = true /\ equal_item rt at_ b a = true.
Proof. intros; subst; split; apply equal_refl_item; auto. Qed.

(* the numbers qp.equal compares through allclose; a Pow exponent is compared with ==, which is symmetric *)
Fixpoint nums (a : op) : list Q :=
  match a with
  | Plain _ ps _ _ => concat ps
  | Ctrl _ b _ _ _ _ => nums b
  | PowO _ _ b => nums b
  | Adj _ b => nums b
  | SProdO s _ _ b => s :: nums b
  | ExpO _ c _ b => c :: nums b
  | Comp _ _ _ ops => flat_map (fun o : Z * list Z * op => nums (snd o)) ops
  end.

Definition nums_mp (m : mp) : list Q :=
  match m with
  | MP _ o _ e _ _ => (match o with Some a => nums a | None => [] end) ++ (match e with Some x => x | None => [] end)
  end.

Definition nums_item (a : item) : list Q := match a with IOp o => nums o | IMp m => nums_mp m end.

(* every number of the first object against every number of the second, whatever their positions:
   stronger than needed (only corresponding fields are compared) but independent of the sorts *)
Definition all_far (rt at_ : Q) (l1 l2 : list Q) : Prop :=
  forall x y, In x l1 -> In y l2 -> far rt at_ x y.

Lemma all_far_incl : forall rt at_ l1 l2 m1 m2,
  all_far rt at_ l1 l2 -> incl m1 l1 -> incl m2 l2 -> all_far rt at_ m1 m2.
Proof. unfold all_far; intros; auto. Qed.

Lemma close_list_sym : forall rt at_ l1 l2, all_far rt at_ l1 l2 ->
  forallb2 (close rt at_) l1 l2 = forallb2 (close rt at_) l2 l1.
Proof. intros. apply forallb2_swap. intros. apply close_sym_far. auto. Qed.

Lemma params_close_sym : forall rt at_ ps ps', all_far rt at_ (concat ps) (concat ps') ->
  params_close rt at_ ps ps' = params_close rt at_ ps' ps.
Proof.
  intros. unfold params_close. apply forallb2_swap. intros x y Ix Iy. apply close_list_sym.
  eapply all_far_incl; eauto; intros z Iz; apply in_concat; eauto.
Qed.

Lemma prep_match_sym : forall p q, prep_match p q = prep_match q p.
Proof. destruct p, q; simpl; auto. apply Z.eqb_sym. Qed.

Lemma nums_operand_incl : forall (ops : list (Z * list Z * op)) x, In x ops ->
  incl (nums (obody x)) (flat_map (fun o : Z * list Z * op => nums (snd o)) ops).
Proof. intros ops x I z Iz. apply in_flat_map. exists x. split; auto. Qed.

Lemma equal_sym_op : forall rt at_ a b, all_far rt at_ (nums a) (nums b) ->
  equal rt at_ a b = equal rt at_ b a.
Proof.
  intros rt at_. induction a using op_ind2; intros b0 F;
    destruct b0 as [n' ps' w' h' | n' b' cw' cv' ww' wt' | n' z' b' | n' b' | s' k' p' b' | n' c' k' b' | n' k' p' ops'];
    try reflexivity.
  - cbn [equal]. rewrite (Z.eqb_sym n' n). destruct (Z.eqb_spec n n'); [subst | reflexivity].
    rewrite (zlist_eqb_sym w' w), (Z.eqb_sym h' h), (params_close_sym rt at_ ps ps' F). reflexivity.
  - cbn [equal]. rewrite (Z.eqb_sym n' n), (zlist_eqb_sym ww' ww), (Z.eqb_sym wt' wt).
    unfold ctrl_dict_eqb. rewrite (dict_eqb_sym (dict_of cw' cv' [])), (IHa b'); auto.
  - cbn [equal]. rewrite (Z.eqb_sym n' n), (Qeq_bool_comm z' z), (IHa b'); auto.
  - cbn [equal]. rewrite (Z.eqb_sym n' n), (IHa b'); auto.
  - cbn [equal]. rewrite (Z.eqb_sym k' k), (prep_match_sym p' p).
    rewrite (close_sym_far rt at_ s s') by (apply F; simpl; auto).
    rewrite (IHa b'); auto. eapply all_far_incl; eauto; intros z I; simpl; auto.
  - cbn [equal]. rewrite (Z.eqb_sym n' n), (Z.eqb_sym k' k).
    rewrite (close_sym_far rt at_ c c') by (apply F; simpl; auto).
    rewrite (IHa b'); auto. eapply all_far_incl; eauto; intros z I; simpl; auto.
  - rewrite !equal_comp_unfold.
    rewrite (Z.eqb_sym n' n), (prep_match_sym p' p), (Nat.eqb_sym (length ops') (length ops)).
    f_equal. f_equal. f_equal. apply forallb2_swap. intros x y Ix Iy.
    apply sortK_in in Ix. apply sortK_in in Iy. rewrite Forall_forall in H.
    apply (H x Ix). simpl in F.
    eapply all_far_incl; [exact F | apply (nums_operand_incl ops x Ix) | apply (nums_operand_incl ops' y Iy)].
Qed.

Lemma equal_sym_item : forall rt at_ a b, all_far rt at_ (nums_item a) (nums_item b) ->
  equal_item rt at_ a b = equal_item rt at_ b a.
Proof.
  intros rt at_ [x | [k o w e u v]] [y | [k' o' w' e' u' v']] F; simpl; auto.
  - apply equal_sym_op. exact F.
  - rewrite (Z.eqb_sym k' k), (Z.eqb_sym u' u). f_equal.
    destruct o as [a|], o' as [b|]; auto.
    + apply equal_sym_op. eapply all_far_incl; eauto; intros z I; simpl; apply in_or_app; auto.
    + rewrite (zlist_eqb_sym w' w). f_equal. destruct e as [x|], e' as [y|]; simpl; auto.
      apply close_list_sym. eapply all_far_incl; eauto; intros z I; simpl; auto.
Qed.

Inductive same_struct : op -> op -> Prop :=
| SS_Ident : forall ps w h ps' w' h',
    same_struct (Plain IDENTITY_NAME ps w h) (Plain IDENTITY_NAME ps' w' h')   (* all Identities are equal *)
| SS_Plain : forall n ps ps' w h,
    Forall2 (Forall2 Qeq) ps ps' -> same_struct (Plain n ps w h) (Plain n ps' w h)
| SS_Ctrl : forall n b b' cw cv cw' cv' ww wt,
    ctrl_dict_eqb cw cv cw' cv' = true ->           (* same wire -> value map, any order *)
    same_struct b b' -> same_struct (Ctrl n b cw cv ww wt) (Ctrl n b' cw' cv' ww wt)
| SS_Pow : forall n z z' b b', (z == z')%Q -> same_struct b b' -> same_struct (PowO n z b) (PowO n z' b')
| SS_Adj : forall n b b', same_struct b b' -> same_struct (Adj n b) (Adj n b')
| SS_SProd_prep : forall s s' k x b b',           (* same pauli_rep: decided by the shortcut *)
    same_struct (SProdO s k (Some x) b) (SProdO s' k (Some x) b')
| SS_SProd : forall s s' k p p' b b',
    (s == s')%Q -> same_struct b b' -> same_struct (SProdO s k p b) (SProdO s' k p' b')
| SS_Exp : forall n c c' k b b',
    (c == c')%Q -> same_struct b b' -> same_struct (ExpO n c k b) (ExpO n c' k b')
| SS_Comp_prep : forall n k k' x ops ops',        (* same pauli_rep: decided by the shortcut *)
    same_struct (Comp n k (Some x) ops) (Comp n k' (Some x) ops')
| SS_Comp : forall n k k' p p' ops ops',          (* same operands after the class's _sort *)
    Forall2 (fun x y => same_struct (obody x) (obody y)) (sortK k ops) (sortK k' ops') ->
    same_struct (Comp n k p ops) (Comp n k' p' ops').

Inductive same_struct_mp : mp -> mp -> Prop :=
| SSM_obs : forall k a b w w' e e' x y y', same_struct a b ->
    same_struct_mp (MP k (Some a) w e x y) (MP k (Some b) w' e' x y')
| SSM_wires : forall k w x y y', same_struct_mp (MP k None w None x y) (MP k None w None x y')
| SSM_eig : forall k w e e' x y y', Forall2 Qeq e e' ->
    same_struct_mp (MP k None w (Some e) x y) (MP k None w (Some e') x y').

Inductive same_struct_item : item -> item -> Prop :=
| SSI_op : forall a b, same_struct a b -> same_struct_item (IOp a) (IOp b)
| SSI_mp : forall a b, same_struct_mp a b -> same_struct_item (IMp a) (IMp b).

Lemma prep_match_true : forall p q, prep_match p q = true -> exists x, p = Some x /\ q = Some x.
Proof.
  destruct p, q; simpl; intros; try discriminate. apply Z.eqb_eq in H. subst. eauto.
Qed.

Lemma close_list_exact : forall l1 l2, forallb2 (close 0 0) l1 l2 = true -> Forall2 Qeq l1 l2.
Proof.
  intros l1 l2. apply forallb2_Forall2. apply Forall_forall. intros. apply close_exact. auto.
Qed.

Lemma equal_exact_same_struct : forall a b, equal 0 0 a b = true -> same_struct a b.
Proof.
  induction a using op_ind2; intros b0 E;
    destruct b0 as [n' ps' w' h' | n' b' cw' cv' ww' wt' | n' z' b' | n' b' | s' k' p' b' | n' c' k' b' | n' k' p' ops'];
    try discriminate E.
  - cbn [equal] in E. apply andb_prop in E as [En E]. apply Z.eqb_eq in En. subst n'.
    apply orb_prop in E as [E | E].
    + apply Z.eqb_eq in E. subst. constructor.
    + apply andb_prop in E as [E Ep]. apply andb_prop in E as [Ew Eh].
      apply zlist_eqb_eq in Ew. apply Z.eqb_eq in Eh. subst. apply SS_Plain.
      unfold params_close in Ep. revert Ep. apply forallb2_Forall2. apply Forall_forall. intros.
      apply close_list_exact. auto.
  - cbn [equal] in E. repeat (apply andb_prop in E as [E ?]).
    apply Z.eqb_eq in E. apply Z.eqb_eq in H1. apply zlist_eqb_eq in H2. subst. constructor; auto.
  - cbn [equal] in E. repeat (apply andb_prop in E as [E ?]).
    apply Z.eqb_eq in E. apply Qeq_bool_iff in H0. subst. constructor; auto.
  - cbn [equal] in E. apply andb_prop in E as [E ?]. apply Z.eqb_eq in E. subst. constructor; auto.
  - cbn [equal] in E. apply andb_prop in E as [Ek E]. apply Z.eqb_eq in Ek. subst.
    apply orb_prop in E as [E | E].
    + apply prep_match_true in E as [x [? ?]]. subst. apply SS_SProd_prep.
    + apply andb_prop in E as [E ?]. apply SS_SProd; auto. apply close_exact; auto.
  - cbn [equal] in E. repeat (apply andb_prop in E as [E ?]).
    apply Z.eqb_eq in E. apply Z.eqb_eq in H1. subst. apply SS_Exp; auto. apply close_exact; auto.
  - rewrite equal_comp_unfold in E. apply andb_prop in E as [En E]. apply Z.eqb_eq in En. subst.
    apply orb_prop in E as [E | E].
    + apply prep_match_true in E as [x [? ?]]. subst. apply SS_Comp_prep.
    + apply andb_prop in E as [_ E]. apply SS_Comp. revert E. apply forallb2_Forall2.
      apply Forall_forall. intros x I y. apply sortK_in in I. rewrite Forall_forall in H. apply (H x I).
Qed.

Lemma equal_exact_same_struct_item : forall a b, equal_item 0 0 a b = true -> same_struct_item a b.
Proof.
  intros [x | [k o w e u v]] [y | [k' o' w' e' u' v']] E; simpl in E; try discriminate.
  - constructor. apply equal_exact_same_struct; auto.
  - constructor. apply andb_prop in E as [E Eo]. apply andb_prop in E as [Ek Eu].
    apply Z.eqb_eq in Ek. apply Z.eqb_eq in Eu. subst.
    destruct o as [a|], o' as [b|]; try discriminate.
    + apply SSM_obs. apply equal_exact_same_struct; auto.
    + apply andb_prop in Eo as [Ew Ee]. apply zlist_eqb_eq in Ew. subst.
      destruct e as [x|], e' as [y|]; simpl in Ee; try discriminate.
      * apply SSM_eig. apply close_list_exact; auto.
      * apply SSM_wires.
Qed.

Lemma same_struct_refl : forall a, same_struct a a.
Proof.
  intros. apply equal_exact_same_struct. apply equal_refl_op; discriminate.
Qed.
