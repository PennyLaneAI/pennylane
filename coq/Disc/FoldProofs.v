(* Lemmas about Disc/FoldModel.v (fold_global, add_noise, insert, exact extrapolation).

   fold_global: the folded circuit is ops ++ (ops^-1 ++ ops)^k ++ tail^-1 ++ tail, so in a group every
   appended piece multiplies to the unit (gprod_rev_adj); the count needs only 0 <= m <= n, which is
   round-half-even applied to a fraction in [0, 1).
   add_noise and insert: both loops only ever append around the current operator, so each is a
   flat_map of a per-operator block (fold_left_appending); a marker P that is false on circuit
   operators and true on inserted ones then separates the two by filter (filter_blocks).
   extrap: one step of Newton's scheme divides p(x) - p(x0) by x - x0; pquot is that quotient
   as a coefficient list, so the recursion stays inside polynomials of one degree less. *)
From Coq Require Import List ZArith Lia Bool ZifyBool QArith Qabs Qfield.
From PLV Require Import Alg.ListFacts Disc.FoldModel.
Import ListNotations.
Open Scope Z_scope.

(* a fold whose step appends something that depends on the element only is a flat_map *)
Lemma fold_left_appending {A B} (step : list A -> B -> list A) (f : B -> list A) :
  (forall acc x, step acc x = acc ++ f x) -> forall l a, fold_left step l a = a ++ flat_map f l.
Proof.
  intros H. induction l as [|x l IH]; intros a; cbn [fold_left flat_map].
  - now rewrite app_nil_r.
  - rewrite IH, H, app_assoc. reflexivity.
Qed.

Lemma fold_left_app_acc {A B} (f : B -> list A) (l : list B) (a : list A) :
  fold_left (fun acc x => acc ++ f x) l a = a ++ flat_map f l.
Proof. now apply fold_left_appending. Qed.

Lemma filter_all {A} (P : A -> bool) (b : bool) (l : list A) :
  (forall x, In x l -> P x = b) ->
  filter P l = (if b then l else []) /\ filter (fun x => negb (P x)) l = (if b then [] else l).
Proof.
  induction l as [|x l IH]; intros H; cbn [filter]; [destruct b; split; reflexivity|].
  rewrite (H x (or_introl eq_refl)). destruct IH as [-> ->]; [intros y Hy; apply H; now right|].
  destruct b; split; reflexivity.
Qed.

(* one block [a ++ g :: b] in which P marks exactly what surrounds g; filter_blocks below is the same
   for a list made of one block per g of [ops] *)
Lemma filter_block {A} (P : A -> bool) a g b :
  (forall x, In x a -> P x = true) -> (forall x, In x b -> P x = true) -> P g = false ->
  filter (fun x => negb (P x)) (a ++ g :: b) = [g] /\ filter P (a ++ g :: b) = a ++ b.
Proof.
  intros Ha Hb Hg. destruct (filter_all P true a Ha) as [A1 A2], (filter_all P true b Hb) as [B1 B2].
  rewrite !filter_app. cbn [filter]. rewrite Hg, A1, A2, B1, B2. split; reflexivity.
Qed.

Lemma filter_blocks {A} (P : A -> bool) (blk ins : A -> list A) ops :
  (forall g, In g ops -> filter (fun x => negb (P x)) (blk g) = [g] /\ filter P (blk g) = ins g) ->
  filter (fun x => negb (P x)) (flat_map blk ops) = ops /\ filter P (flat_map blk ops) = flat_map ins ops.
Proof.
  induction ops as [|g ops IH]; intros H; [split; reflexivity|]. cbn [flat_map]. rewrite !filter_app.
  destruct (H g (or_introl eq_refl)) as [-> ->]. destruct IH as [-> ->]; [intros g' Hg'; apply H; now right|].
  split; reflexivity.
Qed.

Lemma flat_map_ext_in {A B} (f g : A -> list B) (l : list A) :
  (forall x, In x l -> f x = g x) -> flat_map f l = flat_map g l.
Proof.
  induction l as [|x l IH]; intros H; cbn [flat_map]; [reflexivity|].
  rewrite (H x (or_introl eq_refl)), IH; [reflexivity|]. intros y Hy; apply H; now right.
Qed.

Lemma firstn_In {A} n (l : list A) x : In x (firstn n l) -> In x l.
Proof. intros H. rewrite <- (firstn_skipn n l). apply in_or_app. now left. Qed.

Lemma skipn_In {A} n (l : list A) x : In x (skipn n l) -> In x l.
Proof. intros H. rewrite <- (firstn_skipn n l). apply in_or_app. now right. Qed.

Lemma eq_lz_eq a b : eq_lz a b = true <-> a = b.
Proof.
  revert b; induction a as [|x a IH]; intros [|y b]; cbn [eq_lz]; try (split; congruence).
  rewrite andb_true_iff, Z.eqb_eq, IH. split; [intros [-> ->]; reflexivity | intros [= -> ->]; auto].
Qed.

Lemma gate_eqb_eq a b : gate_eqb a b = true <-> a = b.
Proof.
  revert b; induction a as [n w p|n w p|x IH]; intros [n' w' p'|n' w' p'|y]; cbn [gate_eqb];
    try (split; congruence).
  1,2: rewrite !andb_true_iff, !Z.eqb_eq, eq_lz_eq;
       (split; [intros [[-> ->] ->]; reflexivity | intros [= -> -> ->]; auto]).
  rewrite IH. split; congruence.
Qed.

Lemma index_of_none g l : index_of g l = None <-> ~ In g l.
Proof.
  induction l as [|x l IH]; cbn [index_of In]; [tauto|].
  destruct (gate_eqb g x) eqn:E.
  - apply gate_eqb_eq in E. split; [discriminate | intros H; exfalso; apply H; now left].
  - assert (Hne : x <> g) by (intros ->; rewrite (proj2 (gate_eqb_eq g g) eq_refl) in E; discriminate).
    destruct (index_of g l); intuition congruence.
Qed.

Section Group.
  Variable G : Type.
  Variable op : G -> G -> G.
  Variable inv : G -> G.
  Variable e : G.
  Hypothesis assoc : forall a b c, op a (op b c) = op (op a b) c.
  Hypothesis lid : forall a, op e a = a.
  Hypothesis rid : forall a, op a e = a.
  Hypothesis linv : forall a, op (inv a) a = e.
  Hypothesis rinv : forall a, op a (inv a) = e.
  Variable den : bool -> Z -> list Z -> Z -> G.

  Notation P := (gprod op inv e den).
  Notation D := (denote inv den).

  Lemma inv_unique x y : op x y = e -> x = inv y.
  Proof.
    intros H. rewrite <- (rid x), <- (rinv y), assoc, H, lid. reflexivity.
  Qed.

  Lemma inv_op a b : inv (op a b) = op (inv b) (inv a).
  Proof.
    symmetry. apply inv_unique.
    rewrite <- assoc, (assoc (inv a)), linv, lid, linv. reflexivity.
  Qed.

  Lemma gprod_app a b : P (a ++ b) = op (P a) (P b).
  Proof.
    induction a as [|g a IH]; cbn [gprod app fold_right].
    - now rewrite lid.
    - unfold gprod in IH. rewrite IH, assoc. reflexivity.
  Qed.

  Lemma gprod_rev_adj l : P (rev (map Adj l)) = inv (P l).
  Proof.
    induction l as [|g l IH].
    - cbn. apply inv_unique. now rewrite lid.
    - cbn [map rev]. rewrite gprod_app, IH. cbn [gprod fold_right denote].
      rewrite rid. fold (P l). now rewrite inv_op.
  Qed.

  Lemma gprod_rep k l : P (rep_list k (rev (map Adj l) ++ l)) = e.
  Proof.
    induction k as [|k IH]; cbn [rep_list]; [reflexivity|].
    rewrite !gprod_app, IH, gprod_rev_adj, linv, lid. reflexivity.
  Qed.

  Lemma firstn_rev_adj m (l : list gate) :
    firstn m (rev (map Adj l)) = rev (map Adj (skipn (length l - m) l)).
  Proof. rewrite firstn_rev, map_length, skipn_map. reflexivity. Qed.

  Lemma fold_sem_group ops p q out :
    fold_global ops p q = Some out -> P out = P ops.
  Proof.
    unfold fold_global. destruct (existsb is_channel ops); [discriminate|].
    intros H; injection H as <-.
    destruct (fold_m p q (Z.of_nat (length ops)) =? 0).
    - rewrite gprod_app, gprod_rep, rid. reflexivity.
    - rewrite !gprod_app, gprod_rep, rid, firstn_rev_adj, gprod_rev_adj, linv, rid. reflexivity.
  Qed.
End Group.

Lemma fold_total ops p q : existsb is_channel ops = false <-> fold_global ops p q <> None.
Proof.
  unfold fold_global. destruct (existsb is_channel ops); split; intros H; congruence.
Qed.

Lemma fold_fnum_range p q : 0 < q -> 0 <= fold_fnum p q < 2 * q.
Proof.
  intros Hq. unfold fold_fnum, fold_k.
  pose proof (Z.mod_pos_bound (p - q) (2 * q) ltac:(lia)) as Hm.
  rewrite Z.mod_eq in Hm by lia. lia.
Qed.

Lemma round_half_even_cases a b : 0 < b ->
  let f := a / b in let r := a - f * b in
  0 <= r < b /\
  ((round_half_even a b = f /\ 2 * r <= b) \/ (round_half_even a b = f + 1 /\ b <= 2 * r)).
Proof.
  intros Hb f r.
  assert (Hr : 0 <= r < b).
  { subst r f. pose proof (Z.mod_pos_bound a b Hb) as Hm. rewrite Z.mod_eq in Hm by lia. lia. }
  split; [exact Hr|].
  unfold round_half_even. fold f. fold r.
  destruct (2 * r <? b) eqn:E1; [left; lia|].
  destruct (b <? 2 * r) eqn:E2; [right; lia|].
  destruct (Z.even f); [left|right]; lia.
Qed.

Lemma fold_m_bounds p q n : 0 < q -> 0 <= n -> 0 <= fold_m p q n <= n.
Proof.
  intros Hq Hn. unfold fold_m.
  pose proof (fold_fnum_range p q Hq) as HD.
  set (Dn := fold_fnum p q) in *.
  pose proof (round_half_even_cases (Dn * n) (2 * q) ltac:(lia)) as H. cbv zeta in H.
  set (f := Dn * n / (2 * q)) in *.
  assert (Hf0 : 0 <= f) by (apply Z.div_pos; nia).
  destruct (Z.eq_dec n 0) as [->|Hn0].
  - assert (f = 0) by (subst f; rewrite Z.mul_0_r; apply Z.div_0_l; lia). lia.
  - assert (Hf : f < n) by (apply Z.div_lt_upper_bound; nia). lia.
Qed.

Lemma rep_list_length {A} k (l : list A) : length (rep_list k l) = (k * length l)%nat.
Proof. induction k as [|k IH]; cbn [rep_list]; [reflexivity|]. rewrite app_length, IH. lia. Qed.

Lemma fold_count_len ops p q out : 0 < q -> fold_global ops p q = Some out ->
  Z.of_nat (length out) =
    Z.of_nat (length ops) * (1 + 2 * Z.max 0 (fold_k p q)) + 2 * fold_m p q (Z.of_nat (length ops)).
Proof.
  intros Hq. unfold fold_global. destruct (existsb is_channel ops); [discriminate|].
  intros H; injection H as <-.
  pose proof (fold_m_bounds p q (Z.of_nat (length ops)) Hq ltac:(lia)) as Hm.
  set (m := fold_m p q (Z.of_nat (length ops))) in *.
  set (k := fold_k p q).
  assert (Hout : Z.of_nat (length (ops ++ rep_list (Z.to_nat k) (rev (map Adj ops) ++ ops))) =
                 Z.of_nat (length ops) * (1 + 2 * Z.max 0 k)).
  { rewrite app_length, rep_list_length, app_length, rev_length, map_length. nia. }
  destruct (m =? 0) eqn:E.
  - rewrite Hout. lia.
  - rewrite app_length, Nat2Z.inj_add, Hout, app_length, firstn_length, skipn_length, rev_length, map_length. lia.
Qed.

Lemma fold_count_near ops p q out : 0 < q -> q <= p -> fold_global ops p q = Some out ->
  Z.abs (q * Z.of_nat (length out) - p * Z.of_nat (length ops)) <= q.
Proof.
  intros Hq Hp H. rewrite (fold_count_len ops p q out Hq H).
  set (n := Z.of_nat (length ops)). assert (Hn : 0 <= n) by lia.
  assert (Hk : 0 <= fold_k p q) by (unfold fold_k; apply Z.div_pos; lia).
  rewrite Z.max_r by lia.
  unfold fold_m.
  pose proof (round_half_even_cases (fold_fnum p q * n) (2 * q) ltac:(lia)) as Hc. cbv zeta in Hc.
  set (a := fold_fnum p q * n) in *.
  set (f := a / (2 * q)) in *.
  assert (Ha : a = (p - q - fold_k p q * (2 * q)) * n) by reflexivity.
  destruct Hc as [Hr [[-> H2]|[-> H2]]]; nia.
Qed.

Lemma index_of_existsb g l :
  match index_of g l with
  | Some i => existsb (gate_eqb g) l = true
  | None => existsb (gate_eqb g) l = false
  end.
Proof.
  induction l as [|x l IH]; cbn [index_of existsb]; [reflexivity|].
  destruct (gate_eqb g x); cbn [orb]; [reflexivity|].
  destruct (index_of g l); exact IH.
Qed.

Lemma apply_pair_spec g curr cn :
  apply_pair g curr cn = pre_of g (sel g cn) ++ curr ++ post_of g (sel g cn).
Proof.
  unfold apply_pair, sel, pre_of, post_of. destruct (fst cn g).
  - pose proof (index_of_existsb g (snd cn g)) as H.
    destruct (index_of g (snd cn g)); rewrite H; reflexivity.
  - cbn. now rewrite app_nil_r.
Qed.

Lemma fold_pairs_spec g model curr :
  fold_left (apply_pair g) model curr = noise_before model g ++ curr ++ noise_after model g.
Proof.
  unfold noise_before, noise_after.
  revert curr; induction model as [|cn model IH]; intros curr; cbn [fold_left map rev concat].
  - cbn. now rewrite app_nil_r.
  - rewrite IH, apply_pair_spec, concat_app. cbn [concat]. rewrite app_nil_r, <- !app_assoc. reflexivity.
Qed.

Lemma add_noise_spec model ops : add_noise model ops = flat_map (noise_block model) ops.
Proof. unfold add_noise, noise_block. apply flat_map_ext. intros g. apply fold_pairs_spec. Qed.

Lemma pre_post_no_self g l : ~ In g l -> pre_of g l = [] /\ post_of g l = l.
Proof. intros H. apply index_of_none in H. unfold pre_of, post_of. rewrite H. tauto. Qed.

Lemma in_noise_before model g x :
  In x (noise_before model g) -> exists cn, In cn model /\ In x (pre_of g (sel g cn)).
Proof.
  unfold noise_before. intros H. apply in_concat in H as [l [Hl Hx]].
  apply in_rev in Hl. apply in_map_iff in Hl as [cn [<- Hcn]]. eauto.
Qed.

Lemma in_noise_after model g x :
  In x (noise_after model g) -> exists cn, In cn model /\ In x (post_of g (sel g cn)).
Proof.
  unfold noise_after. intros H. apply in_concat in H as [l [Hl Hx]].
  apply in_map_iff in Hl as [cn [<- Hcn]]. eauto.
Qed.

Lemma add_noise_after model ops :
  (forall cn g, In cn model -> In g ops -> fst cn g = true -> ~ In g (snd cn g)) ->
  add_noise model ops = flat_map (fun g => g :: flat_map (sel g) model) ops.
Proof.
  intros H. rewrite add_noise_spec. apply flat_map_ext_in. intros g Hg.
  assert (Hs : forall cn, In cn model -> pre_of g (sel g cn) = [] /\ post_of g (sel g cn) = sel g cn).
  { intros cn Hcn. unfold sel. destruct (fst cn g) eqn:E; [apply pre_post_no_self; now apply H | split; reflexivity]. }
  assert (Hb : noise_before model g = []).
  { apply concat_nil_Forall, Forall_forall. intros l Hl.
    apply in_rev, in_map_iff in Hl as (cn & <- & Hcn). apply Hs, Hcn. }
  assert (Ha : noise_after model g = flat_map (sel g) model).
  { unfold noise_after. rewrite <- flat_map_concat_map. apply flat_map_ext_in. intros cn Hcn. apply Hs, Hcn. }
  unfold noise_block. rewrite Hb, Ha. reflexivity.
Qed.

Section Erase.
  Variable P : gate -> bool.
  Variable model : noise_model.
  Variable ops : list gate.
  Hypothesis Hops : forall g, In g ops -> P g = false.
  Hypothesis Hins : forall cn g x, In cn model -> In g ops ->
      In x (pre_of g (sel g cn)) \/ In x (post_of g (sel g cn)) -> P x = true.

  Lemma add_noise_split :
    filter (fun g => negb (P g)) (add_noise model ops) = ops /\
    filter P (add_noise model ops) = flat_map (fun g => noise_before model g ++ noise_after model g) ops.
  Proof.
    rewrite add_noise_spec. apply filter_blocks. intros g Hg. apply filter_block; [| |exact (Hops g Hg)].
    - intros x Hx. apply in_noise_before in Hx as (cn & Hcn & Hx). apply (Hins cn g x); auto.
    - intros x Hx. apply in_noise_after in Hx as (cn & Hcn & Hx). apply (Hins cn g x); auto.
  Qed.

  Lemma add_noise_erase_l : filter (fun g => negb (P g)) (add_noise model ops) = ops.
  Proof. exact (proj1 add_noise_split). Qed.

  Lemma add_noise_inserted_l :
    filter P (add_noise model ops) = flat_map (fun g => noise_before model g ++ noise_after model g) ops.
  Proof. exact (proj2 add_noise_split). Qed.
End Erase.

Lemma add_noise_none_selected model ops :
  (forall cn g, In cn model -> In g ops -> fst cn g = false) -> add_noise model ops = ops.
Proof.
  intros H. rewrite add_noise_after.
  - rewrite (flat_map_ext_in _ (fun g => [g])); [apply flat_map_singleton|].
    intros g Hg. f_equal. rewrite flat_map_concat_map. apply concat_nil_Forall, Forall_forall. intros l Hl.
    apply in_map_iff in Hl as (cn & <- & Hcn). unfold sel. now rewrite (H cn g Hcn Hg).
  - intros cn g Hcn Hg E. rewrite (H cn g Hcn Hg) in E. discriminate.
Qed.

Lemma insert_step_spec mk pos before acc g :
  insert_step mk pos before acc g = acc ++ insert_block mk pos before g.
Proof.
  unfold insert_step, insert_block, ins_of.
  assert (Hreq : forall cl a, fold_left (fun acc0 operation =>
              if isa g operation then acc0 ++ flat_map mk (gwires g) else acc0) cl a =
            a ++ flat_map (fun c => if isa g c then flat_map mk (gwires g) else []) cl).
  { apply fold_left_appending. intros a c. destruct (isa g c); [reflexivity | now rewrite app_nil_r]. }
  destruct before, pos; cbn [is_pos]; rewrite ?Hreq, ?app_nil_r, <- ?app_assoc; cbn [app]; reflexivity.
Qed.

Lemma insert_ops_spec mk pos before ops mw :
  insert_ops mk pos before ops mw = insert_spec mk pos before ops mw.
Proof.
  unfold insert_ops, insert_spec. rewrite (fold_left_appending _ _ (insert_step_spec mk pos before)).
  destruct (is_pos pos PStart), (is_pos pos PEnd); rewrite <- ?app_assoc, ?app_nil_r; reflexivity.
Qed.

Section InsertErase.
  Variable P : gate -> bool.
  Variable mk : Z -> list gate.
  Variable ops : list gate.
  Hypothesis Hops : forall g, In g ops -> P g = false.
  Hypothesis Hmk : forall w x, In x (mk w) -> P x = true.

  Lemma mk_all ws x : In x (flat_map mk ws) -> P x = true.
  Proof. intros H. apply in_flat_map in H as [w [_ Hx]]. eapply Hmk; eauto. Qed.

  Lemma ins_of_all pos g x : In x (ins_of mk pos g) -> P x = true.
  Proof.
    unfold ins_of. intros H. apply in_app_or in H as [H|H].
    - destruct (is_pos pos PAll); [eapply mk_all; eauto|destruct H].
    - destruct pos; try destruct H. apply in_flat_map in H as [c [_ H]].
      destruct (isa g c); [eapply mk_all; eauto|destruct H].
  Qed.

  Lemma opt_block_all (b : bool) ws x : In x (if b then flat_map mk ws else []) -> P x = true.
  Proof. destruct b; [apply mk_all|intros []]. Qed.

  Lemma insert_split pos before mw :
    filter (fun g => negb (P g)) (insert_ops mk pos before ops mw) = ops /\
    filter P (insert_ops mk pos before ops mw) =
      (if is_pos pos PStart then flat_map mk (tape_wires ops mw) else [])
      ++ flat_map (ins_of mk pos) (skipn (num_preps ops) ops)
      ++ (if is_pos pos PEnd then flat_map mk (tape_wires ops mw) else []).
  Proof.
    rewrite insert_ops_spec. unfold insert_spec. set (np := num_preps ops).
    destruct (filter_all P false (firstn np ops)) as [F1 F2].
    { intros x Hx. eapply Hops, firstn_In, Hx. }
    destruct (filter_all P true (if is_pos pos PStart then flat_map mk (tape_wires ops mw) else [])) as [S1 S2].
    { intro x. apply opt_block_all. }
    destruct (filter_all P true (if is_pos pos PEnd then flat_map mk (tape_wires ops mw) else [])) as [E1 E2].
    { intro x. apply opt_block_all. }
    destruct (filter_blocks P (insert_block mk pos before) (ins_of mk pos) (skipn np ops)) as [B1 B2].
    { intros g Hg. apply skipn_In in Hg. unfold insert_block. destruct before.
      - destruct (filter_block P (ins_of mk pos g) g []) as [Q1 Q2];
          [apply ins_of_all | intros x [] | exact (Hops g Hg) |].
        rewrite app_nil_r in Q2. split; assumption.
      - apply (filter_block P [] g (ins_of mk pos g)); [intros x [] | apply ins_of_all | exact (Hops g Hg)]. }
    rewrite !filter_app, F1, F2, S1, S2, E1, E2, B1, B2. cbn [app].
    split; [rewrite app_nil_r; apply firstn_skipn | reflexivity].
  Qed.
End InsertErase.

Lemma insert_none_selected mk cl before ops mw :
  (forall g c, In g ops -> In c cl -> isa g c = false) ->
  insert_ops mk (POps cl) before ops mw = ops.
Proof.
  intros H. rewrite insert_ops_spec. unfold insert_spec. cbn [is_pos]. rewrite app_nil_r. cbn [app].
  rewrite (flat_map_ext_in _ (fun g => [g])).
  - rewrite flat_map_singleton. apply firstn_skipn.
  - intros g Hg. apply skipn_In in Hg.
    assert (E : ins_of mk (POps cl) g = []).
    { unfold ins_of. cbn [is_pos app]. rewrite flat_map_concat_map. apply concat_nil_Forall, Forall_forall.
      intros l Hl. apply in_map_iff in Hl as (c & <- & Hc). now rewrite (H g c Hg Hc). }
    unfold insert_block. rewrite E. destruct before; reflexivity.
Qed.

Open Scope Q_scope.

(* quotient of (x * t(x) - x0 * t(x0)) by (x - x0): synthetic (Horner) division *)
Fixpoint pquot (t : list Q) (x0 : Q) : list Q :=
  match t with [] => [] | b :: t' => peval t x0 :: pquot t' x0 end.

Lemma pquot_length t x0 : length (pquot t x0) = length t.
Proof. induction t as [|b t IH]; cbn [pquot length]; [reflexivity|now rewrite IH]. Qed.

Lemma pquot_spec t x0 x : x * peval t x - x0 * peval t x0 == (x - x0) * peval (pquot t x0) x.
Proof.
  induction t as [|b t IH]; cbn [pquot peval]; [ring|].
  set (E := peval t x) in *. set (E0 := peval t x0) in *. set (Q' := peval (pquot t x0) x) in *.
  transitivity ((x - x0) * (b + x0 * E0) + x * ((x - x0) * Q')); [|ring].
  rewrite <- IH. ring.
Qed.

Lemma pdiv_spec c x0 x : peval c x == peval c x0 + (x - x0) * peval (pquot (tl c) x0) x.
Proof.
  destruct c as [|a t]; cbn [tl peval pquot]; [ring|].
  rewrite <- pquot_spec. ring.
Qed.

Lemma extrap_exact_n : forall n d c, length d = n -> (length c <= n)%nat -> distinctQ (map fst d) ->
  Forall (fun xy => snd xy == peval c (fst xy)) d -> extrap n d == peval c 0.
Proof.
  induction n as [|n IH]; intros d c Hn Hlen Hd Hy.
  - destruct c; [|cbn in Hlen; lia]. destruct d; reflexivity.
  - destruct d as [|[x0 y0] rest]; [discriminate|]. cbn [length] in Hn. injection Hn as Hn.
    cbn [extrap].
    set (q := pquot (tl c) x0).
    set (d' := map (fun xy : Q * Q => (fst xy, (snd xy - y0) / (fst xy - x0))) rest).
    cbn [map distinctQ fst] in Hd. destruct Hd as [Hne Hd].
    inversion Hy as [|? ? Hy0 Hyr]; subst. cbn [fst snd] in Hy0.
    assert (Hfst : map fst d' = map fst rest).
    { subst d'. rewrite map_map. apply map_ext. reflexivity. }
    assert (IH' : extrap (length rest) d' == peval q 0).
    { apply (IH d' q).
      - subst d'. apply map_length.
      - subst q. rewrite pquot_length. destruct c; cbn [tl length] in *; lia.
      - now rewrite Hfst.
      - subst d'. apply Forall_forall. intros xy' Hin.
        apply in_map_iff in Hin as [[xi yi] [<- Hin]]. cbn [fst snd].
        rewrite Forall_forall in Hyr, Hne.
        assert (Hyi := Hyr _ Hin). cbn [fst snd] in Hyi.
        assert (Hxi : ~ xi == x0).
        { apply Hne. apply in_map_iff. exists (xi, yi). split; [reflexivity|exact Hin]. }
        assert (Hnz : ~ xi - x0 == 0).
        { intros H0. apply Hxi. rewrite <- (Qplus_0_l x0), <- H0. ring. }
        rewrite Hyi, Hy0, (pdiv_spec c x0 xi). fold q. field. exact Hnz. }
    rewrite IH', Hy0, (pdiv_spec c x0 0). fold q. ring.
Qed.

Lemma extrap_exact : forall d c, (length c <= length d)%nat -> distinctQ (map fst d) ->
  Forall (fun xy => snd xy == peval c (fst xy)) d -> richardson d == peval c 0.
Proof. intros d c. unfold richardson. now apply extrap_exact_n. Qed.

(* the polynomial value convention: peval c 0 is the constant coefficient *)
Lemma peval_0 a t : peval (a :: t) 0 == a.
Proof. cbn [peval]. ring. Qed.
