(* Lemmas about Disc/EstimatorModel.v.
   Gate counts: the recursion adds to the count of x exactly scalar * W r x, where W is the number of occurrences
   of x in the expansion of r computed without any state (upd_counts); additivity, repetition and scaling are then
   arithmetic on `weight`.
   WireResourceManager: over a history of non-negative requests zeroed + any_state is the running maximum of
   the outstanding allocated wires (do_req_spec, run_hist_spec, with `peak` and `net`).
   The two meet in upd_wm: what the recursion does to the manager is to run the state-free request list `trace`,
   so an estimate fails on wires exactly when the manager refuses that list. *)
From Coq Require Import List ZArith Bool Lia ZifyBool.
From PLV Require Import Disc.EstimatorModel.
Import ListNotations.
Open Scope Z_scope.

Lemma rop_eqb_eq : forall a b, rop_eqb a b = true <-> a = b.
Proof.
  induction a; destruct b; simpl; try (split; discriminate).
  - rewrite Z.eqb_eq. split; congruence.
  - rewrite IHa. split; congruence.
  - rewrite !andb_true_iff, !Z.eqb_eq, IHa.
    split; [intros [[? ?] ?]; congruence | intros H; inversion H; auto].
  - rewrite !andb_true_iff, !Z.eqb_eq, IHa.
    split; [intros [? ?]; congruence | intros H; inversion H; auto].
Qed.

Lemma rop_eqb_sym : forall a b, rop_eqb a b = rop_eqb b a.
Proof. intros a b. apply eq_true_iff_eq. rewrite !rop_eqb_eq. split; congruence. Qed.

Lemma count_bump : forall cs r k x,
  count_of (bump r k cs) x = count_of cs x + (if rop_eqb x r then k else 0).
Proof.
  induction cs as [|[r' v] t IH]; intros r k x; simpl.
  - destruct (rop_eqb x r); lia.
  - destruct (rop_eqb r r') eqn:E.
    + apply rop_eqb_eq in E; subst. simpl. destruct (rop_eqb x r'); lia.
    + simpl. destruct (rop_eqb x r') eqn:E2.
      * apply rop_eqb_eq in E2; subst. rewrite rop_eqb_sym, E. lia.
      * apply IH.
Qed.

(* number of occurrences of the counted gate x in the expansion of r (same fuel discipline) *)
Definition wl (rec : rop -> Z) (l : list action) : Z :=
  fold_right (fun a acc => match a with AGate g c => c * rec g + acc | _ => acc end) 0 l.

Fixpoint W (D : oracle) (gs : list name) (f : nat) (r x : rop) : Z :=
  match f with
  | O => 0
  | S f' =>
      if in_set gs (name_of D r) then (if rop_eqb x r then 1 else 0)
      else match get_decomp D r with
           | DList l => wl (fun g => W D gs f' g x) l
           | _ => 0
           end
  end.

Fixpoint weight (D : oracle) (gs : list name) (f : nat) (items : list (rop * Z)) (x : rop) : Z :=
  match items with
  | [] => 0
  | (r, k) :: t => k * W D gs f r x + weight D gs f t x
  end.

Fixpoint rep {A} (n : nat) (l : list A) : list A :=
  match n with O => [] | S m => l ++ rep m l end.

Lemma run_actions_counts : forall D gs f q k x,
  (forall r k s s', upd D gs f r k s = Ok s' ->
                    count_of (cnt s') x = count_of (cnt s) x + k * W D gs f r x) ->
  forall l s s', run_actions (act_step (upd D gs f) q k) l s = Ok s' ->
  count_of (cnt s') x = count_of (cnt s) x + k * wl (fun g => W D gs f g x) l.
Proof.
  intros D gs f q k x IH. induction l as [|a t IHl]; intros s s' H; cbn [run_actions] in H.
  - inversion H; subst. simpl. lia.
  - destruct (act_step (upd D gs f) q k a s) as [s1|e] eqn:E; [|discriminate].
    apply IHl in H. rewrite H. destruct a; cbn [act_step] in E; cbn [wl fold_right].
    + apply IH in E. rewrite E. fold (wl (fun g => W D gs f g x) t). ring.
    + unfold wm_step in E. destruct (grab _ _); inversion E; subst; simpl.
      fold (wl (fun g => W D gs f g x) t). lia.
    + unfold wm_step in E. destruct (free _ _); inversion E; subst; simpl.
      fold (wl (fun g => W D gs f g x) t). lia.
Qed.

Lemma upd_counts : forall D gs f r k s s' x,
  upd D gs f r k s = Ok s' -> count_of (cnt s') x = count_of (cnt s) x + k * W D gs f r x.
Proof.
  intros D gs f. induction f as [|f IH]; intros r k s s' x H; cbn [upd] in H; [discriminate|].
  cbn [W]. destruct (in_set gs (name_of D r)).
  - inversion H; subst; cbn [cnt]. rewrite count_bump. destruct (rop_eqb x r); lia.
  - destruct (get_decomp D r) eqn:G; try discriminate.
    eapply run_actions_counts in H; [exact H|]. intros; apply IH; auto.
Qed.

Lemma est_items_counts : forall D gs f items s s' x,
  est_items D gs f items s = Ok s' ->
  count_of (cnt s') x = count_of (cnt s) x + weight D gs f items x.
Proof.
  intros D gs f. induction items as [|[r k] t IH]; intros s s' x H; cbn [est_items] in H.
  - inversion H; subst; simpl; lia.
  - destruct (upd D gs f r k s) as [s1|e] eqn:E; [|discriminate].
    apply IH with (x := x) in H. apply upd_counts with (x := x) in E. cbn [weight]. lia.
Qed.

Lemma weight_app : forall D gs f a b x,
  weight D gs f (a ++ b) x = weight D gs f a x + weight D gs f b x.
Proof. induction a as [|[r k] t IH]; intros; simpl; [|rewrite IH]; lia. Qed.

Lemma weight_rep : forall D gs f n w x,
  weight D gs f (rep n w) x = Z.of_nat n * weight D gs f w x.
Proof.
  induction n; intros; cbn [rep].
  - simpl. lia.
  - rewrite weight_app, IHn. lia.
Qed.

(* sequential composition of the workflow loop *)
Lemma est_items_app : forall D gs f w1 w2 s,
  est_items D gs f (w1 ++ w2) s =
  match est_items D gs f w1 s with Ok s1 => est_items D gs f w2 s1 | Err e => Err e end.
Proof.
  induction w1 as [|[r k] t IH]; intros; cbn [app est_items]; auto.
  destruct (upd D gs f r k s); auto.
Qed.

(* counts of a successful estimate started from the empty dictionary *)
Lemma estimate_counts : forall D gs f w z a tb s x,
  estimate D gs f w z a tb = Ok s -> count_of (cnt s) x = weight D gs f (wf_items w) x.
Proof.
  unfold estimate; intros. apply est_items_counts with (x := x) in H. simpl in H. lia.
Qed.

Lemma estimate_additive_lem : forall D gs f w1 w2 w12 z1 a1 t1 z2 a2 t2 z a t s1 s2 s12,
  wf_items w12 = wf_items w1 ++ wf_items w2 ->
  estimate D gs f w12 z a t = Ok s12 ->
  estimate D gs f w1 z1 a1 t1 = Ok s1 ->
  estimate D gs f w2 z2 a2 t2 = Ok s2 ->
  forall x, count_of (cnt s12) x = count_of (cnt s1) x + count_of (cnt s2) x.
Proof.
  intros. rewrite (estimate_counts _ _ _ _ _ _ _ _ x H0), (estimate_counts _ _ _ _ _ _ _ _ x H1),
    (estimate_counts _ _ _ _ _ _ _ _ x H2), H. apply weight_app.
Qed.

Lemma estimate_prefix_lem : forall D gs f w1 w12 z a t s12,
  (exists rest, wf_items w12 = wf_items w1 ++ rest) -> wf_algo w12 = wf_algo w1 ->
  estimate D gs f w12 z a t = Ok s12 ->
  exists s1, estimate D gs f w1 z a t = Ok s1.
Proof.
  unfold estimate; intros D gs f w1 w12 z a t s12 [rest E] A H.
  rewrite E, est_items_app, A in H.
  destruct (est_items D gs f (wf_items w1) _) as [s1|e]; [eauto|discriminate].
Qed.

Lemma estimate_repeat_lem : forall D gs f n w wn z1 a1 t1 z a t s1 sn,
  wf_items wn = rep n (wf_items w) ->
  estimate D gs f wn z a t = Ok sn ->
  estimate D gs f w z1 a1 t1 = Ok s1 ->
  forall x, count_of (cnt sn) x = Z.of_nat n * count_of (cnt s1) x.
Proof.
  intros. rewrite (estimate_counts _ _ _ _ _ _ _ _ x H0), (estimate_counts _ _ _ _ _ _ _ _ x H1), H.
  apply weight_rep.
Qed.

Lemma estimate_scalar_lem : forall D gs f r n k al al' z1 a1 t1 z a t s1 sn,
  estimate D gs f (WR al [(r, n * k)]) z a t = Ok sn ->
  estimate D gs f (WR al' [(r, k)]) z1 a1 t1 = Ok s1 ->
  forall x, count_of (cnt sn) x = n * count_of (cnt s1) x.
Proof.
  intros. rewrite (estimate_counts _ _ _ _ _ _ _ _ x H), (estimate_counts _ _ _ _ _ _ _ _ x H0).
  simpl. ring.
Qed.

Definition wfm (m : wmgr) : Prop := 0 <= zeroed m /\ 0 <= any_state m.
Definition req_nonneg (r : req) : Prop := match r with RGrab n | RFree n => 0 <= n end.

Lemma grab_none_iff : forall n m, grab n m = None <-> tight m = true /\ zeroed m < n.
Proof.
  intros n m; unfold grab. destruct (n >? zeroed m) eqn:E, (tight m); split; intros H;
    try discriminate; try reflexivity; lia.
Qed.

Lemma free_none_iff : forall n m, free n m = None <-> any_state m < n.
Proof.
  intros n m; unfold free. destruct (n >? any_state m) eqn:E; split; intros H;
    try discriminate; try reflexivity; lia.
Qed.

Lemma run_hist_app : forall h1 h2 m,
  run_hist (h1 ++ h2) m = match run_hist h1 m with Some m1 => run_hist h2 m1 | None => None end.
Proof.
  induction h1 as [|r t IH]; intros; cbn [app run_hist]; auto. destruct (do_req r m); auto.
Qed.

(* an error arises exactly at the first request that meets a raise condition of the code *)
Lemma run_hist_none_iff : forall h m,
  run_hist h m = None <->
  exists h1 r h2 m1, h = h1 ++ r :: h2 /\ run_hist h1 m = Some m1 /\ do_req r m1 = None.
Proof.
  induction h as [|r t IH]; intros m; cbn [run_hist].
  - split; [discriminate|]. intros [h1 [r [h2 [m1 [E _]]]]]. destruct h1; discriminate.
  - destruct (do_req r m) as [m'|] eqn:E.
    + rewrite IH. split.
      * intros [h1 [r' [h2 [m1 [E1 [E2 E3]]]]]]. exists (r :: h1), r', h2, m1.
        subst; cbn [app run_hist]. rewrite E. auto.
      * intros [h1 [r' [h2 [m1 [E1 [E2 E3]]]]]]. destruct h1 as [|r0 h1]; cbn [app run_hist] in *.
        -- inversion E1; inversion E2; subst. congruence.
        -- inversion E1; subst. rewrite E in E2. exists h1, r', h2, m1. auto.
    + split; auto. intros _. exists [], r, t, m. auto.
Qed.

(* net allocation and peak number of outstanding allocated wires of a history *)
Definition delta (r : req) : Z := match r with RGrab n => n | RFree n => - n end.
Fixpoint net (h : list req) : Z := match h with [] => 0 | r :: t => delta r + net t end.
Fixpoint peak (h : list req) (a : Z) : Z :=
  match h with [] => a | r :: t => Z.max a (peak t (a + delta r)) end.

Lemma peak_ge : forall h a, a <= peak h a.
Proof. destruct h; intros; cbn [peak]; lia. Qed.

Lemma peak_prefix : forall h1 h2 a, a + net h1 <= peak (h1 ++ h2) a.
Proof.
  induction h1 as [|r t IH]; intros; cbn [app net peak].
  - pose proof (peak_ge h2 a). lia.
  - specialize (IH h2 (a + delta r)). lia.
Qed.

Lemma net_app : forall h1 h2, net (h1 ++ h2) = net h1 + net h2.
Proof. induction h1; intros; cbn [app net]; [|rewrite IHh1]; lia. Qed.

(* one accepted request: the work wires grow only when the allocated ones exceed them *)
Lemma do_req_spec : forall r m m', wfm m -> req_nonneg r -> do_req r m = Some m' ->
  wfm m' /\ algo m' = algo m /\ tight m' = tight m /\ any_state m' = any_state m + delta r /\
  zeroed m' + any_state m' = Z.max (zeroed m + any_state m) (any_state m').
Proof.
  unfold wfm; intros [n|n] m m' [Hz Ha] Hn H; cbn [do_req req_nonneg delta] in *.
  - unfold grab in H. destruct (n >? zeroed m) eqn:E; [destruct (tight m) eqn:T|];
      inversion H; subst; cbn; repeat split; auto; lia.
  - unfold free in H. destruct (n >? any_state m) eqn:E; inversion H; subst; cbn; repeat split; auto; lia.
Qed.

Lemma run_hist_spec : forall h m m', wfm m -> Forall req_nonneg h -> run_hist h m = Some m' ->
  wfm m' /\ algo m' = algo m /\ tight m' = tight m /\
  zeroed m' + any_state m' = Z.max (zeroed m + any_state m) (peak h (any_state m)) /\
  any_state m' = any_state m + net h.
Proof.
  induction h as [|r t IH]; intros m m' Hm Hh H; cbn [run_hist] in H.
  - inversion H; subst. cbn [peak net]. destruct Hm. repeat split; auto; lia.
  - inversion Hh; subst. destruct (do_req r m) as [m1|] eqn:E; [|discriminate].
    destruct (do_req_spec _ _ _ Hm H2 E) as [W1 [A1 [T1 [N1 M1]]]].
    destruct (IH _ _ W1 H3 H) as [W2 [A2 [T2 [M2 N2]]]]. cbn [peak net].
    pose proof (peak_ge t (any_state m1)). rewrite N1 in *. destruct Hm.
    repeat split; try apply W2; try congruence; lia.
Qed.

(* The estimator drives the manager by a pure trace: a run succeeds exactly when its trace exists and the manager
   accepts it, and then ends in the same manager.  Both sides are compared as the final manager, if any. *)
Definition wm_of (r : res st) : option wmgr := match r with Ok s => Some (wm s) | Err _ => None end.
Definition accept (t : option (list req)) (m : wmgr) : option wmgr :=
  match t with Some h => run_hist h m | None => None end.

Lemma accept_app : forall t1 t2 m,
  accept (match t1, t2 with Some h1, Some h2 => Some (h1 ++ h2) | _, _ => None end) m =
  match accept t1 m with Some m1 => accept t2 m1 | None => None end.
Proof.
  intros [h1|] [h2|] m; cbn [accept]; [apply run_hist_app | destruct (run_hist h1 m) | |]; reflexivity.
Qed.

Lemma run_actions_wm : forall D gs f q k,
  (forall r k s, wm_of (upd D gs f r k s) = accept (trace D gs f r k) (wm s)) ->
  forall l s, wm_of (run_actions (act_step (upd D gs f) q k) l s) = accept (tr_actions (trace D gs f) q k l) (wm s).
Proof.
  intros D gs f q k IH. induction l as [|a t IHl]; intros s; cbn [run_actions tr_actions]; [reflexivity|].
  rewrite accept_app. destruct a; cbn [act_step accept run_hist do_req].
  - rewrite <- IH. destruct (upd D gs f g (k * c) s); cbn [wm_of]; [apply IHl | reflexivity].
  - unfold wm_step. destruct (grab _ _); cbn [wm_of]; [apply IHl | reflexivity].
  - unfold wm_step. destruct (free _ _); cbn [wm_of]; [apply IHl | reflexivity].
Qed.

Lemma upd_wm : forall D gs f r k s, wm_of (upd D gs f r k s) = accept (trace D gs f r k) (wm s).
Proof.
  intros D gs f. induction f as [|f IH]; intros r k s; cbn [upd trace]; [reflexivity|].
  destruct (in_set gs (name_of D r)); [reflexivity|].
  destruct (get_decomp D r); try reflexivity. apply run_actions_wm, IH.
Qed.

Lemma est_items_wm : forall D gs f items s,
  wm_of (est_items D gs f items s) = accept (trace_items D gs f items) (wm s).
Proof.
  intros D gs f. induction items as [|[r k] t IH]; intros s; cbn [est_items trace_items]; [reflexivity|].
  rewrite accept_app, <- upd_wm. destruct (upd D gs f r k s); cbn [wm_of]; [apply IH | reflexivity].
Qed.

Lemma est_items_trace : forall D gs f items s s', est_items D gs f items s = Ok s' ->
  exists h, trace_items D gs f items = Some h /\ run_hist h (wm s) = Some (wm s').
Proof.
  intros D gs f items s s' H. pose proof (est_items_wm D gs f items s) as E. rewrite H in E.
  destruct (trace_items D gs f items) as [h|]; [eauto | discriminate].
Qed.

(* non-negative oracles give non-negative traces *)
Fixpoint rop_ok (r : rop) : Prop :=
  match r with
  | Base _ => True
  | Adj b => rop_ok b
  | Ctrl b n z => rop_ok b /\ 0 <= z
  | PowO b p => rop_ok b
  end.
Definition action_ok (a : action) : Prop :=
  match a with AGate g c => 0 <= c /\ rop_ok g | AAlloc n | ADealloc n => 0 <= n end.
Definition dres_ok (d : dres) : Prop := match d with DList l => Forall action_ok l | _ => True end.
Definition oracle_ok (D : oracle) : Prop :=
  (forall c, dres_ok (o_decomp D c)) /\ (forall c, dres_ok (o_adj D c)) /\
  (forall c n z, dres_ok (o_ctrl D c n z)) /\ (forall c p, dres_ok (o_pow D c p)).

Lemma default_adj_ok : forall l, Forall action_ok l -> Forall action_ok (default_adj l).
Proof.
  unfold default_adj; intros l H. apply Forall_forall. intros a Ha.
  apply in_map_iff in Ha. destruct Ha as [b [E Hb]]. apply in_rev in Hb.
  rewrite Forall_forall in H. specialize (H _ Hb). subst. destruct b; simpl in *; auto.
Qed.

Lemma default_ctrl_ok : forall x n z l, 0 <= z -> Forall action_ok l -> Forall action_ok (default_ctrl x n z l).
Proof.
  unfold default_ctrl; intros x n z l Hz H. apply Forall_app. split.
  - destruct (z =? 0); constructor; [|constructor]. cbn [action_ok rop_ok]. split; [lia|exact I].
  - apply Forall_forall. intros a Ha. apply in_map_iff in Ha. destruct Ha as [b [E Hb]].
    rewrite Forall_forall in H. specialize (H _ Hb). subst. destruct b; simpl in *; auto.
    destruct H. repeat split; auto; lia.
Qed.

Lemma lift_ok : forall f d, (forall l, Forall action_ok l -> Forall action_ok (f l)) -> dres_ok d -> dres_ok (lift f d).
Proof. intros f [] Hf H; simpl in *; auto. Qed.

Lemma single_ok : forall g c, 0 <= c -> rop_ok g -> dres_ok (DList [AGate g c]).
Proof. intros; repeat constructor; auto. Qed.

Lemma pow_default_ok : forall b p d, rop_ok b -> dres_ok (pow_default b p d).
Proof.
  intros b p [] Hb; simpl; auto. destruct (p <? 0) eqn:E; [exact I | apply single_ok; [lia | auto]].
Qed.

(* every wrapper either asks the oracle (bare base operator), merges with a like wrapper below it,
   or transforms the decomposition of what it wraps *)
Lemma get_decomp_ok : forall D, oracle_ok D -> forall r, rop_ok r -> dres_ok (get_decomp D r).
Proof.
  intros D [Hd [Ha [Hc Hp]]]. induction r as [c|b IH|b IH n z|b IH p]; intros Hr; cbn [get_decomp rop_ok] in *.
  - apply Hd.
  - assert (G : dres_ok (lift default_adj (get_decomp D b))) by (apply lift_ok; [apply default_adj_ok | auto]).
    destruct b; auto.
    + specialize (Ha c). destruct (o_adj D c); auto.
    + apply single_ok; [lia | exact Hr].
  - destruct Hr as [Hr Hz].
    assert (G : dres_ok (lift (default_ctrl (o_x D) n z) (get_decomp D b)))
      by (apply lift_ok; [intros; apply default_ctrl_ok | ]; auto).
    destruct b; auto.
    + specialize (Hc c n z). destruct (o_ctrl D c n z); auto.
    + destruct Hr. apply single_ok; [lia | split; [auto | lia]].
  - assert (G : dres_ok (pow_default b p (get_decomp D b))) by (apply pow_default_ok; auto).
    destruct b; auto.
    + specialize (Hp c p). destruct (o_pow D c p); auto.
    + apply single_ok; [lia | exact Hr].
Qed.

Lemma wire_req_nonneg : forall q k n, 0 <= k -> 0 <= n -> 0 <= wire_req q k n.
Proof. unfold wire_req; intros. destruct (q =? 0); nia. Qed.

Lemma tr_actions_nonneg : forall D gs f q k,
  0 <= k ->
  (forall r k h, rop_ok r -> 0 <= k -> trace D gs f r k = Some h -> Forall req_nonneg h) ->
  forall l h, Forall action_ok l -> tr_actions (trace D gs f) q k l = Some h -> Forall req_nonneg h.
Proof.
  intros D gs f q k Hk IH. induction l as [|a t IHl]; intros h Hl T; cbn [tr_actions] in T.
  - inversion T; constructor.
  - inversion Hl; subst.
    destruct (match a with AGate g c => trace D gs f g (k * c) | AAlloc n => Some [RGrab (wire_req q k n)]
                         | ADealloc n => Some [RFree (wire_req q k n)] end) as [h1|] eqn:T1; [|discriminate].
    destruct (tr_actions (trace D gs f) q k t) as [h2|] eqn:T2; [|discriminate].
    inversion T; subst. apply Forall_app. split; [|apply IHl; auto].
    destruct a; cbn [action_ok] in H1.
    + destruct H1 as [Hc Hg]. apply (IH g (k * c) h1); [assumption | nia | exact T1].
    + inversion T1; subst. constructor; [|constructor]. simpl. apply wire_req_nonneg; auto.
    + inversion T1; subst. constructor; [|constructor]. simpl. apply wire_req_nonneg; auto.
Qed.

Lemma trace_nonneg : forall D gs, oracle_ok D -> forall f r k h,
  rop_ok r -> 0 <= k -> trace D gs f r k = Some h -> Forall req_nonneg h.
Proof.
  intros D gs HD. induction f as [|f IH]; intros r k h Hr Hk T; cbn [trace] in T; [discriminate|].
  destruct (in_set gs (name_of D r)).
  - inversion T; constructor.
  - pose proof (get_decomp_ok D HD r Hr) as G. destruct (get_decomp D r); try discriminate.
    eapply tr_actions_nonneg; eauto.
Qed.

Definition items_ok (items : list (rop * Z)) : Prop := Forall (fun p => rop_ok (fst p) /\ 0 <= snd p) items.

Lemma trace_items_nonneg : forall D gs, oracle_ok D -> forall f items h,
  items_ok items -> trace_items D gs f items = Some h -> Forall req_nonneg h.
Proof.
  intros D gs HD f. induction items as [|[r k] t IH]; intros h Hi T; cbn [trace_items] in T.
  - inversion T; constructor.
  - inversion Hi; subst. simpl in H1. destruct H1.
    destruct (trace D gs f r k) as [h1|] eqn:T1; [|discriminate].
    destruct (trace_items D gs f t) as [h2|] eqn:T2; [|discriminate].
    inversion T; subst. apply Forall_app. split; [eapply trace_nonneg; eauto | apply IH; auto].
Qed.

Lemma estimate_wires_lem : forall D gs f w z a tb s,
  oracle_ok D -> items_ok (wf_items w) -> 0 <= z -> 0 <= a ->
  estimate D gs f w z a tb = Ok s ->
  exists h, trace_items D gs f (wf_items w) = Some h /\ Forall req_nonneg h /\
    run_hist h (mkWM z a (wf_algo w) tb) = Some (wm s) /\
    0 <= zeroed (wm s) /\ 0 <= any_state (wm s) /\
    algo (wm s) = wf_algo w /\ algo (wm s) <= total (wm s) /\
    zeroed (wm s) + any_state (wm s) = Z.max (z + a) (peak h a) /\
    any_state (wm s) = a + net h.
Proof.
  unfold estimate; intros D gs f w z a tb s HD Hi Hz Ha H.
  destruct (est_items_trace _ _ _ _ _ _ H) as [h [T R]]. cbn [wm] in R.
  pose proof (trace_items_nonneg D gs HD f _ _ Hi T) as NN.
  destruct (run_hist_spec _ _ _ (conj Hz Ha : wfm (mkWM z a (wf_algo w) tb)) NN R) as [[Z1 A1] [AL [_ [TT NT]]]].
  cbn in AL, TT, NT. exists h. unfold total. repeat split; auto; lia.
Qed.

Lemma estimate_ok_iff_lem : forall D gs f w z a tb,
  (exists s, estimate D gs f w z a tb = Ok s) <->
  (exists h m, trace_items D gs f (wf_items w) = Some h /\ run_hist h (mkWM z a (wf_algo w) tb) = Some m).
Proof.
  unfold estimate; intros.
  pose proof (est_items_wm D gs f (wf_items w) (mkSt [] (mkWM z a (wf_algo w) tb))) as E. cbn [wm] in E. split.
  - intros [s H]. rewrite H in E. destruct (trace_items D gs f (wf_items w)) as [h|]; [eauto | discriminate].
  - intros [h [m [T R]]]. rewrite T in E. cbn [accept] in E. rewrite R in E.
    destruct (est_items D gs f (wf_items w) _) as [s|]; [eauto | discriminate].
Qed.

Lemma wires_never_negative_lem : forall h m m',
  0 <= zeroed m -> 0 <= any_state m -> Forall req_nonneg h -> run_hist h m = Some m' ->
  0 <= zeroed m' /\ 0 <= any_state m'.
Proof. intros h m m' Hz Ha Hh H. exact (proj1 (run_hist_spec h m m' (conj Hz Ha) Hh H)). Qed.

Lemma wires_error_exactly_lem : forall h m,
  run_hist h m = None <->
  exists h1 r h2 m1, h = h1 ++ r :: h2 /\ run_hist h1 m = Some m1 /\
    match r with
    | RGrab n => tight m1 = true /\ zeroed m1 < n
    | RFree n => any_state m1 < n
    end.
Proof.
  intros h m. rewrite run_hist_none_iff. split; intros [h1 [r [h2 [m1 [E [R C]]]]]]; exists h1, r, h2, m1;
    (split; [exact E|split; [exact R|]]); destruct r; simpl in *;
    first [apply grab_none_iff; exact C | apply free_none_iff; exact C].
Qed.

Lemma total_ge_algo_lem : forall h m m',
  0 <= zeroed m -> 0 <= any_state m -> Forall req_nonneg h -> run_hist h m = Some m' ->
  algo m' = algo m /\ algo m' <= total m'.
Proof.
  intros h m m' Hz Ha Hh H. destruct (run_hist_spec h m m' (conj Hz Ha) Hh H) as [[Z1 A1] [AL _]].
  unfold total. lia.
Qed.

Lemma total_accounts_all_allocs_lem : forall h m m',
  0 <= zeroed m -> 0 <= any_state m -> Forall req_nonneg h -> run_hist h m = Some m' ->
  zeroed m' + any_state m' = Z.max (zeroed m + any_state m) (peak h (any_state m)) /\
  any_state m' = any_state m + net h /\
  forall h1 h2, h = h1 ++ h2 -> any_state m + net h1 <= total m' - algo m'.
Proof.
  intros h m m' Hz Ha Hh H. destruct (run_hist_spec h m m' (conj Hz Ha) Hh H) as [_ [_ [_ [T N]]]].
  split; [exact T|]. split; [exact N|]. intros h1 h2 E. subst h.
  pose proof (peak_prefix h1 h2 (any_state m)). unfold total. lia.
Qed.
