(* Facts about Disc/TemplatesModel.v behind the theorems (A) of Props/C58.v.
   Permute: the swap loop keeps the invariant `permute_go_final` (positions before idx hold their targets).
   Select: `product01 c` lists the big-endian encodings of 0 .. 2^c - 1 in order (`product01_nth`) without
   repetition, so filtering the branches on a control value keeps exactly one.
   QROM: the swap network on s + 1 control wires is one level driven by the first wire followed by the network
   on s (`swapnet_S`); induction on s shows that slot q mod 2^s ends in slot 0 (`swapnet_moves_slot`). *)
From Coq Require Import List ZArith Bool Arith Lia Permutation.
From PLV Require Import Alg.ListFacts Disc.TemplatesModel.
Import ListNotations.

Lemma upd_length {A} (l : list A) : forall i v, length (upd i v l) = length l.
Proof. induction l as [|x r IH]; intros [|i] v; cbn; auto. Qed.

Lemma nth_upd {A} (d : A) (l : list A) : forall i v x,
  nth x (upd i v l) d = if Nat.eqb x i && Nat.ltb i (length l) then v else nth x l d.
Proof.
  induction l as [|a r IH]; intros i v x.
  - cbn. destruct x, i; cbn; try reflexivity; rewrite ?andb_false_r; reflexivity.
  - destruct i as [|i], x as [|x]; cbn [upd nth length]; try reflexivity.
    rewrite IH. cbn [Nat.eqb]. destruct (Nat.eqb x i); cbn [andb]; [|reflexivity].
    change (S i <? S (length r)) with (i <? length r). reflexivity.
Qed.

Lemma nth_swap_pos {A} (d : A) (l : list A) i j x : i < length l -> j < length l ->
  nth x (swap_pos d i j l) d = if Nat.eqb x j then nth i l d else if Nat.eqb x i then nth j l d else nth x l d.
Proof.
  intros Hi Hj. unfold swap_pos. rewrite nth_upd, upd_length, nth_upd.
  apply Nat.ltb_lt in Hi as Hi'. apply Nat.ltb_lt in Hj as Hj'. rewrite Hi', Hj', !andb_true_r. reflexivity.
Qed.

Lemma nth_swap_pos_other {A} (d : A) (l : list A) i j x : x <> i -> x <> j -> nth x (swap_pos d i j l) d = nth x l d.
Proof.
  intros Hi Hj. unfold swap_pos. rewrite !nth_upd.
  apply Nat.eqb_neq in Hi, Hj. rewrite Hi, Hj. reflexivity.
Qed.

Lemma swap_pos_length {A} (d : A) (l : list A) i j : length (swap_pos d i j l) = length l.
Proof. unfold swap_pos. rewrite !upd_length. reflexivity. Qed.

Lemma upd_app_r {A} (pre l : list A) k v : upd (length pre + k) v (pre ++ l) = pre ++ upd k v l.
Proof. induction pre as [|a pre IH]; cbn; [reflexivity|]. rewrite IH. reflexivity. Qed.

Lemma upd_middle {A} (pre l : list A) x v : upd (length pre) v (pre ++ x :: l) = pre ++ v :: l.
Proof. rewrite <- (Nat.add_0_r (length pre)). exact (upd_app_r pre (x :: l) 0 v). Qed.

Lemma swap_pos_app {A} (d : A) (pre a b : list A) x y :
  swap_pos d (length pre) (length pre + S (length a)) (pre ++ x :: a ++ y :: b) = pre ++ y :: a ++ x :: b.
Proof.
  unfold swap_pos. rewrite nth_middle, app_nth2_plus. cbn [nth]. rewrite nth_middle.
  rewrite upd_middle, upd_app_r. cbn [upd]. rewrite upd_middle. reflexivity.
Qed.

Lemma upd_map {A B} (f : A -> B) (l : list A) : forall i v, upd i (f v) (map f l) = map f (upd i v l).
Proof. induction l as [|x r IH]; intros [|i] v; cbn; try reflexivity. rewrite IH. reflexivity. Qed.

Lemma swap_pos_map {A B} (f : A -> B) d i j (l : list A) : swap_pos (f d) i j (map f l) = map f (swap_pos d i j l).
Proof. unfold swap_pos. rewrite !map_nth, !upd_map. reflexivity. Qed.

Lemma apply_swaps_cons {A} (d : A) i j sw l : apply_swaps d ((i, j) :: sw) l = apply_swaps d sw (swap_pos d i j l).
Proof. reflexivity. Qed.

Lemma apply_swaps_length {A} (d : A) sw : forall l, length (apply_swaps d sw l) = length l.
Proof.
  induction sw as [|[i j] sw IH]; intros l; [reflexivity|].
  rewrite apply_swaps_cons, IH. apply swap_pos_length.
Qed.

Lemma apply_swaps_natural {A B} (f : A -> B) d sw : forall l, apply_swaps (f d) sw (map f l) = map f (apply_swaps d sw l).
Proof.
  unfold apply_swaps. induction sw as [|p sw IH]; intros l; cbn [fold_left]; [reflexivity|].
  rewrite swap_pos_map. apply IH.
Qed.

Lemma permute_go_apply perm : forall idx w,
  snd (permute_go perm idx w) = apply_swaps 0%Z (fst (permute_go perm idx w)) w.
Proof.
  induction perm as [|here rest IH]; intros idx w; cbn [permute_go]; [reflexivity|].
  destruct (Z.eqb (nth idx w 0%Z) here); [apply IH|].
  cbn [fst snd]. unfold apply_swaps. cbn [fold_left fst snd]. apply IH.
Qed.

Lemma find_idx_app_notin x pre l : ~ In x pre -> find_idx x (pre ++ l) = length pre + find_idx x l.
Proof.
  induction pre as [|a pre IH]; intros H; cbn; [reflexivity|].
  destruct (Z.eqb_spec a x) as [->|N]; [exfalso; apply H; left; reflexivity|].
  rewrite IH; [reflexivity|]. intros Hin. apply H. right. exact Hin.
Qed.

Lemma in_split_first x l : In x l -> exists a b, l = a ++ x :: b /\ ~ In x a /\ find_idx x l = length a.
Proof.
  induction l as [|y r IH]; intros H; [destruct H|].
  cbn [find_idx]. destruct (Z.eqb_spec y x) as [->|N].
  - exists [], r. repeat split; auto.
  - destruct H as [E|H]; [contradiction|]. destruct (IH H) as (a & b & -> & Ha & Hf).
    exists (y :: a), b. cbn. repeat split; auto. intros [E|E]; [contradiction|auto].
Qed.

Lemma perm_swap_ends {A} (x y : A) a b : Permutation (x :: a ++ y :: b) (y :: a ++ x :: b).
Proof.
  rewrite <- !Permutation_middle. apply perm_swap.
Qed.

(* invariant of the loop: the first `length pre` positions already hold their targets `pre`, the others hold a
   rearrangement of the targets still to come *)
Lemma permute_go_final perm : forall pre wrest,
  NoDup (pre ++ wrest) -> Permutation wrest perm ->
  snd (permute_go perm (length pre) (pre ++ wrest)) = pre ++ perm.
Proof.
  induction perm as [|here rest IH]; intros pre wrest ND P.
  - apply Permutation_sym, Permutation_nil in P. subst. reflexivity.
  - destruct wrest as [|w ws]; [apply Permutation_nil in P; discriminate|].
    cbn [permute_go]. rewrite nth_middle.
    assert (IH' : forall wrest, NoDup (pre ++ here :: wrest) -> Permutation wrest rest ->
                  snd (permute_go rest (S (length pre)) (pre ++ here :: wrest)) = pre ++ here :: rest).
    { intros wrest. specialize (IH (pre ++ [here]) wrest). rewrite last_length, <- !app_assoc in IH. exact IH. }
    clear IH.
    destruct (Z.eqb_spec w here) as [->|N].
    + apply IH'; [exact ND | apply Permutation_cons_inv in P; exact P].
    + cbn [snd].
      assert (Hin : In here ws).
      { assert (H : In here (w :: ws)) by (eapply Permutation_in; [apply Permutation_sym, P | left; reflexivity]).
        destruct H as [E|H]; [contradiction|exact H]. }
      destruct (in_split_first here ws Hin) as (a & b & -> & Ha & Hf).
      assert (Hpre : ~ In here pre).
      { change (pre ++ w :: a ++ here :: b) with (pre ++ (w :: a) ++ here :: b) in ND.
        rewrite app_assoc in ND. apply NoDup_remove_2 in ND. rewrite <- app_assoc in ND.
        intros H. apply ND, in_or_app. left. exact H. }
      rewrite find_idx_app_notin by exact Hpre. cbn [find_idx]. destruct (Z.eqb_spec w here); [contradiction|].
      rewrite Hf, swap_pos_app. apply IH'.
      * eapply Permutation_NoDup; [|exact ND]. apply Permutation_app_head, perm_swap_ends.
      * apply (Permutation_cons_inv (a := here)). rewrite <- P. apply perm_swap_ends.
Qed.

Lemma permute_final_is_perm wires perm : NoDup wires -> Permutation wires perm -> permute_final wires perm = perm.
Proof. intros ND P. unfold permute_final. apply (permute_go_final perm [] wires ND P). Qed.

Lemma permute_realises {A} (f : Z -> A) wires perm : NoDup wires -> Permutation wires perm ->
  apply_swaps (f 0%Z) (permute_swaps wires perm) (map f wires) = map f perm.
Proof.
  intros ND P. rewrite apply_swaps_natural. f_equal. unfold permute_swaps.
  rewrite <- permute_go_apply. apply (permute_final_is_perm wires perm ND P).
Qed.

Lemma product01_length c : length (product01 c) = 2 ^ c.
Proof. induction c as [|c IH]; cbn [product01 Nat.pow]; [reflexivity|]. rewrite app_length, !map_length, IH. lia. Qed.

Lemma pow2_pos c : 0 < 2 ^ c.
Proof. induction c; cbn; lia. Qed.

Lemma be_bits_small c : forall k, k < 2 ^ c -> be_bits (S c) k = false :: be_bits c k.
Proof.
  intros k H. cbn [be_bits]. f_equal. rewrite Nat.mod_small by (cbn [Nat.pow]; lia).
  apply Nat.leb_gt. exact H.
Qed.

Lemma be_bits_shift c : forall k, be_bits c (2 ^ c + k) = be_bits c k.
Proof.
  induction c as [|c IH]; intros k; [reflexivity|].
  cbn [be_bits]. f_equal.
  - f_equal. replace (2 ^ S c + k) with (k + 1 * 2 ^ S c) by lia. apply Nat.mod_add. pose proof (pow2_pos (S c)). lia.
  - replace (2 ^ S c + k) with (2 ^ c + (2 ^ c + k)) by (cbn [Nat.pow]; lia). rewrite !IH. reflexivity.
Qed.

Lemma be_bits_big c : forall k, k < 2 ^ c -> be_bits (S c) (2 ^ c + k) = true :: be_bits c k.
Proof.
  intros k H. cbn [be_bits]. f_equal.
  - rewrite Nat.mod_small by (cbn [Nat.pow]; lia). apply Nat.leb_le. lia.
  - apply be_bits_shift.
Qed.

(* itertools.product([0,1], repeat=c) enumerates the big-endian encodings in order *)
Lemma product01_nth c : forall k, k < 2 ^ c -> nth_error (product01 c) k = Some (be_bits c k).
Proof.
  induction c as [|c IH]; intros k H.
  - cbn in H. assert (k = 0) by lia. subst. reflexivity.
  - cbn [product01]. cbn [Nat.pow] in H. destruct (Nat.lt_ge_cases k (2 ^ c)) as [L|G].
    + rewrite nth_error_app1 by (rewrite map_length, product01_length; exact L).
      rewrite nth_error_map, (IH k L). cbn [option_map]. rewrite be_bits_small by exact L. reflexivity.
    + rewrite nth_error_app2 by (rewrite map_length, product01_length; exact G).
      rewrite map_length, product01_length.
      assert (L : k - 2 ^ c < 2 ^ c) by lia.
      rewrite nth_error_map, (IH _ L). cbn [option_map].
      replace k with (2 ^ c + (k - 2 ^ c)) at 2 by lia. rewrite be_bits_big by exact L. reflexivity.
Qed.

Lemma be_bits_length c k : length (be_bits c k) = c.
Proof. induction c as [|c IH]; cbn; [reflexivity|]. rewrite IH. reflexivity. Qed.

Lemma be_val_bits c : forall k, k < 2 ^ c -> be_val (be_bits c k) = k.
Proof.
  induction c as [|c IH]; intros k H.
  - cbn in *. lia.
  - cbn [Nat.pow] in H. destruct (Nat.lt_ge_cases k (2 ^ c)) as [L|G].
    + rewrite be_bits_small by exact L. cbn [be_val]. rewrite (IH k L). lia.
    + replace k with (2 ^ c + (k - 2 ^ c)) by lia. rewrite be_bits_big by lia.
      cbn [be_val]. rewrite be_bits_length, IH by lia. lia.
Qed.

Lemma bits_eqb_eq u : forall v, bits_eqb u v = true <-> u = v.
Proof.
  induction u as [|a u IH]; intros [|b v]; cbn; split; intros H; try discriminate; try reflexivity.
  - apply andb_prop in H as [H1 H2]. apply eqb_prop in H1. apply IH in H2. subst. reflexivity.
  - inversion H; subst. rewrite eqb_reflx. cbn. apply IH. reflexivity.
Qed.

Lemma be_bits_inj c i k : i < 2 ^ c -> k < 2 ^ c -> be_bits c i = be_bits c k -> i = k.
Proof. intros Hi Hk E. apply (f_equal be_val) in E. rewrite !be_val_bits in E by assumption. exact E. Qed.

Lemma nth_error_zip {A B} (l : list A) : forall (m : list B) k,
  nth_error (zip l m) k = match nth_error l k, nth_error m k with Some a, Some b => Some (a, b) | _, _ => None end.
Proof.
  induction l as [|x l IH]; intros [|y m] [|k]; cbn; try reflexivity; [|apply IH].
  destruct (nth_error l k); reflexivity.
Qed.

Lemma zip_fst_prefix {A B} (l : list A) : forall (m : list B), exists r, l = map fst (zip l m) ++ r.
Proof.
  induction l as [|x l IH]; intros m; [exists []; reflexivity|].
  destruct m as [|y m]; cbn; [exists (x :: l); reflexivity|].
  destruct (IH m) as [r Hr]. exists r. rewrite <- Hr. reflexivity.
Qed.

Lemma product01_nodup c : NoDup (product01 c).
Proof.
  apply NoDup_nth_error. intros i j Hi E. rewrite product01_length in Hi.
  rewrite product01_nth in E by exact Hi.
  assert (Hj : j < 2 ^ c) by (rewrite <- (product01_length c); apply nth_error_Some; congruence).
  rewrite product01_nth in E by exact Hj. inversion E as [E']. exact (be_bits_inj c i j Hi Hj E').
Qed.

Lemma select_states_nodup {A} c (ops : list A) : NoDup (map fst (select_branches c ops)).
Proof.
  unfold select_branches. destruct (zip_fst_prefix (product01 c) ops) as [r Hr].
  pose proof (product01_nodup c) as N. rewrite Hr in N. apply NoDup_app_iff in N. apply N.
Qed.

Lemma select_branch_nth {A} c (ops : list A) k : k < 2 ^ c ->
  nth_error (select_branches c ops) k = option_map (pair (be_bits c k)) (nth_error ops k).
Proof. intros L. unfold select_branches. rewrite nth_error_zip, product01_nth by exact L. reflexivity. Qed.

Lemma filter_nil {A} (f : A -> bool) l : (forall x, In x l -> f x = false) -> filter f l = [].
Proof.
  induction l as [|x l IH]; intros F; [reflexivity|].
  cbn [filter]. rewrite (F x) by (left; reflexivity). apply IH. intros y Hy. apply F. right. exact Hy.
Qed.

Lemma filter_unique_key {A} (l : list (list bool * A)) k a x : NoDup (map fst l) -> nth_error l k = Some (a, x) ->
  filter (fun p => bits_eqb (fst p) a) l = [(a, x)].
Proof.
  intros N H. apply nth_error_split in H as (l1 & l2 & -> & _).
  rewrite map_app in N. cbn [map fst] in N. apply NoDup_remove_2 in N.
  rewrite filter_app. cbn [filter fst]. rewrite (proj2 (bits_eqb_eq a a) eq_refl).
  rewrite !filter_nil; [reflexivity | |]; intros [b y] Hin; cbn [fst];
    (destruct (bits_eqb b a) eqn:E; [|reflexivity]); apply bits_eqb_eq in E; subst b;
    exfalso; apply N, in_or_app; [right | left]; exact (in_map fst _ _ Hin).
Qed.

Lemma select_fired_spec {A} c (ops : list A) k op : length ops <= 2 ^ c -> nth_error ops k = Some op ->
  select_fired c ops (be_bits c k) = [op].
Proof.
  intros L H. unfold select_fired.
  assert (Hk : k < 2 ^ c) by (apply Nat.lt_le_trans with (length ops); [apply nth_error_Some; congruence | exact L]).
  rewrite (filter_unique_key _ k (be_bits c k) op (select_states_nodup c ops)); [reflexivity|].
  rewrite select_branch_nth, H by exact Hk. reflexivity.
Qed.

Lemma select_fired_none {A} c (ops : list A) k : length ops <= k -> k < 2 ^ c -> select_fired c ops (be_bits c k) = [].
Proof.
  intros G L. unfold select_fired. rewrite filter_nil; [reflexivity|].
  intros [st op] Hin. apply In_nth_error in Hin as [i Hi]. cbn [fst].
  assert (Hl : i < 2 ^ c).
  { rewrite <- (product01_length c). apply nth_error_Some. intros E.
    unfold select_branches in Hi. rewrite nth_error_zip, E in Hi. discriminate. }
  rewrite select_branch_nth in Hi by exact Hl.
  destruct (nth_error ops i) eqn:Ho; [|discriminate]. inversion Hi; subst.
  assert (i < length ops) by (apply nth_error_Some; congruence).
  destruct (bits_eqb (be_bits c i) (be_bits c k)) eqn:E; [|reflexivity].
  apply bits_eqb_eq, be_bits_inj in E; lia.
Qed.

Lemma ctrlseq_exponent n i : i < n -> nth i (ctrlseq_exponents n) 0%Z = (2 ^ Z.of_nat (n - 1 - i))%Z.
Proof.
  intros H. unfold ctrlseq_exponents, powers_of_two.
  rewrite rev_nth, map_length, seq_length, nth_map_seq0 by (rewrite ?map_length, ?seq_length; lia).
  f_equal. f_equal. lia.
Qed.

Lemma ctrlseq_length n : length (ctrlseq_exponents n) = n.
Proof. unfold ctrlseq_exponents, powers_of_two. rewrite rev_length, map_length, seq_length. reflexivity. Qed.

Lemma flipsign_iff state inp : state <> [] -> length inp = length state ->
  flipsign_fires state inp = true <-> inp = state.
Proof.
  intros Hs Hl. assert (Hi : inp <> []) by (intros ->; destruct state; [congruence|discriminate]).
  unfold flipsign_fires. split.
  - intros H. apply andb_prop in H as [H1 H2]. apply bits_eqb_eq in H1.
    rewrite (app_removelast_last true Hi), (app_removelast_last true Hs), H1. f_equal. f_equal.
    destruct (last state true), (last inp true); cbn in H2; congruence.
  - intros ->. apply andb_true_intro. split; [apply bits_eqb_eq; reflexivity|]. destruct (last state true); reflexivity.
Qed.

Lemma qrom_row_entry {A} c depth (data : list A) k : 0 < depth ->
  nth (k mod depth) (qrom_row c depth data (k / depth)) None = nth k (qrom_padded c data) None.
Proof.
  intros H. unfold qrom_row. rewrite nth_map_seq0 by (apply Nat.mod_upper_bound; lia).
  f_equal. rewrite (Nat.mul_comm (k / depth) depth). symmetry. apply Nat.div_mod. lia.
Qed.

Lemma qrom_padded_nth {A} c (data : list A) k x : nth_error data k = Some x -> nth k (qrom_padded c data) None = Some x.
Proof.
  intros H. unfold qrom_padded. assert (L : k < length data) by (apply nth_error_Some; congruence).
  rewrite app_nth1 by (rewrite map_length; exact L).
  rewrite (nth_indep _ None (Some x)) by (rewrite map_length; exact L).
  rewrite (map_nth Some). f_equal. apply nth_error_nth. exact H.
Qed.

Lemma qrom_padded_none {A} c (data : list A) k : length data <= k -> nth k (qrom_padded c data) None = None.
Proof.
  intros H. unfold qrom_padded. rewrite app_nth2 by (rewrite map_length; exact H).
  destruct (nth_in_or_default (k - length (map Some data)) (repeat (@None A) (2 ^ c - length data)) None) as [Hin|E]; [|exact E].
  apply repeat_spec in Hin. exact Hin.
Qed.

Definition sw_step {A} (d : A) (q : list bool) (acc : list A) (t : nat * nat * nat) : list A :=
  match t with (cw, a, b) => if nth cw q false then swap_pos d a b acc else acc end.

Lemma swapnet_run_unfold {A} (d : A) s q slots : swapnet_run d s q slots = fold_left (sw_step d q) (swapnet s) slots.
Proof. reflexivity. Qed.

Lemma level_true {A} (d : A) q cw p : nth cw q false = true -> forall js slots,
  fold_left (sw_step d q) (map (fun j => (cw, j, j + p)) js) slots = apply_swaps d (map (fun j => (j, j + p)) js) slots.
Proof.
  intros Hb. induction js as [|j js IH]; intros slots; [reflexivity|].
  cbn [map fold_left]. rewrite apply_swaps_cons, <- IH. unfold sw_step at 2. rewrite Hb. reflexivity.
Qed.

Lemma level_false {A} (d : A) q cw p : nth cw q false = false -> forall js slots,
  fold_left (sw_step d q) (map (fun j => (cw, j, j + p)) js) slots = slots.
Proof.
  intros Hb. induction js as [|j js IH]; intros slots; [reflexivity|].
  cbn [map fold_left]. unfold sw_step at 2. rewrite Hb. apply IH.
Qed.

(* the swaps (n-1, n-1+p), ..., (0, p) bring the block starting at p down to the front *)
Lemma block_swaps_nth {A} (d : A) p : forall n l, n <= p -> p + n <= length l -> forall x, x < p ->
  nth x (apply_swaps d (map (fun j => (j, j + p)) (down_from n)) l) d = if Nat.ltb x n then nth (x + p) l d else nth x l d.
Proof.
  induction n as [|n IH]; intros l Hn Hl x Hx; [reflexivity|].
  cbn [down_from map]. rewrite apply_swaps_cons, IH by (rewrite ?swap_pos_length; lia).
  destruct (Nat.ltb_spec x n), (Nat.ltb_spec x (S n)); try lia.
  - apply nth_swap_pos_other; lia.
  - assert (x = n) by lia. subst x. rewrite nth_swap_pos, Nat.eqb_refl by lia.
    destruct (Nat.eqb_spec n (n + p)); [lia | reflexivity].
  - apply nth_swap_pos_other; lia.
Qed.

Definition shift3 (t : nat * nat * nat) : nat * nat * nat := match t with (cw, a, b) => (S cw, a, b) end.

Lemma fold_shift {A} (d : A) b rest l : forall slots,
  fold_left (sw_step d (b :: rest)) (map shift3 l) slots = fold_left (sw_step d rest) l slots.
Proof.
  induction l as [|[[cw x] y] l IH]; intros slots; [reflexivity|].
  cbn [map fold_left shift3]. unfold sw_step at 2 4. cbn [nth]. apply IH.
Qed.

Lemma swapnet_tail_shift s : forall l, (forall i, In i l -> i < s) ->
  flat_map (swapnet_level (S s)) l = map shift3 (flat_map (swapnet_level s) l).
Proof.
  induction l as [|i l IH]; intros H; [reflexivity|].
  cbn [flat_map]. rewrite map_app, IH by (intros j Hj; apply H; right; exact Hj). f_equal.
  unfold swapnet_level. rewrite map_map. apply map_ext. intros j. cbn [shift3].
  assert (i < s) by (apply H; left; reflexivity). f_equal. f_equal. lia.
Qed.

Lemma down_from_lt n : forall i, In i (down_from n) -> i < n.
Proof. induction n as [|n IH]; intros i H; [destruct H|]. destruct H as [<-|H]; [lia|]. specialize (IH i H). lia. Qed.

(* the first level of the network on s + 1 control wires is driven by the first wire; the rest is the network on s *)
Lemma swapnet_S s : swapnet (S s) = map (fun j => (0, j, j + 2 ^ s)) (down_from (2 ^ s)) ++ map shift3 (swapnet s).
Proof.
  unfold swapnet. cbn [down_from flat_map]. rewrite swapnet_tail_shift by apply down_from_lt.
  unfold swapnet_level at 1. replace (S s - 1 - s) with 0 by lia. reflexivity.
Qed.

Lemma swapnet_run_S {A} (d : A) s b q slots :
  swapnet_run d (S s) (b :: q) slots
  = swapnet_run d s q (fold_left (sw_step d (b :: q)) (map (fun j => (0, j, j + 2 ^ s)) (down_from (2 ^ s))) slots).
Proof. rewrite !swapnet_run_unfold, swapnet_S, fold_left_app. apply fold_shift. Qed.

(* the condition is the head bit of `be_bits (S s) q`, i.e. the bit that drives the first level *)
Lemma mod_pow2_S q s : q mod 2 ^ S s = q mod 2 ^ s + (if 2 ^ s <=? q mod 2 ^ S s then 2 ^ s else 0).
Proof.
  pose proof (pow2_pos s). cbn [Nat.pow]. rewrite (Nat.mul_comm 2), Nat.mod_mul_r by lia.
  assert (q mod 2 ^ s < 2 ^ s) by (apply Nat.mod_upper_bound; lia).
  assert ((q / 2 ^ s) mod 2 < 2) by (apply Nat.mod_upper_bound; lia).
  destruct ((q / 2 ^ s) mod 2) as [|[|r]]; [| |lia].
  - rewrite Nat.mul_0_r, Nat.add_0_r. destruct (Nat.leb_spec (2 ^ s) (q mod 2 ^ s)); lia.
  - rewrite Nat.mul_1_r. destruct (Nat.leb_spec (2 ^ s) (q mod 2 ^ s + 2 ^ s)); lia.
Qed.

Lemma swapnet_moves_slot {A} (d : A) s : forall q slots, 2 ^ s <= length slots ->
  nth 0 (swapnet_run d s (be_bits s q) slots) d = nth (q mod 2 ^ s) slots d.
Proof.
  induction s as [|s IH]; intros q slots Hl; [reflexivity|].
  cbn [be_bits]. rewrite swapnet_run_S. cbn [Nat.pow] in Hl.
  pose proof (mod_pow2_S q s) as M.
  assert (Q : q mod 2 ^ s < 2 ^ s) by (apply Nat.mod_upper_bound; pose proof (pow2_pos s); lia).
  destruct (2 ^ s <=? q mod 2 ^ S s); rewrite M.
  - rewrite level_true by reflexivity. rewrite IH, block_swaps_nth by (rewrite ?apply_swaps_length; lia).
    apply Nat.ltb_lt in Q. rewrite Q. reflexivity.
  - rewrite level_false by reflexivity. rewrite IH, Nat.add_0_r by lia. reflexivity.
Qed.

(* Select picks the row, the swap network the slot: together, entry k of the padded table *)
Lemma qrom_loaded_entry {A} c s (data : list A) k : qrom_loaded c s data k = nth k (qrom_padded c data) None.
Proof.
  pose proof (pow2_pos s) as P. unfold qrom_loaded. rewrite swapnet_moves_slot.
  - rewrite Nat.mod_mod by lia. apply qrom_row_entry, P.
  - unfold qrom_row. rewrite map_length, seq_length. lia.
Qed.

Lemma qrom_loaded_spec {A} c s (data : list A) k x : nth_error data k = Some x ->
  qrom_loaded c s data k = Some x.
Proof. rewrite qrom_loaded_entry. apply qrom_padded_nth. Qed.

Lemma qrom_loaded_pad {A} c s (data : list A) k : length data <= k -> qrom_loaded c s data k = None.
Proof. rewrite qrom_loaded_entry. apply qrom_padded_none. Qed.
