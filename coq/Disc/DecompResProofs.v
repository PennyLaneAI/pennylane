From Coq Require Import List ZArith Bool Lia.
From PLV Require Import Disc.DecompResModel.
Import ListNotations.
Open Scope Z_scope.

Lemma count_app k a b : count k (a ++ b) = count k a + count k b.
Proof. unfold count. induction a as [|x a IH]; cbn [app fold_right]; [lia|]. destruct (x =? k); lia. Qed.
Lemma count_nonneg k l : 0 <= count k l.
Proof. unfold count. induction l as [|x l IH]; cbn [fold_right]; [lia|]. destruct (x =? k); lia. Qed.
Lemma count_zero_not_in k l : ~ In k l -> count k l = 0.
Proof.
  unfold count. induction l as [|x l IH]; cbn [fold_right In]; intros H; [reflexivity|].
  destruct (Z.eqb_spec x k); [tauto | apply IH; tauto].
Qed.
Lemma mem_key_spec k d : mem_key k d = true <-> exists v, In (k, v) d.
Proof.
  unfold mem_key. rewrite existsb_exists. split.
  - intros [[k' v] [Hin E]]. cbn in E. apply Z.eqb_eq in E. subst. exists v; exact Hin.
  - intros [v Hin]. exists (k, v). split; [exact Hin | cbn; apply Z.eqb_refl].
Qed.

Lemma declared_of_not_mem k d : mem_key k d = false -> declared_of k d = 0.
Proof.
  unfold mem_key, declared_of. induction d as [|[k' v] d IH]; cbn; [reflexivity|]. destruct (k' =? k); [discriminate | exact IH].
Qed.

(* soundness of the exact check: for EVERY resource type, emitted count = declared count (0 for an undeclared type) *)
Lemma res_exact_count e d : res_exact e d = true -> forall k, count k e = declared_of k d.
Proof.
  unfold res_exact. intros H k. apply andb_prop in H as [H1 H2]. rewrite forallb_forall in H1, H2.
  destruct (mem_key k d) eqn:M.
  - apply mem_key_spec in M as [v Hin]. specialize (H1 (k, v) Hin). cbn in H1. apply Z.eqb_eq in H1. exact H1.
  - rewrite (declared_of_not_mem k d M). apply count_zero_not_in. intros Hin. specialize (H2 k Hin). congruence.
Qed.

Lemma res_subset_sound e d : res_subset e d = true -> forall x, In x e -> exists v, In (x, v) d.
Proof. unfold res_subset. rewrite forallb_forall. intros H x Hx. apply mem_key_spec. exact (H x Hx). Qed.

Lemma res_exact_subset e d : res_exact e d = true -> res_subset e d = true.
Proof. unfold res_exact, res_subset. intros H. apply andb_prop in H as [_ H]. exact H. Qed.

Lemma peak_from_ge_best evs : forall live best, best <= peak_from live best evs.
Proof. induction evs as [|e r IH]; intros live best; cbn [peak_from]; [lia|]. specialize (IH (live + e) (Z.max best (live + e))). lia. Qed.
(* started from an arbitrary (live, best) the result need not dominate live itself, hence the Z.max *)
Lemma peak_from_bounds evs : forall live best k, (k <= length evs)%nat ->
  live + fold_right Z.add 0 (firstn k evs) <= Z.max live (peak_from live best evs).
Proof.
  induction evs as [|e r IH]; intros live best k Hk.
  - destruct k; cbn; lia.
  - destruct k as [|k]; [cbn [firstn fold_right]; lia|]. cbn [firstn fold_right peak_from]. cbn [length] in Hk.
    specialize (IH (live + e) (Z.max best (live + e)) k ltac:(lia)).
    pose proof (peak_from_ge_best r (live + e) (Z.max best (live + e))). lia.
Qed.
Lemma peak_bounds_every_prefix evs k : (k <= length evs)%nat -> fold_right Z.add 0 (firstn k evs) <= peak evs.
Proof.
  intros Hk. pose proof (peak_from_bounds evs 0 0 k Hk). pose proof (peak_from_ge_best evs 0 0). unfold peak. lia.
Qed.

Lemma check_case_sound c : check_case c = true ->
  (exact c = true -> forall k, count k (emitted c) = declared_of k (declared c) \/ (mem_key k (declared c) = false /\ count k (emitted c) = 0)) /\
  (forall x, In x (emitted c) -> exists v, In (x, v) (declared c)) /\
  (forall k, (k <= length (allocs c))%nat -> fold_right Z.add 0 (firstn k (allocs c)) <= work_declared c).
Proof.
  unfold check_case. intros H. apply andb_prop in H as [H1 H2]. apply Z.leb_le in H2. repeat split.
  - intros E k. rewrite E in H1. left. exact (res_exact_count _ _ H1 k).
  - destruct (exact c); [apply res_subset_sound, res_exact_subset, H1 | apply res_subset_sound, H1].
  - intros k Hk. pose proof (peak_bounds_every_prefix _ k Hk). lia.
Qed.
