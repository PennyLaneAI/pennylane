(* Lemmas about Disc/StatePrepModel.v.
   (a) BasisState: both the X gates of the decomposition run on the zero register (run_x_general,
   decomp_register) and the index assignment loop of state_vector (sv_indices_spec, state_vector_bits_spec)
   are shown to leave `lookup w wires bits` at the position of every wire w of the device register; their
   agreement and the index formulas follow.
   (b) _preprocess: norm_tail_cases is the one case analysis of the normalisation tail; the statements about
   preprocess peel off the length checks and padding (pad_if_short) and read the rest off it. *)
From Coq Require Import List ZArith Bool QArith Qabs Lia ZifyBool Qfield.
From PLV Require Import Disc.StatePrepModel.
Import ListNotations.

Open Scope Z_scope.

(* spec-level lookup: the bit requested for wire w (false when w is not one of the operator's wires) *)
Fixpoint lookup (w : Z) (wires : list Z) (bits : list bool) : bool :=
  match wires, bits with
  | x :: ws, b :: bs => if x =? w then b else lookup w ws bs
  | _, _ => false
  end.

Lemma lookup_notin : forall w wires bits, ~ In w wires -> lookup w wires bits = false.
Proof.
  induction wires as [|x ws IH]; intros bits H; [reflexivity|].
  destruct bits as [|b bs]; [reflexivity|]. cbn [lookup].
  destruct (x =? w) eqn:E.
  - exfalso. apply H. left. lia.
  - apply IH. intro; apply H; right; assumption.
Qed.

Lemma fold_index_acc : forall bits acc,
  fold_left (fun a b => 2 * a + b2z b) bits acc = acc * 2 ^ Z.of_nat (length bits) + index_sum bits.
Proof.
  induction bits as [|b bs IH]; intros acc.
  - cbn. lia.
  - cbn [fold_left index_sum length]. rewrite IH.
    rewrite Nat2Z.inj_succ, Z.pow_succ_r by lia. ring.
Qed.

Lemma index_of_sum : forall bits, index_of bits = index_sum bits.
Proof. intros. unfold index_of. rewrite fold_index_acc. lia. Qed.

Lemma index_sum_range : forall bits, 0 <= index_sum bits < 2 ^ Z.of_nat (length bits).
Proof.
  induction bits as [|b bs IH]; [cbn; lia|].
  cbn [index_sum length]. rewrite Nat2Z.inj_succ, Z.pow_succ_r by lia.
  destruct b; cbn [b2z]; lia.
Qed.

Lemma run_x_general : forall bits wires r, NoDup wires ->
  run_x (decomp bits wires) r = map (fun p => (fst p, xorb (snd p) (lookup (fst p) wires bits))) r.
Proof.
  assert (ID : forall r : reg, r = map (fun p => (fst p, xorb (snd p) false)) r).
  { intros r. rewrite <- (map_id r) at 1. apply map_ext. intros [w v]. cbn. now rewrite xorb_false_r. }
  induction bits as [|b bs IH]; intros wires r ND; [destruct wires; apply ID|].
  destruct wires as [|w ws]; [apply ID|].
  inversion ND as [|? ? Hnin ND']; subst.
  cbn [decomp]. destruct b.
  - unfold run_x in *. cbn [fold_left]. rewrite IH by assumption.
    unfold apply_x. rewrite map_map. apply map_ext. intros [x v]. cbn [fst snd lookup].
    destruct (x =? w) eqn:E.
    + assert (x = w) by lia; subst x. rewrite Z.eqb_refl. cbn [fst snd].
      rewrite (lookup_notin w ws bs Hnin). now destruct v.
    + rewrite Z.eqb_sym, E. reflexivity.
  - rewrite IH by assumption. apply map_ext. intros [x v]. cbn [fst snd lookup].
    destruct (w =? x) eqn:E; [|reflexivity].
    assert (w = x) by lia; subst x. now rewrite (lookup_notin w ws bs Hnin).
Qed.

Lemma decomp_register : forall bits wires order, NoDup wires ->
  reg_bits (run_x (decomp bits wires) (zero_reg order)) = map (fun w => lookup w wires bits) order.
Proof.
  intros. rewrite run_x_general by assumption. unfold reg_bits, zero_reg.
  rewrite !map_map. apply map_ext. intros w. cbn [fst snd]. now destruct (lookup w wires bits).
Qed.

Lemma lookup_own : forall wires bits, NoDup wires -> length bits = length wires ->
  map (fun w => lookup w wires bits) wires = bits.
Proof.
  induction wires as [|w ws IH]; intros bits ND L.
  - destruct bits; [reflexivity|discriminate].
  - destruct bits as [|b bs]; [discriminate|].
    inversion ND as [|? ? Hnin ND']; subst.
    cbn [map lookup]. rewrite Z.eqb_refl. f_equal.
    transitivity (map (fun x => lookup x ws bs) ws); [|apply IH; [assumption|cbn in L; lia]].
    apply map_ext_in. intros x Hx. destruct (w =? x) eqn:E; [|reflexivity].
    exfalso. apply Hnin. assert (w = x) by lia. now subst.
Qed.

Lemma decomp_own_wires : forall bits wires, NoDup wires -> length bits = length wires ->
  reg_bits (run_x (decomp bits wires) (zero_reg wires)) = bits.
Proof. intros. rewrite decomp_register by assumption. now apply lookup_own. Qed.

(* what sv_indices ws bs order acc leaves at a position of the device register, given the pair p = (wire,
   accumulator entry) there: the requested bit if the wire is among ws, the accumulator's entry otherwise *)
Definition memb (w : Z) (l : list Z) : bool := existsb (fun x => x =? w) l.
Definition upd (ws : list Z) (bs : list bool) (p : Z * bool) : bool :=
  if memb (fst p) ws then lookup (fst p) ws bs else snd p.

Lemma memb_In : forall w l, memb w l = true <-> In w l.
Proof.
  intros. unfold memb. rewrite existsb_exists. split.
  - intros [x [Hx E]]. assert (x = w) by lia. now subst.
  - intros H. exists w. split; [assumption|lia].
Qed.

(* one iteration of sv_indices, used with f = upd (w :: ws) (b :: bs) and f' = upd ws bs *)
Lemma set_nth_combine : forall (f f' : Z * bool -> bool) w b order i acc,
  find_idx w order = Some i -> NoDup order -> length acc = length order ->
  (forall a, f' (w, b) = f (w, a)) ->
  (forall x a, x <> w -> f' (x, a) = f (x, a)) ->
  map f' (combine order (set_nth i b acc)) = map f (combine order acc).
Proof.
  intros f f' w b. induction order as [|x r IH]; intros i acc Hf ND L H1 H2; [discriminate|].
  destruct acc as [|a accr]; [discriminate|].
  inversion ND as [|? ? Hnin ND']; subst.
  cbn [find_idx] in Hf. destruct (x =? w) eqn:E.
  - inversion Hf; subst i. assert (x = w) by lia; subst x.
    cbn [set_nth combine map]. rewrite (H1 a). f_equal.
    apply map_ext_in. intros [y c] Hin. apply H2.
    intro; subst y. apply Hnin. eapply in_combine_l; eauto.
  - destruct (find_idx w r) as [i'|] eqn:F; [|discriminate]. inversion Hf; subst i.
    cbn [set_nth combine map]. rewrite H2 by lia. f_equal.
    apply IH; auto.
Qed.

Lemma find_idx_in : forall w order, In w order -> exists i, find_idx w order = Some i.
Proof.
  induction order as [|x r IH]; intros H; [destruct H|].
  cbn [find_idx]. destruct (x =? w) eqn:E; [eauto|].
  destruct H as [H|H]; [lia|]. destruct (IH H) as [i Hi]. rewrite Hi. cbn. eauto.
Qed.

Lemma set_nth_length : forall A (l : list A) n v, length (set_nth n v l) = length l.
Proof. induction l; intros [|n] v; cbn; auto. Qed.

Lemma sv_indices_spec : forall wires bits order acc,
  NoDup wires -> NoDup order -> incl wires order -> length bits = length wires ->
  length acc = length order ->
  sv_indices wires bits order acc = Some (map (upd wires bits) (combine order acc)).
Proof.
  induction wires as [|w ws IH]; intros bits order acc NDw NDo Hincl L La.
  - cbn [sv_indices]. f_equal.
    assert (G : forall (o : list Z) (a : list bool), length a = length o ->
               a = map (upd [] bits) (combine o a)).
    { induction o as [|x o IHo]; intros [|y a] Hl; try discriminate; [reflexivity|].
      cbn [combine map]. unfold upd at 1. cbn. f_equal. apply IHo. cbn in Hl; lia. }
    apply G; assumption.
  - destruct bits as [|b bs]; [discriminate|].
    inversion NDw as [|? ? Hnin NDw']; subst.
    cbn [sv_indices].
    destruct (find_idx_in w order) as [i Hi]; [apply Hincl; now left|].
    rewrite Hi. rewrite (IH bs order (set_nth i b acc));
      [ | assumption | assumption | intros x Hx; apply Hincl; now right | cbn in L; lia | now rewrite set_nth_length ].
    f_equal. apply set_nth_combine with (w := w); auto.
      * intros a. unfold upd. cbn [fst snd].
        assert (M : memb w ws = false).
        { destruct (memb w ws) eqn:E; [|reflexivity]. exfalso. apply Hnin. now apply memb_In. }
        rewrite M. unfold memb. cbn [existsb lookup]. rewrite Z.eqb_refl. reflexivity.
      * intros x a Hx. unfold upd. cbn [fst snd]. unfold memb. cbn [existsb lookup].
        destruct (w =? x) eqn:E; [apply Z.eqb_eq in E; congruence|]. reflexivity.
Qed.

Lemma combine_repeat_map : forall (f : Z * bool -> bool) (g : Z -> bool) order,
  (forall w, f (w, false) = g w) ->
  map f (combine order (repeat false (length order))) = map g order.
Proof.
  intros f g order H. induction order as [|x o IH]; [reflexivity|].
  cbn [length repeat combine map]. now rewrite H, IH.
Qed.

Lemma state_vector_bits_spec : forall wires bits order,
  NoDup wires -> NoDup order -> incl wires order -> length bits = length wires ->
  state_vector_bits wires bits order = Some (map (fun w => lookup w wires bits) order).
Proof.
  intros wires bits order NDw NDo Hi L. unfold state_vector_bits.
  rewrite sv_indices_spec; auto; [|now rewrite repeat_length].
  f_equal. apply combine_repeat_map. intros w. unfold upd. cbn [fst snd].
  destruct (memb w wires) eqn:E; [reflexivity|].
  symmetry. apply lookup_notin. intro Hin. apply memb_In in Hin. congruence.
Qed.

Lemma decomp_matches_state_vector : forall wires bits order,
  NoDup wires -> NoDup order -> incl wires order -> length bits = length wires ->
  state_vector_bits wires bits order = Some (reg_bits (run_x (decomp bits wires) (zero_reg order))).
Proof. intros. rewrite decomp_register by assumption. now apply state_vector_bits_spec. Qed.

Lemma decomp_index_own : forall bits wires, NoDup wires -> length bits = length wires ->
  index_of (reg_bits (run_x (decomp bits wires) (zero_reg wires))) = index_sum bits.
Proof. intros. rewrite decomp_own_wires by assumption. apply index_of_sum. Qed.

Lemma canonicalize_scalar : forall k n, canonicalize (BSScalar k) n = None.
Proof. reflexivity. Qed.

Lemma forallb_is_bit : forall l, forallb is_bit l = true <-> Forall (fun z => z = 0 \/ z = 1) l.
Proof.
  intros l. rewrite forallb_forall, Forall_forall.
  split; intros H z Hz; specialize (H z Hz); unfold is_bit in *; lia.
Qed.

Lemma canonicalize_list : forall l n bits,
  canonicalize (BSList l) n = Some bits <->
  (length l = n /\ Forall (fun z => z = 0 \/ z = 1) l /\ bits = map (fun z => z =? 1) l).
Proof.
  intros l n bits. unfold canonicalize. rewrite <- forallb_is_bit.
  destruct (Nat.eqb_spec (length l) n), (forallb is_bit l); cbn [negb];
    split; try discriminate; intuition congruence.
Qed.

Lemma int_to_binary_S : forall k n,
  int_to_binary k (S n) = Z.eqb ((Z.shiftr k (Z.of_nat n)) mod 2) 1 :: int_to_binary k n.
Proof.
  intros. unfold int_to_binary. rewrite seq_S, rev_app_distr. cbn [rev app map Nat.add]. reflexivity.
Qed.

Lemma int_to_binary_length : forall k n, length (int_to_binary k n) = n.
Proof. intros. unfold int_to_binary. now rewrite map_length, rev_length, seq_length. Qed.

Lemma int_to_binary_index : forall k n, index_of (int_to_binary k n) = k mod 2 ^ Z.of_nat n.
Proof.
  intros k n. rewrite index_of_sum. induction n as [|n IH].
  - cbn. now rewrite Z.mod_1_r.
  - rewrite int_to_binary_S. cbn [index_sum]. rewrite IH, int_to_binary_length.
    rewrite Nat2Z.inj_succ, Z.pow_succ_r by lia.
    rewrite Z.shiftr_div_pow2 by lia.
    rewrite (Z.mul_comm 2), Z.rem_mul_r by lia.
    set (q := (k / 2 ^ Z.of_nat n) mod 2).
    assert (0 <= q < 2) by (apply Z.mod_pos_bound; lia).
    assert (b2z (q =? 1) = q) by (destruct (q =? 1) eqn:E; cbn [b2z]; lia).
    lia.
Qed.

Lemma int_to_binary_in_range : forall k n, 0 <= k < 2 ^ Z.of_nat n -> index_of (int_to_binary k n) = k.
Proof. intros. rewrite int_to_binary_index. now apply Z.mod_small. Qed.

Open Scope Q_scope.

Lemma pad_length : forall st dim p, (length st <= dim)%nat -> length (pad st dim p) = dim.
Proof. intros. unfold pad. rewrite app_length, repeat_length. lia. Qed.

Lemma pad_keeps : forall st dim p i d, (i < length st)%nat -> nth i (pad st dim p) d = nth i st d.
Proof. intros. unfold pad. now apply app_nth1. Qed.

Lemma pad_fills : forall st dim p i d, (length st <= i < dim)%nat -> nth i (pad st dim p) d = p.
Proof.
  intros. unfold pad. rewrite app_nth2 by lia.
  apply (repeat_spec (dim - length st) p). apply nth_In. rewrite repeat_length. lia.
Qed.

Lemma pad_full : forall st dim p, (dim <= length st)%nat -> pad st dim p = st.
Proof. intros. unfold pad. replace (dim - length st)%nat with 0%nat by lia. cbn. apply app_nil_r. Qed.

Lemma pad_if_short : forall st dim p,
  (if Nat.ltb (length st) dim then pad st dim p else st) = pad st dim p.
Proof.
  intros. destruct (Nat.ltb (length st) dim) eqn:E; [reflexivity|].
  apply Nat.ltb_ge in E. symmetry. now apply pad_full.
Qed.

Lemma qsqrt_sound : forall q r, qsqrt q = Some r -> r * r == q /\ 0 <= r.
Proof.
  intros [n d] r. unfold qsqrt. cbn [Qnum Qden].
  destruct (Z.sqrt (n * Z.pos d) * Z.sqrt (n * Z.pos d) =? n * Z.pos d)%Z eqn:E; [|discriminate].
  intros H; inversion H; subst r. apply Z.eqb_eq in E. split.
  - unfold Qeq, Qmult. cbn [Qnum Qden]. rewrite E, Pos2Z.inj_mul. ring.
  - unfold Qle. cbn [Qnum Qden]. pose proof (Z.sqrt_nonneg (n * Z.pos d)). lia.
Qed.

Lemma cabs2_cdiv : forall r z, ~ r == 0 -> cabs2 (cdiv r z) == cabs2 z / (r * r).
Proof. intros r [a b] H. unfold cabs2, cdiv. cbn [fst snd]. field. exact H. Qed.

Lemma norm2_cdiv : forall r st, ~ r == 0 -> norm2 (map (cdiv r) st) == norm2 st / (r * r).
Proof.
  intros r st H. induction st as [|z st IH].
  - cbn. field. exact H.
  - cbn [map norm2 fold_right]. fold (norm2 (map (cdiv r) st)). fold (norm2 st).
    rewrite IH, cabs2_cdiv by exact H. field. exact H.
Qed.

Lemma normalize_unit : forall r st, r * r == norm2 st -> ~ r == 0 -> norm2 (map (cdiv r) st) == 1.
Proof.
  intros r st Hr H. rewrite norm2_cdiv by exact H. rewrite <- Hr. field. exact H.
Qed.

(* the three ways the normalisation tail accepts: nothing requested; norm within tol of 1, and then the
   vector is returned as it is even when normalize is set (the code tests closeness first); divided by its
   norm *)
Lemma norm_tail_cases : forall st nz v out, norm_tail st nz v = POk out ->
  (v || nz = false /\ out = st) \/
  (exists r, r * r == norm2 st /\ 0 <= r /\ Qabs (r - 1) <= tol /\ out = st) \/
  (exists r, r * r == norm2 st /\ ~ r == 0 /\ nz = true /\ out = map (cdiv r) st /\ norm2 out == 1).
Proof.
  intros st nz v out. unfold norm_tail.
  destruct (v || nz) eqn:F; cbn [negb].
  2:{ intros H; inversion H; subst. left. auto. }
  destruct (qsqrt (norm2 st)) as [r|] eqn:S; [|discriminate].
  destruct (qsqrt_sound _ _ S) as [Hr Hpos].
  destruct (close1 r) eqn:Cl.
  - intros H; inversion H; subst. right; left. exists r. repeat split; auto.
    unfold close1 in Cl. now apply Qle_bool_iff in Cl.
  - destruct nz; [|discriminate].
    destruct (Qeq_bool r 0) eqn:Z0; [discriminate|].
    intros H; inversion H; subst. right; right. exists r.
    pose proof (Qeq_bool_neq _ _ Z0) as Hn.
    repeat split; auto. now apply normalize_unit.
Qed.

Lemma norm_tail_length : forall st nz v out, norm_tail st nz v = POk out -> length out = length st.
Proof.
  intros st nz v out H. destruct (norm_tail_cases _ _ _ _ H) as [[_ ->]|[[r [_ [_ [_ ->]]]]|[r [_ [_ [_ [-> _]]]]]]];
    auto. now rewrite map_length.
Qed.

Lemma preprocess_length : forall a out, preprocess a = POk out -> length out = Nat.pow 2 (pa_nwires a).
Proof.
  intros a out. unfold preprocess. destruct (pa_pad a) as [p|].
  - destruct (Nat.ltb (2 ^ pa_nwires a) (length (pa_state a))) eqn:E1; [discriminate|].
    apply Nat.ltb_ge in E1. rewrite pad_if_short. intros H.
    apply norm_tail_length in H. rewrite H. apply pad_length. exact E1.
  - destruct (Nat.eqb (length (pa_state a)) (2 ^ pa_nwires a)) eqn:E; cbn [negb]; [|discriminate].
    apply Nat.eqb_eq in E. intros H. apply norm_tail_length in H. lia.
Qed.

Lemma too_long_rejected : forall a, (Nat.pow 2 (pa_nwires a) < length (pa_state a))%nat ->
  preprocess a = PErr /\ preprocess_csr a = PErr.
Proof.
  intros a H. split.
  - unfold preprocess. destruct (pa_pad a).
    + apply Nat.ltb_lt in H. now rewrite H.
    + destruct (Nat.eqb (length (pa_state a)) (2 ^ pa_nwires a)) eqn:E; [|reflexivity].
      apply Nat.eqb_eq in E. lia.
  - unfold preprocess_csr. apply Nat.ltb_lt in H. rewrite H.
    now destruct (match pa_pad a with Some p => negb (czero p) | None => false end).
Qed.

Lemma wrong_length_rejected_without_pad : forall a, pa_pad a = None ->
  length (pa_state a) <> Nat.pow 2 (pa_nwires a) -> preprocess a = PErr.
Proof.
  intros a Hp H. unfold preprocess. rewrite Hp.
  apply Nat.eqb_neq in H. now rewrite H.
Qed.

Lemma reject_iff_not_normalised : forall a r, pa_pad a = None -> pa_normalize a = false ->
  pa_validate a = true -> length (pa_state a) = Nat.pow 2 (pa_nwires a) ->
  qsqrt (norm2 (pa_state a)) = Some r ->
  (preprocess a = PErr <-> ~ Qabs (r - 1) <= tol) /\
  (preprocess a = POk (pa_state a) <-> Qabs (r - 1) <= tol).
Proof.
  intros a r Hp Hn Hv HL HS. unfold preprocess. rewrite Hp, HL, Nat.eqb_refl. cbn [negb].
  unfold norm_tail. rewrite Hn, Hv, HS. cbn [orb negb].
  unfold close1. destruct (Qle_bool (Qabs (r - 1)) tol) eqn:E.
  - apply Qle_bool_iff in E. split; split; intros; try discriminate; auto; contradiction.
  - assert (~ Qabs (r - 1) <= tol) by (intro G; apply Qle_bool_iff in G; congruence).
    split; split; intros; try discriminate; auto; contradiction.
Qed.

Lemma unvalidated_accepted : forall a, pa_pad a = None -> pa_normalize a = false ->
  pa_validate a = false -> length (pa_state a) = Nat.pow 2 (pa_nwires a) ->
  preprocess a = POk (pa_state a).
Proof.
  intros a Hp Hn Hv HL. unfold preprocess. rewrite Hp, HL, Nat.eqb_refl. cbn [negb].
  unfold norm_tail. now rewrite Hn, Hv.
Qed.

(* padding happens first and at the END, then the whole padded vector is normalised *)
Lemma preprocess_pad_structure : forall a p, pa_pad a = Some p ->
  (length (pa_state a) <= Nat.pow 2 (pa_nwires a))%nat ->
  let padded := pad (pa_state a) (Nat.pow 2 (pa_nwires a)) p in
  match preprocess a with
  | PErr => False
  | POk out => (out = padded /\ exists r, r * r == norm2 padded /\ 0 <= r /\ Qabs (r - 1) <= tol)
               \/ (exists r, r * r == norm2 padded /\ ~ r == 0 /\ out = map (cdiv r) padded /\ norm2 out == 1)
  | _ => True
  end.
Proof.
  intros a p Hp HL padded. unfold preprocess. rewrite Hp.
  assert (E1 : Nat.ltb (2 ^ pa_nwires a) (length (pa_state a)) = false) by (apply Nat.ltb_ge; exact HL).
  rewrite E1, pad_if_short. fold padded.
  destruct (norm_tail padded true (pa_validate a)) as [| | |out] eqn:T; auto.
  - unfold norm_tail in T. rewrite orb_true_r in T. cbn [negb] in T.
    destruct (qsqrt (norm2 padded)); [|discriminate].
    destruct (close1 q); [discriminate|]. destruct (Qeq_bool q 0); discriminate.
  - destruct (norm_tail_cases _ _ _ _ T) as [[F _]|[[r [H1 [H2 [H3 ->]]]]|[r [H1 [H2 [_ [-> H4]]]]]]].
    + rewrite orb_true_r in F. discriminate.
    + left. split; [reflexivity|]. exists r. auto.
    + right. exists r. auto.
Qed.

Lemma norm_tail_ok_norm : forall st nz v out, norm_tail st nz v = POk out -> v || nz = true ->
  norm2 out == 1 \/ exists r, r * r == norm2 out /\ 0 <= r /\ Qabs (r - 1) <= tol.
Proof.
  intros st nz v out H F.
  destruct (norm_tail_cases _ _ _ _ H) as [[F' _]|[[r [H1 [H2 [H3 ->]]]]|[r [_ [_ [_ [_ H4]]]]]]].
  - congruence.
  - right. exists r. auto.
  - left. exact H4.
Qed.

(* any accepted, validated/normalised vector is a unit vector up to the code's tolerance *)
Lemma preprocess_ok_norm : forall a out, preprocess a = POk out ->
  (pa_validate a || pa_normalize a = true \/ pa_pad a <> None) ->
  norm2 out == 1 \/ exists r, r * r == norm2 out /\ 0 <= r /\ Qabs (r - 1) <= tol.
Proof.
  intros a out H Hflag. unfold preprocess in H. destruct (pa_pad a) as [p|] eqn:Hp.
  - destruct (Nat.ltb (2 ^ pa_nwires a) (length (pa_state a))); [discriminate|].
    apply norm_tail_ok_norm in H; [exact H | apply orb_true_r].
  - destruct (negb (Nat.eqb (length (pa_state a)) (2 ^ pa_nwires a))); [discriminate|].
    apply norm_tail_ok_norm in H; [exact H|]. destruct Hflag as [G|G]; [exact G | contradiction].
Qed.

Lemma csr_nonzero_pad_rejected : forall a p, pa_pad a = Some p -> czero p = false -> preprocess_csr a = PErr.
Proof. intros a p Hp Hz. unfold preprocess_csr. now rewrite Hp, Hz. Qed.

Lemma csr_normalize_unit : forall a out, pa_normalize a = true -> preprocess_csr a = POk out ->
  length out = Nat.pow 2 (pa_nwires a) /\ norm2 out == 1.
Proof.
  intros a out Hn. unfold preprocess_csr.
  destruct (match pa_pad a with Some p => negb (czero p) | None => false end); [discriminate|].
  destruct (Nat.ltb (2 ^ pa_nwires a) (length (pa_state a))) eqn:E1; [discriminate|].
  apply Nat.ltb_ge in E1. rewrite Hn, orb_true_r. cbn [negb].
  rewrite pad_if_short. set (st := pad _ _ _).
  assert (HL : length st = Nat.pow 2 (pa_nwires a)) by now apply pad_length.
  destruct (qsqrt (norm2 st)) as [r|] eqn:S; [|discriminate].
  destruct (qsqrt_sound _ _ S) as [Hr _].
  destruct (Qeq_bool r 0) eqn:Z0; [discriminate|].
  intros H; inversion H; subst out. split.
  - now rewrite map_length.
  - apply normalize_unit; auto. now apply Qeq_bool_neq.
Qed.
