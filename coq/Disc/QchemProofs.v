(* Lemmas about Disc/QchemModel.v (qchem.structure / number / spin and the Fock-space conservation checkers).
   The conservation law is proved twice.  On Fock space a ladder operator changes the eigenvalue of
   sum_p wt(p) n_p by +-wt(p), so a word changes it by `shift wt w` (fw_apply_diag).  On the Jordan-Wigner image no
   state is involved: `shifts N X q` says N X = X N + q X, it is additive over products (shifts_smul) and over sums
   and scalar multiples of N, and for one mode and one ladder operator it follows from the anticommutation relations
   jw_car_all alone (pair_number, pair_commutes); hence jw_word_shifts for every register size and word length. *)
From Coq Require Import List ZArith QArith Bool Arith Lia Lqa ZifyBool Setoid Morphisms.
From PLV Require Import Alg.ListFacts Disc.FermiModel Disc.FermiProofs Disc.QchemModel.
Import ListNotations.
Local Open Scope nat_scope.

(* ------------------------------------------------------------------ counting *)
Fixpoint count_true (l : list bool) : nat :=
  match l with [] => 0 | x :: r => (if x then 1 else 0) + count_true r end.

Lemma count_below : forall e n a,
  count_true (map (fun i => Nat.ltb i e) (seq a n)) = Nat.min e (a + n) - Nat.min e a.
Proof.
  intros e n. induction n as [|n IH]; intro a; cbn [seq map count_true].
  - lia.
  - rewrite IH. destruct (Nat.ltb a e) eqn:E; [apply Nat.ltb_lt in E | apply Nat.ltb_ge in E]; lia.
Qed.

Lemma dot2_count : forall (f g : nat -> bool) l,
  dot2 (map f l) (map g l) = Nat.odd (count_true (map (fun j => f j && g j) l)).
Proof.
  intros f g l. induction l as [|x r IH]; cbn [map dot2 count_true]; [reflexivity|].
  rewrite IH, Nat.odd_add. destruct (f x && g x); reflexivity.
Qed.

(* ------------------------------------------------------------------ hf_state *)
Lemma hf_error_iff_lemma : forall e o b, hf_state e o b = Err <-> (e <= 0 \/ e > o)%Z.
Proof.
  intros e o b. unfold hf_state.
  destruct (e <=? 0)%Z eqn:E1; [split; [intros _; lia | reflexivity]|].
  destruct (e >? o)%Z eqn:E2; [split; [intros _; lia | reflexivity]|].
  split; [destruct b; discriminate | lia].
Qed.

Lemma hf_state_ok : forall e o b, (0 < e <= o)%Z ->
  hf_state e o b =
  Ok (match b with
      | BOcc => occ_vec (Z.to_nat e) (Z.to_nat o)
      | BPar => map (fun i => dot2 (tril_row (Z.to_nat o) i) (occ_vec (Z.to_nat e) (Z.to_nat o))) (seq 0 (Z.to_nat o))
      | BBK => map (fun row => dot2 row (occ_vec (Z.to_nat e) (Z.to_nat o))) (beta_matrix (Z.to_nat o))
      end).
Proof.
  intros e o b H. unfold hf_state.
  destruct (e <=? 0)%Z eqn:E1; [lia|]. destruct (e >? o)%Z eqn:E2; [lia|]. destruct b; reflexivity.
Qed.

Lemma hf_occ_lemma : forall e o, (0 < e <= o)%Z ->
  hf_state e o BOcc = Ok (occ_vec (Z.to_nat e) (Z.to_nat o)) /\
  length (occ_vec (Z.to_nat e) (Z.to_nat o)) = Z.to_nat o /\
  (forall i, i < Z.to_nat o -> nth i (occ_vec (Z.to_nat e) (Z.to_nat o)) false = Nat.ltb i (Z.to_nat e)) /\
  count_true (occ_vec (Z.to_nat e) (Z.to_nat o)) = Z.to_nat e.
Proof.
  intros e o H. split; [apply hf_state_ok, H|]. unfold occ_vec.
  split; [rewrite map_length, seq_length; reflexivity|]. split.
  - intros i Hi. rewrite nth_map_seq by assumption. reflexivity.
  - rewrite count_below. lia.
Qed.

Lemma hf_parity_lemma : forall e o, (0 < e <= o)%Z ->
  exists s, hf_state e o BPar = Ok s /\ length s = Z.to_nat o /\
  forall i, i < Z.to_nat o -> nth i s false = Nat.odd (Nat.min (i + 1) (Z.to_nat e)).
Proof.
  intros e o H. eexists. split; [apply hf_state_ok, H|]. split; [rewrite map_length, seq_length; reflexivity|].
  intros i Hi. rewrite nth_map_seq by assumption. cbn [plus].
  unfold tril_row, occ_vec. rewrite dot2_count.
  rewrite (map_ext _ (fun j => Nat.ltb j (Nat.min (i + 1) (Z.to_nat e)))).
  - rewrite count_below. f_equal. lia.
  - intro j. destruct (Nat.leb j i) eqn:A; destruct (Nat.ltb j (Z.to_nat e)) eqn:B;
      destruct (Nat.ltb j (Nat.min (i + 1) (Z.to_nat e))) eqn:D; try reflexivity; lia.
Qed.

Lemma hf_bk_lemma : forall e o, (0 < e <= o)%Z ->
  hf_state e o BBK = Ok (map (fun row => dot2 row (occ_vec (Z.to_nat e) (Z.to_nat o))) (beta_matrix (Z.to_nat o))).
Proof. intros e o H. apply (hf_state_ok e o BBK H). Qed.

Lemma beta_update_bounded : forall o, o <= 12 -> beta_matches_update o = true.
Proof.
  intros o H. do 13 (destruct o as [|o]; [vm_compute; reflexivity|]). lia.
Qed.

(* ------------------------------------------------------------------ excitations *)
Lemma excitations_error_lemma : forall e o d,
  excitations e o d = Err <-> (e <= 0 \/ o <= e \/ d < -2 \/ d > 2)%Z.
Proof.
  intros e o d. unfold excitations, dsz_ok.
  destruct (e >? 0)%Z eqn:E1; cbn [negb]; [|split; [intros _; lia | reflexivity]].
  destruct (o <=? e)%Z eqn:E2; [split; [intros _; lia | reflexivity]|].
  destruct ((-2 <=? d)%Z && (d <=? 2)%Z) eqn:E3; cbn [negb].
  - split; [discriminate | lia].
  - split; [intros _; lia | reflexivity].
Qed.

Lemma excitations_ok_lemma : forall e o d, (0 < e < o)%Z -> (-2 <= d <= 2)%Z ->
  excitations e o d = Ok (singles (Z.to_nat e) (Z.to_nat o) d, doubles (Z.to_nat e) (Z.to_nat o) d).
Proof.
  intros e o d H1 H2. unfold excitations, dsz_ok.
  destruct (e >? 0)%Z eqn:E1; [|lia]. destruct (o <=? e)%Z eqn:E2; [lia|].
  destruct ((-2 <=? d)%Z && (d <=? 2)%Z) eqn:E3; [reflexivity | lia].
Qed.

Lemma in_cond_single : forall {B} (c : bool) (x b : B), In b (if c then [x] else []) <-> c = true /\ b = x.
Proof.
  intros B c x b. destruct c; cbn [In]; split.
  - intros [H|[]]. split; [reflexivity | symmetry; exact H].
  - intros [_ ->]. left. reflexivity.
  - intros [].
  - intros [H _]. discriminate.
Qed.

Lemma singles_spec_lemma : forall e o d x,
  In x (singles e o d) <->
  exists r p, x = [r; p] /\ r < e /\ e <= p < o /\ (s2 p - s2 r = 2 * d)%Z.
Proof.
  intros e o d x. unfold singles. rewrite in_flat_map. split.
  - intros [r [Hr H]]. apply in_flat_map in H. destruct H as [p [Hp H]].
    apply in_seq in Hr. apply in_seq in Hp. apply in_cond_single in H. destruct H as [E ->].
    exists r, p. repeat split; lia.
  - intros [r [p [-> [Hr [Hp Hs]]]]]. exists r. split; [apply in_seq; lia|].
    apply in_flat_map. exists p. split; [apply in_seq; lia|].
    apply in_cond_single. split; [lia | reflexivity].
Qed.

Lemma doubles_spec_lemma : forall e o d x,
  In x (doubles e o d) <->
  exists s r q p, x = [s; r; q; p] /\ s < r /\ r < e /\ e <= q /\ q < p /\ p < o /\
                  (s2 p + s2 q - s2 r - s2 s = 2 * d)%Z.
Proof.
  intros e o d x. unfold doubles. rewrite in_flat_map. split.
  - intros [s [Hs H]]. apply in_flat_map in H. destruct H as [r [Hr H]].
    apply in_flat_map in H. destruct H as [q [Hq H]]. apply in_flat_map in H. destruct H as [p [Hp H]].
    apply in_seq in Hs. apply in_seq in Hr. apply in_seq in Hq. apply in_seq in Hp.
    apply in_cond_single in H. destruct H as [E ->]. exists s, r, q, p. repeat split; lia.
  - intros [s [r [q [p [-> [H1 [H2 [H3 [H4 [H5 H6]]]]]]]]]].
    exists s. split; [apply in_seq; lia|].
    apply in_flat_map. exists r. split; [apply in_seq; lia|].
    apply in_flat_map. exists q. split; [apply in_seq; lia|].
    apply in_flat_map. exists p. split; [apply in_seq; lia|].
    apply in_cond_single. split; [lia | reflexivity].
Qed.

(* blocks without duplicates, each element of the block of x naming x through `key` *)
Lemma NoDup_flat_map : forall {A B} (key : B -> A) (f : A -> list B) (l : list A),
  NoDup l -> (forall x, NoDup (f x)) -> (forall x b, In b (f x) -> key b = x) -> NoDup (flat_map f l).
Proof.
  intros A B key f l Hl Hf Hk. induction Hl as [|x r Hx _ IH]; cbn [flat_map]; [constructor|].
  apply NoDup_app_intro; [apply Hf | exact IH |].
  intros b H1 H2. apply in_flat_map in H2. destruct H2 as [y [Hy H2]].
  apply Hx. rewrite <- (Hk x b H1), (Hk y b H2). exact Hy.
Qed.

Lemma NoDup_cond_single : forall {B} (c : bool) (b : B), NoDup (if c then [b] else []).
Proof. intros B c b. destruct c; repeat constructor. intros []. Qed.

(* H : In b (block): peel the enclosing binders off, the conditional singleton then gives b itself *)
Ltac block_key H :=
  repeat (apply in_flat_map in H; destruct H as [? [_ H]]); apply in_cond_single in H; destruct H as [_ ->]; reflexivity.

Lemma singles_nodup_lemma : forall e o d, NoDup (singles e o d).
Proof.
  intros e o d. unfold singles.
  apply (NoDup_flat_map (fun b => nth 0 b 0)); [apply seq_NoDup | intro r | intros r b H; block_key H].
  apply (NoDup_flat_map (fun b => nth 1 b 0)); [apply seq_NoDup | intro p; apply NoDup_cond_single | intros p b H; block_key H].
Qed.

Lemma doubles_nodup_lemma : forall e o d, NoDup (doubles e o d).
Proof.
  intros e o d. unfold doubles.
  apply (NoDup_flat_map (fun b => nth 0 b 0)); [apply seq_NoDup | intro s | intros s b H; block_key H].
  apply (NoDup_flat_map (fun b => nth 1 b 0)); [apply seq_NoDup | intro r | intros r b H; block_key H].
  apply (NoDup_flat_map (fun b => nth 2 b 0)); [apply seq_NoDup | intro q | intros q b H; block_key H].
  apply (NoDup_flat_map (fun b => nth 3 b 0)); [apply seq_NoDup | intro p; apply NoDup_cond_single | intros p b H; block_key H].
Qed.

Lemma counts_bounded : forall e o, o <= 12 -> e <= o ->
  length (singles e o 0%Z) = singles_count0 e o /\ length (doubles e o 0%Z) = doubles_count0 e o.
Proof.
  intros e o Ho He.
  assert (H : counts_ok o = true) by (do 13 (destruct o as [|o]; [vm_compute; reflexivity|]); lia).
  unfold counts_ok in H. rewrite forallb_forall in H.
  specialize (H e). rewrite andb_true_iff, !Nat.eqb_eq in H. apply H. apply in_seq. lia.
Qed.

(* spin bookkeeping: s2 is +1 on even (up) and -1 on odd (down) spin orbitals *)
Lemma s2_cases : forall i, (s2 i = 1 \/ s2 i = -1)%Z.
Proof. intro i. unfold s2. destruct (Nat.even i); [left | right]; reflexivity. Qed.

(* the fermionic=True variants conserve the particle number and change 2 S_z by -2*delta_sz
   (the words are a+_occ a_virt, i.e. the adjoints of the excitation operators of the docstring) *)
Lemma single_word_shift : forall e o d x, In x (singles e o d) ->
  shift wt_one (single_word x) = 0%Z /\ shift s2 (single_word x) = (- (2 * d))%Z.
Proof.
  intros e o d x H. apply singles_spec_lemma in H. destruct H as [r [p [-> [_ [_ H]]]]].
  cbn [single_word shift fold_right fst snd]. unfold wt_one. lia.
Qed.
Lemma double_word_shift : forall e o d x, In x (doubles e o d) ->
  shift wt_one (double_word x) = 0%Z /\ shift s2 (double_word x) = (- (2 * d))%Z.
Proof.
  intros e o d x H. apply doubles_spec_lemma in H. destruct H as [s [r [q [p [-> [_ [_ [_ [_ [_ H]]]]]]]]]].
  cbn [double_word shift fold_right fst snd]. unfold wt_one. lia.
Qed.

(* ------------------------------------------------------------------ excitations_to_wires *)
Definition zrange (a b : nat) : list Z := map Z.of_nat (seq a (b + 1 - a)).

Lemma zrange_spec : forall a b, a <= b ->
  length (zrange a b) = b + 1 - a /\ forall k, k <= b - a -> nth k (zrange a b) 0%Z = Z.of_nat (a + k).
Proof.
  intros a b H. unfold zrange. split; [rewrite map_length, seq_length; reflexivity|].
  intros k Hk. change 0%Z with (Z.of_nat 0). rewrite map_nth, seq_nth by lia. reflexivity.
Qed.

Lemma wrange_default : forall mx a b, b <= mx -> wrange (map Z.of_nat (seq 0 (mx + 1))) a b = zrange a b.
Proof.
  intros mx a b H. unfold wrange, zrange. apply map_ext_in. intros i Hi. apply in_seq in Hi.
  change 0%Z with (Z.of_nat 0). rewrite map_nth, seq_nth by lia. reflexivity.
Qed.

Lemma fold_max_ge : forall x a, a <= fold_right Nat.max a x /\ forall i, In i x -> i <= fold_right Nat.max a x.
Proof.
  induction x as [|y r IH]; intro a; cbn [fold_right]; [split; [lia | intros i []]|].
  destruct (IH a) as [H1 H2]. split; [lia|]. intros i [<-|Hi]; [lia|]. specialize (H2 i Hi). lia.
Qed.

Lemma lmax_ge : forall l x i, In x l -> In i x -> i <= lmax l.
Proof.
  induction l as [|y r IH]; intros x i Hx Hi; [destruct Hx|]. unfold lmax. cbn [fold_right]. fold (lmax r).
  destruct Hx as [<-|Hx].
  - apply (proj2 (fold_max_ge y (lmax r))). exact Hi.
  - pose proof (proj1 (fold_max_ge y (lmax r))). specialize (IH x i Hx Hi). lia.
Qed.

Lemma etw_body : forall sg db w, (sg <> [] \/ db <> []) ->
  excitations_to_wires sg db w =
    if negb (forallb (fun x => Nat.eqb (length x) 2) sg) then Err
    else if negb (forallb (fun x => Nat.eqb (length x) 4) db) then Err
    else
      let mx := Nat.max (lmax sg) (lmax db) in
      match (match w with None => Some (map Z.of_nat (seq 0 (mx + 1)))
                        | Some w => if Nat.eqb (length w) (mx + 1) then Some w else None end) with
      | None => Err
      | Some w =>
          Ok (map (fun x => wrange w (nth 0 x 0) (nth 1 x 0)) sg,
              map (fun x => [wrange w (nth 0 x 0) (nth 1 x 0); wrange w (nth 2 x 0) (nth 3 x 0)]) db)
      end.
Proof.
  intros sg db w H. unfold excitations_to_wires. destruct sg; destruct db; try reflexivity.
  destruct H as [H|H]; contradiction.
Qed.

Lemma etw_empty_lemma : forall w, excitations_to_wires [] [] w = Err.
Proof. reflexivity. Qed.

Lemma etw_excitations_lemma : forall e o d sg db,
  excitations e o d = Ok (sg, db) -> (sg <> [] \/ db <> []) ->
  excitations_to_wires sg db None =
    Ok (map (fun x => zrange (nth 0 x 0) (nth 1 x 0)) sg,
        map (fun x => [zrange (nth 0 x 0) (nth 1 x 0); zrange (nth 2 x 0) (nth 3 x 0)]) db).
Proof.
  intros e o d sg db H Hne.
  assert (He : ~ (e <= 0 \/ o <= e \/ d < -2 \/ d > 2)%Z).
  { intro C. apply excitations_error_lemma in C. rewrite C in H. discriminate. }
  rewrite excitations_ok_lemma in H by lia. injection H as <- <-.
  rewrite etw_body by exact Hne.
  set (E := Z.to_nat e) in *. set (O := Z.to_nat o) in *.
  assert (F2 : forallb (fun x => Nat.eqb (length x) 2) (singles E O d) = true).
  { apply forallb_forall. intros x Hx. apply singles_spec_lemma in Hx. destruct Hx as [r [p [-> _]]]. reflexivity. }
  assert (F4 : forallb (fun x => Nat.eqb (length x) 4) (doubles E O d) = true).
  { apply forallb_forall. intros x Hx. apply doubles_spec_lemma in Hx. destruct Hx as [s [r [q [p [-> _]]]]]. reflexivity. }
  rewrite F2, F4. cbn [negb]. cbv zeta. f_equal. f_equal.
  - apply map_ext_in. intros x Hx. apply wrange_default.
    pose proof (lmax_ge _ x (nth 1 x 0) Hx) as L.
    apply singles_spec_lemma in Hx. destruct Hx as [r [p [-> _]]]. cbn [nth] in *.
    specialize (L (or_intror (or_introl eq_refl))). lia.
  - apply map_ext_in. intros x Hx.
    pose proof (lmax_ge _ x (nth 1 x 0) Hx) as L1. pose proof (lmax_ge _ x (nth 3 x 0) Hx) as L3.
    apply doubles_spec_lemma in Hx. destruct Hx as [s [r [q [p [-> _]]]]]. cbn [nth] in *.
    specialize (L1 (or_intror (or_introl eq_refl))).
    specialize (L3 (or_intror (or_intror (or_intror (or_introl eq_refl))))).
    rewrite !wrange_default by lia. reflexivity.
Qed.

(* ------------------------------------------------------------------ Fock-space action: conservation laws *)
Lemma setbit_length : forall b p v, length (setbit p v b) = length b.
Proof. induction b as [|x r IH]; intros p v; [destruct p; reflexivity|]. destruct p; cbn [setbit length]; [reflexivity | rewrite IH; reflexivity]. Qed.

Lemma diag_val_setbit : forall wt b p v i, p < length b ->
  diag_val wt i (setbit p v b) =
  (diag_val wt i b + (if v then wt (i + p)%nat else 0) - (if nth p b false then wt (i + p)%nat else 0))%Z.
Proof.
  intros wt b. induction b as [|x r IH]; intros p v i H; cbn [length] in H; [lia|].
  destruct p as [|p]; cbn [setbit diag_val nth].
  - rewrite Nat.add_0_r. lia.
  - rewrite IH by lia. replace (S i + p) with (i + S p) by lia. lia.
Qed.

Lemma lad_apply_diag : forall wt l sb sb', lad_apply l sb = Some sb' ->
  length (snd sb') = length (snd sb) /\
  diag_val wt 0 (snd sb') = (diag_val wt 0 (snd sb) + (if snd l then wt (fst l) else - wt (fst l)))%Z.
Proof.
  intros wt [p c] [s b] sb' H. unfold lad_apply in H. cbn [fst snd] in *.
  destruct (Nat.ltb p (length b)) eqn:E; [|discriminate]. apply Nat.ltb_lt in E.
  destruct (Bool.eqb (nth p b false) c) eqn:E2; [discriminate|]. injection H as <-. cbn [snd].
  split; [apply setbit_length|]. rewrite diag_val_setbit by assumption. cbn [plus].
  destruct (nth p b false), c; cbn in E2; try discriminate; lia.
Qed.

Lemma fw_apply_diag : forall wt w sb sb', fw_apply w sb = Some sb' ->
  length (snd sb') = length (snd sb) /\ diag_val wt 0 (snd sb') = (diag_val wt 0 (snd sb) + shift wt w)%Z.
Proof.
  intros wt w. induction w as [|l r IH]; intros sb sb' H; cbn [fw_apply] in H.
  - injection H as <-. cbn [shift fold_right]. split; [reflexivity | lia].
  - destruct (fw_apply r sb) as [sb1|] eqn:E; [|discriminate].
    destruct (IH _ _ E) as [L1 D1]. destruct (lad_apply_diag wt _ _ _ H) as [L2 D2].
    split; [congruence|]. rewrite D2, D1. unfold shift. cbn [fold_right]. lia.
Qed.

(* [O_wt, w] = 0 on Fock space whenever the weighted balance of w vanishes *)
Lemma fock_commutes_lemma : forall wt w, shift wt w = 0%Z ->
  forall v, O_apply wt (W_apply w v) = W_apply w (O_apply wt v).
Proof.
  intros wt w Hs v. induction v as [|[c sb] r IH]; [reflexivity|].
  unfold O_apply, W_apply in *. cbn [flat_map map fst snd].
  destruct (fw_apply w sb) as [sb'|] eqn:E; cbn [app map fst snd].
  - rewrite IH. destruct (fw_apply_diag wt _ _ _ E) as [_ D]. rewrite D, Hs, Z.add_0_r. reflexivity.
  - exact IH.
Qed.

(* in general the word shifts the eigenvalue of O_wt by its balance: [O_wt, w] = shift(w) * w *)
Lemma fock_shift_lemma : forall wt w c sb sb', fw_apply w sb = Some sb' ->
  O_apply wt (W_apply w [(c, sb)]) = [((c * (diag_val wt 0 (snd sb) + shift wt w))%Z, sb')].
Proof.
  intros wt w c sb sb' E. unfold O_apply, W_apply. cbn [flat_map map fst snd]. rewrite E. cbn [app map fst snd].
  destruct (fw_apply_diag wt _ _ _ E) as [_ D]. rewrite D. reflexivity.
Qed.

Lemma diag_val_one_count : forall b i, diag_val wt_one i b = Z.of_nat (count_true b).
Proof.
  induction b as [|x r IH]; intro i; cbn [diag_val count_true]; [reflexivity|].
  rewrite IH. unfold wt_one. destruct x; lia.
Qed.

(* 2 S_z eigenvalue = (number of occupied even positions) - (number of occupied odd positions) *)
Fixpoint count_sel (sel : nat -> bool) (i : nat) (b : occ) : nat :=
  match b with [] => 0 | x :: r => (if x && sel i then 1 else 0) + count_sel sel (S i) r end.
Lemma diag_val_s2_count : forall b i,
  diag_val s2 i b = (Z.of_nat (count_sel Nat.even i b) - Z.of_nat (count_sel Nat.odd i b))%Z.
Proof.
  induction b as [|x r IH]; intro i; cbn [diag_val count_sel]; [reflexivity|].
  rewrite IH. unfold s2. rewrite <- Nat.negb_even. destruct x, (Nat.even i); cbn [andb negb]; lia.
Qed.

Lemma number_conserved_lemma : forall w s b s' b', shift wt_one w = 0%Z ->
  fw_apply w (s, b) = Some (s', b') -> length b' = length b /\ count_true b' = count_true b.
Proof.
  intros w s b s' b' Hs E. destruct (fw_apply_diag wt_one _ _ _ E) as [L D]. cbn [snd] in *.
  rewrite !diag_val_one_count, Hs in D. split; [exact L | lia].
Qed.

(* conserves_number and conserves_sz are this checker at wt_one and s2 *)
Lemma conserves_sound : forall wt F, forallb (fun t : fword * C => Z.eqb (shift wt (fst t)) 0) F = true ->
  forall t, In t F -> forall v, O_apply wt (W_apply (fst t) v) = W_apply (fst t) (O_apply wt v).
Proof.
  intros wt F H t Ht v. rewrite forallb_forall in H.
  apply fock_commutes_lemma. apply Z.eqb_eq. apply H. exact Ht.
Qed.

(* the number operator of the model really is the diagonal observable: a+_i a_i |b> = n_i |b> *)
Lemma parity_below_setbit : forall b p v, parity_below p (setbit p v b) = parity_below p b.
Proof.
  induction b as [|x r IH]; intros p v; [destruct p; reflexivity|]. destruct p; cbn [setbit parity_below]; [reflexivity|].
  rewrite IH. reflexivity.
Qed.
Lemma nth_setbit_same : forall b p v, p < length b -> nth p (setbit p v b) false = v.
Proof.
  induction b as [|x r IH]; intros p v H; cbn [length] in H; [lia|]. destruct p; cbn [setbit nth]; [reflexivity|].
  apply IH. lia.
Qed.
Lemma setbit_setbit_id : forall b p, nth p b false = true -> setbit p true (setbit p false b) = b.
Proof.
  induction b as [|x r IH]; intros p H; [destruct p; reflexivity|]. destruct p; cbn [setbit nth] in *; [subst; reflexivity|].
  rewrite IH by assumption. reflexivity.
Qed.

Lemma lad_apply_eq : forall p c s b, p < length b ->
  lad_apply (p, c) (s, b) =
  if Bool.eqb (nth p b false) c then None else Some (xorb s (parity_below p b), setbit p c b).
Proof.
  intros p c s b H. unfold lad_apply. cbn [fst snd].
  destruct (Nat.ltb p (length b)) eqn:E; [reflexivity|]. apply Nat.ltb_ge in E. lia.
Qed.

Lemma nword_apply_lemma : forall i s b, i < length b ->
  fw_apply (nword i) (s, b) = if nth i b false then Some (s, b) else None.
Proof.
  intros i s b H. unfold nword.
  change (fw_apply [(i, true); (i, false)] (s, b))
    with (match lad_apply (i, false) (s, b) with Some sb' => lad_apply (i, true) sb' | None => None end).
  rewrite lad_apply_eq by assumption.
  destruct (nth i b false) eqn:E; cbn [Bool.eqb]; [|reflexivity].
  rewrite lad_apply_eq by (rewrite setbit_length; assumption).
  rewrite nth_setbit_same by assumption. cbn [Bool.eqb].
  rewrite parity_below_setbit, setbit_setbit_id by assumption.
  f_equal. f_equal. destruct s, (parity_below i b); reflexivity.
Qed.

(* ------------------------------------------------------------------ structure of N, S_z, S^2 *)
Lemma diag_fs_terms : forall (c : nat -> C) n t,
  In t (map (fun i => (nword i, c i)) (seq 0 n)) <-> exists i, i < n /\ t = ([(i, true); (i, false)], c i).
Proof.
  intros c n t. rewrite in_map_iff. split.
  - intros [i [<- Hi]]. apply in_seq in Hi. exists i. split; [lia | reflexivity].
  - intros [i [Hi ->]]. exists i. split; [reflexivity | apply in_seq; lia].
Qed.

(* the two-body terms of spin2: a selection of quadruples, each turned into a+_a a+_b a_g a_d *)
Lemma word4_terms_balanced : forall wt (sel : nat * nat * nat * nat -> bool) (cf : nat -> nat -> nat -> nat -> C) n,
  (forall a b g d, sel (a, b, g, d) = true -> (wt a + wt b - wt g - wt d = 0)%Z) ->
  forallb (fun t : fword * C => Z.eqb (shift wt (fst t)) 0)
          (map (fun t => let '(a, b, g, d) := t in (word4 a b g d, cf a b g d)) (filter sel (tuples4 n))) = true.
Proof.
  intros wt sel cf n Hw. apply forallb_forall. intros t Ht. apply in_map_iff in Ht.
  destruct Ht as [[[[a b] g] d] [<- Ht]]. apply filter_In in Ht. destruct Ht as [_ Hc].
  cbn [fst word4 shift fold_right snd]. apply Z.eqb_eq. specialize (Hw a b g d Hc). lia.
Qed.

Lemma observables_conserve_lemma : forall e n,
  conserves_number (number_fs n) = true /\ conserves_sz (number_fs n) = true /\
  conserves_number (spinz_fs n) = true /\ conserves_sz (spinz_fs n) = true /\
  conserves_number (spin2_fs e n) = true /\ conserves_sz (spin2_fs e n) = true.
Proof.
  intros e n.
  assert (A : forall (c : nat -> C) wt, forallb (fun t : fword * C => Z.eqb (shift wt (fst t)) 0) (map (fun i => (nword i, c i)) (seq 0 n)) = true).
  { intros c wt. apply forallb_forall. intros t Ht. apply in_map_iff in Ht. destruct Ht as [i [<- _]].
    cbn [fst nword shift fold_right snd]. apply Z.eqb_eq. lia. }
  split; [apply (A (fun _ => c1))|]. split; [apply (A (fun _ => c1))|].
  split; [apply (A (fun i => cq (szq i)))|]. split; [apply (A (fun i => cq (szq i)))|].
  unfold conserves_number, conserves_sz, spin2_fs, spin2_diag, spin2_off.
  cbn [forallb fst shift fold_right andb Z.eqb]. rewrite !forallb_app.
  split.
  - rewrite !word4_terms_balanced; [reflexivity | intros; unfold wt_one; lia ..].
  - rewrite !word4_terms_balanced; [reflexivity | intros a b g d Hc; cbv beta iota in Hc; lia ..].
Qed.

(* ------------------------------------------------------------------ Hermiticity checker *)
Lemma hermitian_real_coef_lemma : forall A, is_hermitian_sentence A = true -> forall v, (snd (coef A v) == 0)%Q.
Proof.
  induction A as [|[w [re im]] r IH]; intros H v; [reflexivity|].
  unfold is_hermitian_sentence in H. cbn [forallb snd] in H. apply andb_true_iff in H. destruct H as [H1 H2].
  apply Qeq_bool_iff in H1. specialize (IH H2 v). cbn [coef fst snd cplus].
  destruct (weqb w v); cbn [snd c0]; rewrite IH; [rewrite H1|]; ring.
Qed.

Lemma is_hermitian_sound_lemma : forall A, is_hermitian_sentence A = true -> sequiv (sadj A) A.
Proof.
  intros A H v. rewrite coef_sadj. pose proof (hermitian_real_coef_lemma A H v) as E.
  split; cbn [cconj fst snd]; [reflexivity | rewrite E; reflexivity].
Qed.

(* ------------------------------------------------------------------ bounded clauses over the Jordan-Wigner image *)
Lemma jw_fock_from_ok : forall n L w, jw_fock_ok n L = true ->
  length w <= L -> Forall (fun l => fst l < n) w -> jw_fock_word_ok n w = true.
Proof.
  intros n L w H Hl Hw. unfold jw_fock_ok in H. rewrite forallb_forall in H.
  apply H, in_all_words; [exact Hl|]. eapply Forall_impl; [|exact Hw]. intro l. apply in_all_ops.
Qed.

Lemma jw_fock_bounded : forall n w, n <= 3 -> length w <= 3 -> Forall (fun l => fst l < n) w ->
  jw_fock_word_ok n w = true.
Proof.
  intros n w Hn. apply (jw_fock_from_ok n 3 w).
  do 4 (destruct n as [|n]; [vm_compute; reflexivity|]). lia.
Qed.

Lemma jw_fock_bounded4 : forall w, length w <= 2 -> Forall (fun l => fst l < 4) w -> jw_fock_word_ok 4 w = true.
Proof. intro w. apply (jw_fock_from_ok 4 2 w). vm_compute. reflexivity. Qed.

(* ------------------------------------------------------------------ rational scalars *)
Lemma qscale_plus : forall q r A, sequiv (sscale (cq q) A ++ sscale (cq r) A) (sscale (cq (q + r)) A).
Proof. intros q r A v. rewrite coef_app, !coef_sscale. split; cbn [cplus cmulx cq fst snd]; ring. Qed.

Lemma qscale_qscale : forall q r A, sequiv (sscale (cq q) (sscale (cq r) A)) (sscale (cq (q * r)) A).
Proof. intros q r A v. rewrite !coef_sscale. split; cbn [cmulx cq fst snd]; ring. Qed.

Lemma qscale_eq : forall q r A, (q == r)%Q -> sequiv (sscale (cq q) A) (sscale (cq r) A).
Proof. intros q r A H. apply sscale_sequiv; [split; [exact H | reflexivity] | reflexivity]. Qed.

Lemma qscale_0 : forall A, sequiv (sscale (cq 0) A) [].
Proof. intros A v. rewrite coef_sscale. split; cbn [cmulx cq coef c0 fst snd]; ring. Qed.

(* ------------------------------------------------------------------ charges:  N X = X N + q X *)
Definition shifts (N X : psent) (q : Q) : Prop := sequiv (smul N X) (smul X N ++ sscale (cq q) X).

Global Instance shifts_proper : Proper (sequiv ==> sequiv ==> Qeq ==> iff) shifts.
Proof.
  intros N N' HN X X' HX q q' Hq. unfold shifts. rewrite HN, HX, (qscale_eq q q' X' Hq). reflexivity.
Qed.

Lemma shifts_0 : forall N X, shifts N X 0 <-> sequiv (smul N X) (smul X N).
Proof. intros. unfold shifts. rewrite qscale_0, app_nil_r. reflexivity. Qed.

Lemma shifts_ident : forall N n, shifts N (ident n) 0.
Proof. intros. apply shifts_0. symmetry. apply ident_central. Qed.

(* [N, XY] = [N, X] Y + X [N, Y] *)
Lemma shifts_smul : forall N X Y q r, shifts N X q -> shifts N Y r -> shifts N (smul X Y) (q + r).
Proof.
  unfold shifts. intros N X Y q r HX HY.
  rewrite <- smul_assoc, HX, smul_app_l, smul_assoc, HY, smul_app_r, <- smul_assoc.
  rewrite smul_sscale_l, smul_sscale_r, <- app_assoc, (app_comm (sscale (cq r) _)), qscale_plus. reflexivity.
Qed.

Lemma shifts_nil : forall X, shifts [] X 0.
Proof. intro X. apply shifts_0. rewrite smul_nil_r. reflexivity. Qed.

Lemma shifts_app : forall M M' X q r, shifts M X q -> shifts M' X r -> shifts (M ++ M') X (q + r).
Proof.
  unfold shifts. intros M M' X q r H H'. rewrite smul_app_l, H, H', smul_app_r, <- qscale_plus.
  intro v. rewrite !coef_app. cring.
Qed.

Lemma shifts_sscale : forall c M X q, shifts M X q -> shifts (sscale (cq c) M) X (c * q).
Proof.
  unfold shifts. intros c M X q H.
  rewrite smul_sscale_l, H, sscale_app, smul_sscale_r, qscale_qscale. reflexivity.
Qed.

(* U and D anticommute with A: the pair U D commutes with A *)
Lemma pair_commutes : forall U D A, sequiv (anticomm U A) [] -> sequiv (anticomm D A) [] -> shifts (smul U D) A 0.
Proof.
  intros U D A HU HD. rewrite anticomm_app in HU, HD. apply shifts_0.
  apply (opposite_unique _ (smul U (smul A D))).
  - rewrite smul_assoc, <- smul_app_r, HD. apply smul_nil_r.
  - rewrite <- !smul_assoc, <- smul_app_l, HU. reflexivity.
Qed.

(* {X,X} = {Y,Y} = 0 and {X,Y} = 1: the number operator XY raises X and lowers Y *)
Lemma pair_number : forall I X Y, sequiv (anticomm X X) [] -> sequiv (anticomm Y Y) [] -> sequiv (anticomm X Y) I ->
  sequiv (smul X I) X -> sequiv (smul I Y) Y -> shifts (smul X Y) X 1 /\ shifts (smul X Y) Y (-1).
Proof.
  intros I X Y HX HY HI HXI HIY. rewrite anticomm_app in HX, HY, HI. apply double_nil in HX, HY.
  assert (XXY : sequiv (smul X (smul X Y)) []) by (rewrite <- smul_assoc, HX; reflexivity).
  assert (XYY : sequiv (smul (smul X Y) Y) []) by (rewrite smul_assoc, HY; apply smul_nil_r).
  assert (XYX : sequiv (smul (smul X Y) X) X).
  { rewrite <- HXI at 3. rewrite <- HI, smul_app_r, XXY, smul_assoc. reflexivity. }
  assert (YXY : sequiv (smul Y (smul X Y)) Y).
  { rewrite <- HIY at 3. rewrite <- HI, smul_app_l, XYY, smul_assoc. reflexivity. }
  unfold shifts. split.
  - rewrite XYX, XXY. intro v. cbn [app]. rewrite coef_sscale. split; cbn [cplus cmulx cq coef c0 fst snd]; ring.
  - rewrite XYY, YXY. intro v. rewrite coef_app, coef_sscale. split; cbn [cplus cmulx cq coef c0 fst snd]; ring.
Qed.

(* ------------------------------------------------------------------ the Jordan-Wigner image of N and S_z, every register size *)
(* the charge of the ladder operator l under the number operator of mode i *)
Definition charge (i : nat) (l : ladder) : Q := if Nat.eqb i (fst l) then (if snd l then 1 else -1) else 0.

Lemma nword_shifts : forall n i l, i < n -> fst l < n ->
  shifts (prod_images n (map (jw_op n) (nword i))) (jw_op n l) (charge i l).
Proof.
  intros n i [p s] Hi Hp. cbn [fst] in Hp. unfold prod_images, nword, charge. cbn [map fold_left fst snd].
  rewrite (smul_ident_l n (jw_op n (i, true))) by (apply jw_op_wide; exact Hi).
  destruct (Nat.eqb i p) eqn:E.
  - apply Nat.eqb_eq in E. subst p.
    destruct (pair_number (ident n) (jw_op n (i, true)) (jw_op n (i, false))) as [H1 H2].
    1-3: rewrite jw_car_all, Nat.eqb_refl by assumption; reflexivity.
    + apply smul_ident_r, jw_op_wide, Hi.
    + apply smul_ident_l, jw_op_wide, Hi.
    + destruct s; assumption.
  - apply pair_commutes; rewrite jw_car_all, E by assumption; reflexivity.
Qed.

(* sum_i c(i) a+_i a_i over the modes in L *)
Definition jw_diag (c : nat -> Q) (n : nat) (L : list nat) : psent :=
  flat_map (fun i => sscale (cq (c i)) (prod_images n (map (jw_op n) (nword i)))) L.

Definition qsum (f : nat -> Q) (L : list nat) : Q := fold_right (fun i a => f i + a)%Q 0%Q L.

Lemma jw_diag_shifts : forall c n L l, Forall (fun i => i < n) L -> fst l < n ->
  shifts (jw_diag c n L) (jw_op n l) (qsum (fun i => c i * charge i l)%Q L).
Proof.
  intros c n L l HL Hl. induction HL as [|i L Hi _ IH]; cbn [jw_diag flat_map qsum fold_right].
  - apply shifts_nil.
  - apply shifts_app; [|exact IH]. apply shifts_sscale, nword_shifts; assumption.
Qed.

(* a sum whose terms vanish away from one index *)
Lemma qsum_single : forall f p L, NoDup L -> In p L -> (forall i, i <> p -> f i == 0)%Q -> (qsum f L == f p)%Q.
Proof.
  intros f p L HL Hp Hf. induction HL as [|i L Hi _ IH]; [destruct Hp|]. cbn [qsum fold_right]. fold (qsum f L).
  destruct (Nat.eq_dec i p) as [->|Hne].
  - assert (Z : (qsum f L == 0)%Q); [|rewrite Z; ring]. clear IH Hp.
    induction L as [|j L IH]; [reflexivity|]. cbn [qsum fold_right]. fold (qsum f L).
    rewrite IH, Hf; [ring | | ]; intro; apply Hi; [left; congruence | right; assumption].
  - destruct Hp as [Hp|Hp]; [contradiction|]. rewrite (Hf i Hne), (IH Hp). ring.
Qed.

Lemma jw_letter_shifts : forall c n l, fst l < n ->
  shifts (jw_diag c n (seq 0 n)) (jw_op n l) (if snd l then c (fst l) else - c (fst l)).
Proof.
  intros c n l Hl. eapply shifts_proper; [reflexivity | reflexivity | | apply jw_diag_shifts; [|exact Hl]].
  - rewrite (qsum_single _ (fst l)); [| apply seq_NoDup | apply in_seq; lia |].
    + unfold charge. rewrite Nat.eqb_refl. destruct (snd l); ring.
    + intros i Hi. unfold charge. apply Nat.eqb_neq in Hi. rewrite Hi. ring.
  - apply Forall_forall. intros i Hi. apply in_seq in Hi. lia.
Qed.

(* on the Jordan-Wigner image, as on Fock space (fw_apply_diag), a word shifts the eigenvalue of sum_i c(i) n_i by
   its balance: N W = W (N + shift w), for every register size and every length; the weights c are the integer
   weights wt of `shift` in units of s *)
Theorem jw_word_shifts : forall c wt s n w, (forall i, c i == inject_Z (wt i) * s)%Q -> Forall (fun l => fst l < n) w ->
  shifts (jw_diag c n (seq 0 n)) (prod_images n (map (jw_op n) w)) (inject_Z (shift wt w) * s).
Proof.
  intros c wt s n w Hc Hw. unfold prod_images. rewrite <- (Qplus_0_l (_ * s)).
  generalize (shifts_ident (jw_diag c n (seq 0 n)) n). generalize (ident n) 0%Q.
  induction Hw as [|l w Hl _ IH]; intros X q HX; unfold shift; cbn [map fold_left fold_right].
  - rewrite Qmult_0_l, Qplus_0_r. exact HX.
  - fold (shift wt w).
    eapply shifts_proper; [reflexivity | reflexivity | | apply IH, shifts_smul; [exact HX | apply jw_letter_shifts, Hl]].
    rewrite inject_Z_plus. destruct (snd l); rewrite ?inject_Z_opp, Hc; ring.
Qed.

Lemma fs_image_jw : forall n F,
  fs_image JW n F = Some (sprune (saccum (fs_raw (map (fun fc => (prod_images n (map (jw_op n) (fst fc)), snd fc)) F)) [])).
Proof.
  intros n F. unfold fs_image.
  rewrite (map_ext _ (fun fc => Some (prod_images n (map (jw_op n) (fst fc)), snd fc))).
  - rewrite sequence_map_some. reflexivity.
  - intro fc. rewrite fw_image_jw. reflexivity.
Qed.

Lemma diag_image : forall c n,
  exists A, fs_image JW n (map (fun i => (nword i, cq (c i))) (seq 0 n)) = Some A /\ sequiv A (jw_diag c n (seq 0 n)).
Proof.
  intros c n. rewrite fs_image_jw. eexists. split; [reflexivity|]. intro v.
  rewrite snorm_sequiv, map_map. cbn [fst snd].
  unfold fs_raw, jw_diag. rewrite flat_map_concat_map, map_map, <- flat_map_concat_map. reflexivity.
Qed.

Lemma jw_obs_diag : forall k n, k <> OSpin2 ->
  sequiv (jw_obs k n) (jw_diag (match k with OSpinz => szq | _ => fun _ => 1%Q end) n (seq 0 n)).
Proof.
  intros k n Hk. destruct n as [|n]; [destruct k; reflexivity|].
  unfold jw_obs, observable_ps, observable_fs.
  replace (Z.of_nat (S n) <=? 0)%Z with false by (symmetry; apply Z.leb_gt; lia). rewrite Nat2Z.id.
  destruct k; [| |contradiction].
  - destruct (diag_image (fun _ => 1%Q) (S n)) as [A [E H]]. unfold number_fs. change c1 with (cq 1). rewrite E. exact H.
  - destruct (diag_image szq (S n)) as [A [E H]]. unfold spinz_fs. rewrite E. exact H.
Qed.

(* JW(w) commutes with JW(particle_number(n)), resp. JW(spinz(n)), whenever w conserves the particle number, resp.
   2 S_z: all n, all lengths *)
Theorem jw_balanced_commutes : forall k n w, k <> OSpin2 -> Forall (fun l => fst l < n) w ->
  shift (match k with OSpinz => s2 | _ => wt_one end) w = 0%Z ->
  exists W, fw_image JW n w = Some W /\ sequiv (smul W (jw_obs k n)) (smul (jw_obs k n) W).
Proof.
  intros k n w Hk Hw Hs. rewrite fw_image_jw. eexists. split; [reflexivity|].
  symmetry. apply shifts_0. rewrite (jw_obs_diag k n Hk).
  eapply shifts_proper; [reflexivity | reflexivity | |
    apply (jw_word_shifts _ (match k with OSpinz => s2 | _ => wt_one end) (match k with OSpinz => 1 # 2 | _ => 1 end)), Hw].
  - rewrite Hs. symmetry. apply Qmult_0_l.
  - intro i. destruct k; [reflexivity | unfold szq, s2; destruct (Nat.even i); reflexivity | contradiction].
Qed.
