(* Lemmas about the optimizer model (Num/OptimizersModel.v).  The gradient-descent family is treated over Q:
   step_arg / step_acc say what one call of step does to argument i and to its accumulator entry, and every
   closed form along a history is an instance of one induction (run_linear) fed with the one-step fact.
   The Rotosolve closed form is treated over the stdlib reals (second part of the file); min_analytic is
   transcribed there (atan2, roto_xmin, roto_ymin), not in the model file. *)
From Coq Require Import List ZArith QArith Qabs Qround Bool Lia Setoid Morphisms.
From PLV Require Import Num.OptimizersModel.
Import ListNotations.
Open Scope Q_scope.

Lemma coord_nil : forall k, coord k [] = 0.
Proof. destruct k; reflexivity. Qed.

Lemma map_coord : forall (g : Q -> Q) l k, g 0 == 0 -> coord k (map g l) == g (coord k l).
Proof.
  unfold coord. induction l as [|x l IH]; intros k H; destruct k; simpl; try (symmetry; exact H); try reflexivity.
  apply IH, H.
Qed.

Lemma vzip_coord : forall f a b k, f 0 0 == 0 -> coord k (vzip f a b) == f (coord k a) (coord k b).
Proof.
  intros f a. induction a as [|x a IH]; intros b k H.
  - cbn [vzip]. rewrite coord_nil. apply (map_coord (f 0)), H.
  - destruct b as [|y b].
    + cbn [vzip]. rewrite coord_nil. apply (map_coord (fun x => f x 0)), H.
    + cbn [vzip]. destruct k; unfold coord; simpl; [reflexivity | apply IH, H].
Qed.

Lemma nth_0_hd : forall {A} (l : list A) d, nth 0 l d = hd d l.
Proof. destruct l; reflexivity. Qed.
Lemma nth_S_tl : forall {A} (l : list A) d i, nth (S i) l d = nth i (tl l) d.
Proof. destruct l; simpl; intros; [destruct i|]; reflexivity. Qed.

Lemma walk_nth : forall u args grad st i,
  let a := nth i args dflt_arg in
  let r := u (snd a) (nth (rank i args) grad []) (nth i st empty_acc) in
  nth i (fst (walk u grad args st)) dflt_arg = (if fst a then (true, fst r) else a) /\
  nth i (snd (walk u grad args st)) empty_acc = (if fst a then snd r else nth i st empty_acc).
Proof.
  induction args as [|[rg x] r IH]; intros grad st i; cbv zeta in *.
  - destruct i; split; reflexivity.
  - cbn [walk]. unfold vec in *. destruct rg.
    + destruct (u x (hd [] grad) (hd empty_acc st)) as [x' s'] eqn:E.
      specialize (IH (tl grad) (tl st)).
      destruct (walk u (tl grad) r (tl st)) as [r' st'] eqn:W. destruct i.
      * cbn [fst snd rank nth]. rewrite !nth_0_hd, E. split; reflexivity.
      * cbn [fst snd nth rank]. change (1 + rank i r)%nat with (S (rank i r)).
        rewrite !nth_S_tl. exact (IH i).
    + specialize (IH grad (tl st)).
      destruct (walk u grad r (tl st)) as [r' st'] eqn:W. destruct i.
      * cbn [fst snd rank nth]. rewrite nth_0_hd. split; reflexivity.
      * cbn [fst snd nth rank]. rewrite nth_S_tl. exact (IH i).
Qed.

Lemma walk_flags : forall u args grad st, map fst (fst (walk u grad args st)) = map fst args.
Proof.
  induction args as [|[rg x] r IH]; intros grad st; [reflexivity|].
  cbn [walk]. destruct rg.
  - destruct (u x (hd [] grad) (hd empty_acc st)) as [x' s'].
    specialize (IH (tl grad) (tl st)). destruct (walk u (tl grad) r (tl st)). cbn in *. now rewrite IH.
  - specialize (IH grad (tl st)). destruct (walk u grad r (tl st)). cbn in *. now rewrite IH.
Qed.

Lemma rank_flags : forall a b i, map fst a = map fst b -> rank i a = rank i b.
Proof.
  induction a as [|[rg x] a IH]; intros [|[rg' y] b] i H; try discriminate; [reflexivity|].
  cbn in H. injection H as -> H. destruct i; [reflexivity|]. cbn [rank]. now rewrite (IH b i H).
Qed.

Lemma trainable_flags : forall a b i, map fst a = map fst b -> trainable i a = trainable i b.
Proof.
  unfold trainable. induction a as [|[rg x] a IH]; intros [|[rg' y] b] i H; try discriminate; [reflexivity|].
  cbn in H. injection H as -> H. destruct i; [reflexivity|]. cbn [nth]. apply IH, H.
Qed.

Definition cur (args : list arg) (st : ostate) : nat * list accs :=
  match st with None => init_state args | Some s => s end.

Lemma step_unfold : forall k h nm gradf args st,
  step k h nm gradf args st =
  (fst (walk (upd k h nm (S (fst (cur args st)))) (gradf (query k h args st)) args (snd (cur args st))),
   Some (S (fst (cur args st)),
         snd (walk (upd k h nm (S (fst (cur args st)))) (gradf (query k h args st)) args (snd (cur args st))))).
Proof.
  intros. unfold step, opt_apply. fold (cur args st). destruct (cur args st) as [t ac]. cbn [fst snd].
  destruct (walk _ _ args ac); reflexivity.
Qed.

Lemma cur_acc : forall args st i, nth i (snd (cur args st)) empty_acc = (acc1 i st, acc2 i st).
Proof.
  intros args [[t ac]|] i; unfold acc1, acc2; cbn.
  - destruct (nth i ac empty_acc); reflexivity.
  - rewrite nth_repeat. destruct i; reflexivity.
Qed.

Lemma cur_t : forall args st, fst (cur args st) = st_t st.
Proof. intros args [[t ac]|]; reflexivity. Qed.

Lemma step_flags : forall k h nm gradf args st, map fst (fst (step k h nm gradf args st)) = map fst args.
Proof. intros. rewrite step_unfold. cbn [fst]. apply walk_flags. Qed.

Lemma step_t : forall k h nm gradf args st, st_t (snd (step k h nm gradf args st)) = S (st_t st).
Proof. intros. rewrite step_unfold. cbn. now rewrite cur_t. Qed.

(* the generic statement behind multi_arg_independent / nontrainable_untouched *)
Lemma step_arg : forall k h nm gradf args st i,
  nth i (fst (step k h nm gradf args st)) dflt_arg =
  if trainable i args
  then (true, fst (upd k h nm (S (st_t st)) (argv i args) (nth (rank i args) (gradf (query k h args st)) [])
                       (acc1 i st, acc2 i st)))
  else nth i args dflt_arg.
Proof.
  intros. rewrite step_unfold. cbn [fst]. rewrite (proj1 (walk_nth _ _ _ _ _)).
  unfold trainable, argv. rewrite cur_acc, cur_t. reflexivity.
Qed.

Lemma step_acc : forall k h nm gradf args st i,
  (acc1 i (snd (step k h nm gradf args st)), acc2 i (snd (step k h nm gradf args st))) =
  if trainable i args
  then snd (upd k h nm (S (st_t st)) (argv i args) (nth (rank i args) (gradf (query k h args st)) [])
                (acc1 i st, acc2 i st))
  else (acc1 i st, acc2 i st).
Proof.
  intros. rewrite step_unfold. unfold acc1 at 1, acc2 at 1. cbn [snd st_accs].
  rewrite <- surjective_pairing, (proj2 (walk_nth _ _ _ _ _)).
  unfold trainable, argv. rewrite cur_acc, cur_t. reflexivity.
Qed.

Lemma step_argv_untouched : forall k h nm gradf args st i,
  trainable i args = false -> nth i (fst (step k h nm gradf args st)) dflt_arg = nth i args dflt_arg.
Proof. intros. rewrite step_arg, H. reflexivity. Qed.

Lemma run_S : forall k h nm orc n t0 args st,
  run k h nm orc (S n) t0 args st =
  run k h nm orc n (S t0) (fst (step k h nm (orc t0) args st)) (snd (step k h nm (orc t0) args st)).
Proof. intros. cbn [run]. destruct (step k h nm (orc t0) args st); reflexivity. Qed.

Lemma trace_S : forall k h nm orc n t0 args st,
  trace k h nm orc (S n) t0 args st =
  orc t0 (query k h args st)
  :: trace k h nm orc n (S t0) (fst (step k h nm (orc t0) args st)) (snd (step k h nm (orc t0) args st)).
Proof. intros. cbn [trace]. destruct (step k h nm (orc t0) args st); reflexivity. Qed.

Lemma trace_length : forall k h nm orc n t0 args st, length (trace k h nm orc n t0 args st) = n.
Proof. induction n; intros; [reflexivity|]. rewrite trace_S. cbn [length]. now rewrite IHn. Qed.

Lemma run_flags : forall k h nm orc n t0 args st, map fst (fst (run k h nm orc n t0 args st)) = map fst args.
Proof. induction n; intros; [reflexivity|]. rewrite run_S, IHn. apply step_flags. Qed.

Lemma run_t : forall k h nm orc n t0 args st, st_t (snd (run k h nm orc n t0 args st)) = (n + st_t st)%nat.
Proof. induction n; intros; [reflexivity|]. rewrite run_S, IHn, step_t. lia. Qed.

Lemma trace_nth : forall k h nm orc n t0 args st j, (j < n)%nat ->
  nth j (trace k h nm orc n t0 args st) [] =
  orc (t0 + j)%nat (query k h (fst (run k h nm orc j t0 args st)) (snd (run k h nm orc j t0 args st))).
Proof.
  induction n; intros t0 args st j Hj; [lia|]. rewrite trace_S. destruct j.
  - cbn [nth run fst snd]. now rewrite Nat.add_0_r.
  - cbn [nth]. rewrite IHn by lia. rewrite run_S. now rewrite Nat.add_succ_comm.
Qed.

(* non-trainable arguments, any number of steps *)
Lemma run_untouched : forall k h nm orc n t0 args st i,
  trainable i args = false -> nth i (fst (run k h nm orc n t0 args st)) dflt_arg = nth i args dflt_arg.
Proof.
  induction n; intros t0 args st i H; [reflexivity|]. rewrite run_S, IHn.
  - now apply step_argv_untouched.
  - rewrite (trainable_flags _ args); [exact H | apply step_flags].
Qed.

Ltac vz := rewrite vzip_coord; cbv beta; rewrite ?Qred_correct; try ring; try reflexivity.

Lemma step_acc1 : forall k h nm gradf args st i, trainable i args = true ->
  acc1 i (snd (step k h nm gradf args st)) =
  fst (snd (upd k h nm (S (st_t st)) (argv i args) (nth (rank i args) (gradf (query k h args st)) []) (acc1 i st, acc2 i st))).
Proof. intros. pose proof (step_acc k h nm gradf args st i) as E. rewrite H in E. now rewrite <- E. Qed.

Lemma step_acc2 : forall k h nm gradf args st i, trainable i args = true ->
  acc2 i (snd (step k h nm gradf args st)) =
  snd (snd (upd k h nm (S (st_t st)) (argv i args) (nth (rank i args) (gradf (query k h args st)) []) (acc1 i st, acc2 i st))).
Proof. intros. pose proof (step_acc k h nm gradf args st i) as E. rewrite H in E. now rewrite <- E. Qed.

(* ---- linear recurrences  o' = alpha * o + beta * phi(g)  of an observable o of (arguments, memory):
        one induction along the history; every closed form below supplies its one-step fact ---- *)
Lemma qpow_S : forall x n, qpow x (S n) = x * qpow x n.
Proof. reflexivity. Qed.

Lemma run_linear :
  forall (k : kind) (h : hyper) (nm : numerics) (obs : list arg * ostate -> Q) (alpha beta : Q) (phi : Q -> Q) i c,
  (forall gradf args st, trainable i args = true ->
     obs (step k h nm gradf args st) ==
     alpha * obs (args, st) + beta * phi (coord c (nth (rank i args) (gradf (query k h args st)) []))) ->
  forall orc n t0 args st, trainable i args = true ->
    obs (run k h nm orc n t0 args st) ==
    qpow alpha n * obs (args, st) +
    wsum alpha (map (fun g => beta * phi g) (gseq (rank i args) c (trace k h nm orc n t0 args st))).
Proof.
  intros k h nm obs alpha beta phi i c Hstep orc. induction n; intros t0 args st H.
  - cbn. ring.
  - rewrite run_S, trace_S. cbn [gseq map wsum].
    rewrite IHn by (rewrite (trainable_flags _ args); [exact H | apply step_flags]).
    rewrite (rank_flags _ args) by apply step_flags.
    rewrite <- surjective_pairing, Hstep by exact H. unfold gseq.
    rewrite !map_length, trace_length, qpow_S. unfold vec. ring.
Qed.

Lemma qpow_one : forall n, qpow 1 n == 1.
Proof. induction n; cbn; [reflexivity | rewrite IHn; ring]. Qed.

Lemma wsum_one : forall (b : Q) (phi : Q -> Q) l, wsum 1 (map (fun g => b * phi g) l) == b * qsum (map phi l).
Proof. induction l as [|x l IH]; cbn [map wsum qsum]; [ring | rewrite IH, qpow_one; ring]. Qed.

Lemma gd_closed : forall h nm orc n t0 args st i c, trainable i args = true ->
  coord c (argv i (fst (run GD h nm orc n t0 args st))) ==
  coord c (argv i args) - eta h * qsum (gseq (rank i args) c (trace GD h nm orc n t0 args st)).
Proof.
  intros h nm orc n t0 args st i c H.
  pose proof (run_linear GD h nm (fun p => coord c (argv i (fst p))) 1 (- eta h) (fun g => g) i c) as E.
  cbv beta in E. rewrite E, qpow_one, wsum_one, map_id; [cbn [fst]; ring | | exact H].
  intros. unfold argv at 1. rewrite step_arg, H0. cbn [snd fst upd]. vz.
Qed.

(* ---- closed forms of the accumulators (general start state; a fresh or reset optimizer has all
        accumulator coordinates 0) ---- *)
Lemma acc_fresh : forall i c, coord c (acc1 i None) = 0 /\ coord c (acc2 i None) = 0.
Proof. intros. unfold acc1, acc2. destruct i; cbn -[coord]; rewrite coord_nil; auto. Qed.

Lemma momentum_acc_closed : forall k h nm orc n t0 args st i c, k = Momentum \/ k = Nesterov -> trainable i args = true ->
  coord c (acc1 i (snd (run k h nm orc n t0 args st))) ==
  qpow (gam h) n * coord c (acc1 i st) +
  wsum (gam h) (map (fun g => eta h * g) (gseq (rank i args) c (trace k h nm orc n t0 args st))).
Proof.
  intros k h nm orc n t0 args st i c Hk H.
  apply (run_linear k h nm (fun p => coord c (acc1 i (snd p))) (gam h) (eta h) (fun g => g) i c); [|exact H].
  intros. cbn [snd]. rewrite step_acc1 by assumption. destruct Hk as [-> | ->]; cbn [upd fst snd]; vz.
Qed.

Lemma adagrad_acc_closed : forall h nm orc n t0 args st i c, trainable i args = true ->
  coord c (acc1 i (snd (run Adagrad h nm orc n t0 args st))) ==
  coord c (acc1 i st) + qsum (map (fun g => g * g) (gseq (rank i args) c (trace Adagrad h nm orc n t0 args st))).
Proof.
  intros h nm orc n t0 args st i c H.
  pose proof (run_linear Adagrad h nm (fun p => coord c (acc1 i (snd p))) 1 1 (fun g => g * g) i c) as E.
  cbv beta in E. rewrite E, qpow_one, wsum_one; [cbn [snd]; ring | | exact H].
  intros. cbn [snd]. rewrite step_acc1 by assumption. cbn [upd fst snd]. vz.
Qed.

Lemma rmsprop_acc_closed : forall h nm orc n t0 args st i c, trainable i args = true ->
  coord c (acc1 i (snd (run RMSProp h nm orc n t0 args st))) ==
  qpow (gam h) n * coord c (acc1 i st) +
  wsum (gam h) (map (fun g => (1 - gam h) * (g * g)) (gseq (rank i args) c (trace RMSProp h nm orc n t0 args st))).
Proof.
  intros h nm orc n t0 args st i c H.
  apply (run_linear RMSProp h nm (fun p => coord c (acc1 i (snd p))) (gam h) (1 - gam h) (fun g => g * g) i c); [|exact H].
  intros. cbn [snd]. rewrite step_acc1 by assumption. cbn [upd fst snd]. vz.
Qed.

Lemma adam_fm_closed : forall h nm orc n t0 args st i c, trainable i args = true ->
  coord c (acc1 i (snd (run Adam h nm orc n t0 args st))) ==
  qpow (gam h) n * coord c (acc1 i st) +
  wsum (gam h) (map (fun g => (1 - gam h) * g) (gseq (rank i args) c (trace Adam h nm orc n t0 args st))).
Proof.
  intros h nm orc n t0 args st i c H.
  apply (run_linear Adam h nm (fun p => coord c (acc1 i (snd p))) (gam h) (1 - gam h) (fun g => g) i c); [|exact H].
  intros. cbn [snd]. rewrite step_acc1 by assumption. cbn [upd fst snd]. vz.
Qed.

Lemma adam_sm_closed : forall h nm orc n t0 args st i c, trainable i args = true ->
  coord c (acc2 i (snd (run Adam h nm orc n t0 args st))) ==
  qpow (beta2 h) n * coord c (acc2 i st) +
  wsum (beta2 h) (map (fun g => (1 - beta2 h) * (g * g)) (gseq (rank i args) c (trace Adam h nm orc n t0 args st))).
Proof.
  intros h nm orc n t0 args st i c H.
  apply (run_linear Adam h nm (fun p => coord c (acc2 i (snd p))) (beta2 h) (1 - beta2 h) (fun g => g * g) i c); [|exact H].
  intros. cbn [snd]. rewrite step_acc2 by assumption. cbn [upd fst snd]. vz.
Qed.

(* momentum parameters: x^(t+1) = x^(t) - a^(t+1) *)
Lemma momentum_step_arg : forall k h nm gradf args st i c, k = Momentum \/ k = Nesterov -> trainable i args = true ->
  coord c (argv i (fst (step k h nm gradf args st))) ==
  coord c (argv i args) - coord c (acc1 i (snd (step k h nm gradf args st))).
Proof.
  intros k h nm gradf args st i c [-> | ->] H; rewrite step_acc1 by exact H; unfold argv at 1;
    rewrite step_arg, H; cbn [upd fst snd];
    vz.
Qed.

(* a constant gradient shows what the (1 - beta^t) factors correct *)
Lemma wsum_const : forall (alpha g : Q) (phi : Q -> Q) l,
  (forall x, In x l -> phi x == phi g) ->
  wsum alpha (map (fun x => (1 - alpha) * phi x) l) == (1 - qpow alpha (length l)) * phi g.
Proof.
  intros alpha g phi. induction l as [|x l IH]; intros H; cbn [map wsum length qpow].
  - ring.
  - rewrite IH by (intros; apply H; now right). rewrite map_length, (H x) by now left. ring.
Qed.

Lemma adam_bias_algebra : forall (h : hyper) (sq : Q -> Q) (t : nat) (f v : Q),
  (forall a b, sq (a * b) == sq a * sq b) -> Proper (Qeq ==> Qeq) sq ->
  ~ 1 - qpow (gam h) t == 0 -> ~ 1 - qpow (beta2 h) t == 0 -> ~ sq (1 - qpow (beta2 h) t) == 0 ->
  ~ sq v + eps h == 0 ->
  adam_stepsize h sq t * f / (sq v + eps h) ==
  eta h * (f / (1 - qpow (gam h) t)) / (sq (v / (1 - qpow (beta2 h) t)) + eps h / sq (1 - qpow (beta2 h) t)).
Proof.
  intros h sq t f v Hm Hp H1 H2 Hs Hd. unfold adam_stepsize.
  set (d1 := 1 - qpow (gam h) t) in *. set (d2 := 1 - qpow (beta2 h) t) in *.
  assert (E : sq v == sq (v / d2) * sq d2).
  { rewrite <- Hm. apply Hp. field. exact H2. }
  assert (Hd' : ~ sq (v / d2) * sq d2 + eps h == 0) by (now rewrite <- E).
  rewrite E. set (w := sq (v / d2)) in *. set (s := sq d2) in *.
  field. repeat split; assumption.
Qed.

(* ---- parameter updates of the square-root optimizers, coordinate by coordinate ---- *)
Definition good_rnd (nm : numerics) : Prop := Proper (Qeq ==> Qeq) (rnd nm) /\ rnd nm 0 == 0.

Lemma rnd_zero : forall nm x, good_rnd nm -> x == 0 -> rnd nm x == 0.
Proof. intros nm x [P Z] H. rewrite H. exact Z. Qed.

Lemma adagrad_like_update : forall k h nm gradf args st i c, k = Adagrad \/ k = RMSProp -> good_rnd nm ->
  trainable i args = true ->
  coord c (argv i (fst (step k h nm gradf args st))) ==
  coord c (argv i args) -
  rnd nm (eta h / sq nm (coord c (acc1 i (snd (step k h nm gradf args st))) + eps h)
          * coord c (nth (rank i args) (gradf (query k h args st)) [])).
Proof.
  intros k h nm gradf args st i c [-> | ->] G H; rewrite step_acc1 by exact H; unfold argv at 1;
    rewrite step_arg, H; cbn [upd fst snd].
  all: rewrite vzip_coord; cbv beta; rewrite ?Qred_correct; [|ring].
  all: rewrite vzip_coord; cbv beta; [reflexivity | apply rnd_zero; [exact G | ring]].
Qed.

Lemma adam_update : forall h nm gradf args st i c, good_rnd nm -> trainable i args = true ->
  coord c (argv i (fst (step Adam h nm gradf args st))) ==
  coord c (argv i args) -
  rnd nm (adam_stepsize h (sq nm) (S (st_t st)) * coord c (acc1 i (snd (step Adam h nm gradf args st)))
          / (sq nm (coord c (acc2 i (snd (step Adam h nm gradf args st)))) + eps h)).
Proof.
  intros h nm gradf args st i c G H. rewrite step_acc1, step_acc2 by exact H. unfold argv at 1.
  rewrite step_arg, H; cbn [upd fst snd].
  rewrite vzip_coord; cbv beta; rewrite ?Qred_correct; [|ring].
  rewrite vzip_coord; cbv beta; [reflexivity | apply rnd_zero; [exact G | unfold Qdiv; ring]].
Qed.

Lemma sc_same_update : forall k h nm ag gradf costf args st,
  fst (step_and_cost k h nm ag gradf costf args st) = step k h nm gradf args st.
Proof.
  intros. unfold step_and_cost, step. destruct (opt_apply k h nm (gradf (query k h args st)) args st); reflexivity.
Qed.

Lemma sc_cost : forall k h nm ag gradf costf args st,
  snd (step_and_cost k h nm ag gradf costf args st) = if ag then costf (query k h args st) else costf args.
Proof.
  intros. unfold step_and_cost. destruct (opt_apply k h nm (gradf (query k h args st)) args st).
  destruct ag; reflexivity.
Qed.

Lemma query_id : forall k h args st, k <> Nesterov \/ st = None -> query k h args st = args.
Proof. intros k h args st [H | ->]; destruct k; try reflexivity; congruence. Qed.

Lemma sc_prestep : forall k h nm ag gradf costf args st,
  k <> Nesterov \/ ag = false \/ st = None ->
  snd (step_and_cost k h nm ag gradf costf args st) = costf args.
Proof.
  intros k h nm ag gradf costf args st H. rewrite sc_cost. destruct ag; [|reflexivity].
  rewrite query_id; [reflexivity|]. destruct H as [H | [H | H]]; [now left | discriminate | now right].
Qed.

Definition nm_id : numerics := mkN (fun x => x) (fun x => x).

Lemma nesterov_sc_refuted :
  exists h gradf costf args st,
    ~ snd (step_and_cost Nesterov h nm_id true gradf costf args st) == costf args.
Proof.
  exists (mkH (1 # 2) (1 # 2) 0 0), (fun a => [map (fun x => 2 * x) (argv 0 a)]), (fun a => coord 0 (argv 0 a)),
         [(true, [1])], (Some (1%nat, [([1], [])])).
  vm_compute. discriminate.
Qed.

(* ---- Nesterov: where the oracle is asked ---- *)
Lemma shift_nth : forall m args ac i,
  nth i (shift m args ac) dflt_arg =
  let a := nth i args dflt_arg in
  if fst a then (true, vzip (fun x y => Qred (x - m * y)) (snd a) (fst (nth i ac empty_acc))) else a.
Proof.
  induction args as [|[rg x] r IH]; intros ac i.
  - destruct i; reflexivity.
  - cbn [shift]. destruct i.
    + cbn [nth fst snd]. rewrite nth_0_hd. destruct rg; reflexivity.
    + cbn [nth]. rewrite nth_S_tl. apply IH.
Qed.

Lemma shift_coord : forall m args ac i c,
  coord c (argv i (shift m args ac)) ==
  if trainable i args then coord c (argv i args) - m * coord c (fst (nth i ac empty_acc)) else coord c (argv i args).
Proof.
  intros. unfold argv at 1. rewrite shift_nth. cbv zeta. unfold trainable, argv.
  destruct (fst (nth i args dflt_arg)); [|reflexivity]. cbn [snd]. vz.
Qed.

Lemma step_state_nonempty : forall k h nm gradf args st, args <> [] ->
  exists t a ac, snd (step k h nm gradf args st) = Some (t, a :: ac).
Proof.
  intros k h nm gradf [|[rg x] r] st H; [congruence|]. rewrite step_unfold. cbn [snd walk].
  destruct rg.
  - destruct (upd _ _ _ _ _ _ _). destruct (walk _ _ r _). cbn [snd]. eauto.
  - destruct (walk _ _ r _). cbn [snd]. eauto.
Qed.

Lemma nesterov_query : forall h args st i c,
  coord c (argv i (query Nesterov h args st)) ==
  if trainable i args then coord c (argv i args) - gam h * coord c (acc1 i st) else coord c (argv i args).
Proof.
  intros h args [[t [|a ac]]|] i c; cbn [query].
  - destruct (trainable i args); [|reflexivity]. unfold acc1. destruct i; cbn -[coord argv]; rewrite coord_nil; ring.
  - rewrite shift_coord. reflexivity.
  - destruct (acc_fresh i c) as [E _]. rewrite E. destruct (trainable i args); [ring | reflexivity].
Qed.

(* ---- square-root enclosure used by the correspondence run ---- *)
Lemma qsqrt_enclosure : forall p x, 0 < x ->
  let lo := qsqrt p x in let hi := lo + (1 # (Qden x * 2 ^ p)) in
  0 <= lo /\ lo * lo <= x /\ x < hi * hi.
Proof.
  intros p [n d] Hx. unfold qsqrt. cbn [Qnum Qden].
  assert (Hn : (0 < n)%Z) by (unfold Qlt in Hx; cbn in Hx; lia).
  destruct (Qle_bool (n # d) 0) eqn:E.
  { apply Qle_bool_iff in E. unfold Qle in E; cbn in E. lia. }
  cbv zeta. set (N := (n * Zpos d * 4 ^ Zpos p)%Z). set (D := (d * 2 ^ p)%positive).
  assert (HN : (0 <= N)%Z) by (unfold N; apply Z.mul_nonneg_nonneg; [lia | apply Z.pow_nonneg; lia]).
  pose proof (Z.sqrt_spec N HN) as [S1 S2]. set (s := Z.sqrt N) in *.
  assert (Hs : (0 <= s)%Z) by apply Z.sqrt_nonneg.
  assert (HD : (Zpos D * Zpos D = Zpos d * Zpos d * 4 ^ Zpos p)%Z).
  { unfold D. rewrite Pos2Z.inj_mul, Pos2Z.inj_pow. change 4%Z with (2 * 2)%Z. rewrite Z.pow_mul_l. ring. }
  rewrite !Qred_correct. repeat split.
  - unfold Qle; cbn. lia.
  - unfold Qle; cbn [Qnum Qden Qmult]. rewrite Pos2Z.inj_mul, HD.
    apply Z.le_trans with (N * Zpos d)%Z; [apply Z.mul_le_mono_nonneg_r; lia | unfold N; apply Z.eq_le_incl; ring].
  - setoid_replace ((s # D) + (1 # D)) with ((s + 1)%Z # D) by (unfold Qeq; cbn [Qnum Qden Qplus]; rewrite Pos2Z.inj_mul; ring).
    unfold Qlt; cbn [Qnum Qden Qmult]. rewrite Pos2Z.inj_mul, HD.
    apply Z.le_lt_trans with (N * Zpos d)%Z; [unfold N; apply Z.eq_le_incl; ring|].
    apply Z.mul_lt_mono_pos_r; [lia|]. unfold Z.succ in S2. lia.
Qed.

Lemma roto_select_min : forall cands bi bt bc i,
  let r := roto_select bi bt bc i cands in
  snd r <= bc /\ (forall th c, In (th, c) cands -> snd r <= c).
Proof.
  induction cands as [|[th c] cands IH]; intros bi bt bc i; cbn [roto_select].
  - split; [apply Qle_refl | intros ? ? []].
  - destruct (Qle_bool c bc) eqn:E.
    + apply Qle_bool_iff in E. destruct (IH i th c (S i)) as [A B]. split.
      * eapply Qle_trans; eauto.
      * intros th' c' [X | X]; [injection X as <- <-; exact A | eapply B; eauto].
    + assert (L : bc < c). { apply Qnot_le_lt. intro X. apply Qle_bool_iff in X. congruence. }
      destruct (IH bi bt bc (S i)) as [A B]. split; [exact A|].
      intros th' c' [X | X]; [injection X as <- <-; eapply Qle_trans; [exact A | now apply Qlt_le_weak] | eapply B; eauto].
Qed.

(* ================================================================== Rotosolve / Rotoselect closed form, over the reals *)
From Coq Require Import Reals Lra.
Local Close Scope Q_scope.
Local Open Scope R_scope.

(* numpy.arctan2(y, x) for finite arguments *)
Definition atan2 (y x : R) : R :=
  if Rlt_dec 0 x then atan (y / x)
  else if Rlt_dec x 0 then (if Rle_dec 0 y then atan (y / x) + PI else atan (y / x) - PI)
  else if Rlt_dec 0 y then PI / 2 else if Rlt_dec y 0 then - (PI / 2) else 0.

Lemma atan_polar : forall t, cos (atan t) > 0 /\ sin (atan t) = t * cos (atan t).
Proof.
  intros t. pose proof (atan_bound t) as [B1 B2].
  assert (Hc : cos (atan t) > 0) by (apply cos_gt_0; lra).
  split; [exact Hc|]. pose proof (atan_right_inv t) as E. unfold tan in E.
  rewrite <- E at 2. field. lra.
Qed.

Lemma atan2_polar : forall y x, exists r, 0 <= r /\ x = r * cos (atan2 y x) /\ y = r * sin (atan2 y x).
Proof.
  intros y x. unfold atan2. destruct (Rlt_dec 0 x) as [Hx | Hx].
  - destruct (atan_polar (y / x)) as [Hc Hs]. exists (x / cos (atan (y / x))). repeat split.
    + apply Rlt_le, Rdiv_lt_0_compat; lra.
    + field. lra.
    + rewrite Hs. field. split; lra.
  - destruct (Rlt_dec x 0) as [Hx' | Hx'].
    + destruct (atan_polar (y / x)) as [Hc Hs]. exists (- x / cos (atan (y / x))).
      assert (R0 : 0 <= - x / cos (atan (y / x))) by (apply Rlt_le, Rdiv_lt_0_compat; lra).
      destruct (Rle_dec 0 y).
      * rewrite neg_cos, neg_sin. repeat split; [exact R0 | field; lra | rewrite Hs; field; split; lra].
      * unfold Rminus. rewrite cos_plus, sin_plus, cos_neg, sin_neg, cos_PI, sin_PI.
        repeat split; [exact R0 | field; lra | rewrite Hs; field; split; lra].
    + assert (x = 0) by lra. subst x. destruct (Rlt_dec 0 y).
      * exists y. rewrite cos_PI2, sin_PI2. repeat split; lra.
      * destruct (Rlt_dec y 0).
        -- exists (- y). rewrite cos_neg, sin_neg, cos_PI2, sin_PI2. repeat split; lra.
        -- exists 0. repeat split; lra.
Qed.

(* RotosolveOptimizer.min_analytic, transcribed: objective_fn = f, freq, f0 = f 0 *)
Definition roto_shift (freq : R) : R := / 2 * PI / freq.
Definition roto_B (f : R -> R) (freq : R) : R :=
  let s := roto_shift freq in atan2 (2 * f 0 - f s - f (- s)) (f s - f (- s)).
Definition roto_xmin (f : R -> R) (freq : R) : R :=
  let s := roto_shift freq in
  let x := - s - roto_B f freq / freq in
  if Rle_dec x (- 2 * s) then x + 4 * s else x.
Definition roto_ymin (f : R -> R) (freq : R) : R :=
  let s := roto_shift freq in
  let C := / 2 * (f s + f (- s)) in
  - sqrt ((f 0 - C) ^ 2 + / 4 * (f s - f (- s)) ^ 2) + C.

Section Rotosolve.
  Variables (f : R -> R) (C p q freq : R).
  Hypothesis Hfreq : 0 < freq.
  Hypothesis Hf : forall t, f t = C + p * sin (freq * t) + q * cos (freq * t).

  Let s := roto_shift freq.
  Lemma fs_eq : freq * s = PI / 2.
  Proof. unfold s, roto_shift. field. lra. Qed.
  Lemma f_0 : f 0 = C + q.
  Proof. rewrite Hf, Rmult_0_r, sin_0, cos_0. ring. Qed.
  Lemma f_p : f s = C + p.
  Proof. rewrite Hf, fs_eq, sin_PI2, cos_PI2. ring. Qed.
  Lemma f_m : f (- s) = C - p.
  Proof.
    rewrite Hf. replace (freq * - s) with (- (PI / 2)) by (rewrite <- fs_eq; ring).
    rewrite sin_neg, cos_neg, sin_PI2, cos_PI2. ring.
  Qed.

  Let B := roto_B f freq.

  (* (2p, 2q) in polar form with angle B, so that f t = C + r/2 sin (freq t + B) *)
  Lemma roto_polar : exists r, 0 <= r /\ p = r / 2 * cos B /\ q = r / 2 * sin B.
  Proof.
    unfold B, roto_B. fold s. rewrite f_0, f_p, f_m.
    destruct (atan2_polar (2 * (C + q) - (C + p) - (C - p)) (C + p - (C - p))) as [r [H0 [H1 H2]]].
    exists r. repeat split; [exact H0 | lra | lra].
  Qed.

  Lemma f_sin : forall r, p = r / 2 * cos B -> q = r / 2 * sin B ->
    forall t, f t = C + r / 2 * sin (freq * t + B).
  Proof. intros r Hp Hq t. rewrite Hf, sin_plus, Hp, Hq. ring. Qed.

  (* the closed-form angle sits where the sine is -1 *)
  Lemma xmin_phase : sin (freq * roto_xmin f freq + B) = -1.
  Proof.
    unfold roto_xmin. fold s B. destruct (Rle_dec (- s - B / freq) (- 2 * s)).
    - replace (freq * (- s - B / freq + 4 * s) + B) with (3 * (freq * s)) by (field; lra).
      rewrite fs_eq. apply sin_3PI2.
    - replace (freq * (- s - B / freq) + B) with (- (freq * s)) by (field; lra).
      rewrite fs_eq, sin_neg, sin_PI2. reflexivity.
  Qed.

  Theorem rotosolve_min : forall t, f (roto_xmin f freq) <= f t.
  Proof.
    intros t. destruct roto_polar as [r [H0 [Hp Hq]]]. rewrite !(f_sin r Hp Hq), xmin_phase.
    pose proof (SIN_bound (freq * t + B)) as [L _].
    assert (0 <= r / 2 * (sin (freq * t + B) + 1)) by (apply Rmult_le_pos; lra). lra.
  Qed.

  Theorem rotosolve_ymin : roto_ymin f freq = f (roto_xmin f freq).
  Proof.
    destruct roto_polar as [r [H0 [Hp Hq]]]. rewrite (f_sin r Hp Hq), xmin_phase.
    unfold roto_ymin. fold s. rewrite f_0, f_p, f_m.
    replace ((C + q - / 2 * (C + p + (C - p))) ^ 2 + / 4 * (C + p - (C - p)) ^ 2) with ((r / 2) * (r / 2)).
    - rewrite sqrt_square by lra. field.
    - pose proof (sin2_cos2 B) as T. unfold Rsqr in T.
      transitivity (r / 2 * (r / 2) * (sin B * sin B + cos B * cos B)); [rewrite T; ring|].
      rewrite Hp, Hq. field.
  Qed.

End Rotosolve.

(* the amplitude / phase form of the property text *)
Lemma rotosolve_min_phase : forall (f : R -> R) (A phi C freq : R), 0 < freq ->
  (forall t, f t = A * sin (freq * t + phi) + C) ->
  forall t, f (roto_xmin f freq) <= f t.
Proof.
  intros f A phi C freq Hfr Hf. apply (rotosolve_min f C (A * cos phi) (A * sin phi) freq Hfr).
  intros t. rewrite Hf, sin_plus. ring.
Qed.
