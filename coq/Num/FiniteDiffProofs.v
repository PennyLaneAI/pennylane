(* Lemmas for C36: moment conditions imply exact differentiation of polynomials (all stencils, all
   polynomials, all base points and steps); the model's elimination solves every Vandermonde system over
   distinct shifts, so it returns coefficients whenever it has chosen shifts; and its coefficients satisfy
   the moment conditions on the stated finite grids.  For the last part the rational elimination is never
   evaluated: integer Lagrange weights are checked against the moment conditions (cert_okb) and identified
   with the elimination's output by uniqueness of the Vandermonde solution (cert_moments). *)
From Coq Require Import List ZArith QArith Qabs Qfield Bool Lia Setoid Permutation.
From PLV Require Import Num.FiniteDiffModel.
Import ListNotations.
Open Scope Q_scope.

(* the stencil with weights c_i * s_i: its j-th moment is the (j+1)-th of cs *)
Definition wmul (cs : list (Q * Q)) : list (Q * Q) := map (fun c => (fst c * snd c, snd c)) cs.

Lemma moment_wmul : forall cs j, moment (wmul cs) j == moment cs (S j).
Proof.
  induction cs as [|[c s] r IH]; intro j.
  - reflexivity.
  - cbn [wmul map moment fst snd]. fold (wmul r). rewrite IH. cbn [qpow]. ring.
Qed.

Lemma stencil_sum_nil : forall cs x0 h, stencil_sum cs [] x0 h == 0.
Proof.
  induction cs as [|[c s] r IH]; intros; cbn [stencil_sum peval].
  - reflexivity.
  - rewrite IH. ring.
Qed.

Lemma stencil_sum_cons : forall cs a r x0 h,
  stencil_sum cs (a :: r) x0 h ==
  a * moment cs 0 + x0 * stencil_sum cs r x0 h + h * stencil_sum (wmul cs) r x0 h.
Proof.
  induction cs as [|[c s] t IH]; intros.
  - cbn [stencil_sum wmul map moment]. ring.
  - cbn [stencil_sum wmul map moment fst snd qpow]. fold (wmul t). rewrite IH.
    cbn [peval]. ring.
Qed.

(* hasse p n x = p^(n)(x) / n!  by the Horner recursion  T_n(a + X r) = [n=0] a + x T_n(r) + T_(n-1)(r) *)
Fixpoint hasse (p : list Q) (n : nat) (x : Q) : Q :=
  match p with
  | [] => 0
  | a :: r => (match n with O => a | S _ => 0 end) + x * hasse r n x
              + (match n with O => 0 | S m => hasse r m x end)
  end.

Definition kron (K : Q) (n j : nat) : Q := if Nat.eqb j n then K else 0.

(* the core induction: a stencil whose moments below length p are K*[j = n] computes K h^n T_n(p)(x0) *)
Lemma stencil_hasse : forall p cs n K x0 h,
  (forall j, (j < length p)%nat -> moment cs j == kron K n j) ->
  stencil_sum cs p x0 h == K * qpow h n * hasse p n x0.
Proof.
  induction p as [|a r IH]; intros cs n K x0 h H.
  - rewrite stencil_sum_nil. cbn [hasse]. ring.
  - rewrite stencil_sum_cons.
    rewrite (IH cs n K) by (intros j Hj; apply H; cbn [length]; lia).
    assert (H0 : moment cs 0 == kron K n 0) by (apply H; cbn [length]; lia).
    rewrite H0.
    destruct n as [|m].
    + rewrite (IH (wmul cs) 0%nat 0).
      * unfold kron. cbn [Nat.eqb hasse qpow]. ring.
      * intros j Hj. rewrite moment_wmul. rewrite H by (cbn [length]; lia).
        unfold kron. cbn [Nat.eqb]. destruct (Nat.eqb j 0); reflexivity.
    + rewrite (IH (wmul cs) m K).
      * unfold kron. cbn [Nat.eqb hasse qpow]. ring.
      * intros j Hj. rewrite moment_wmul. rewrite H by (cbn [length]; lia).
        unfold kron. cbn [Nat.eqb]. reflexivity.
Qed.

Definition qn (k : nat) : Q := inject_Z (Z.of_nat k).

Lemma qn_S : forall k, qn (S k) == qn k + 1.
Proof. intro k. unfold qn. rewrite Nat2Z.inj_succ. unfold Z.succ. rewrite inject_Z_plus. reflexivity. Qed.

Lemma qn_add : forall a b, qn (a + b) == qn a + qn b.
Proof. intros. unfold qn. rewrite Nat2Z.inj_add, inject_Z_plus. reflexivity. Qed.

Lemma qn_0 : qn 0 == 0.
Proof. reflexivity. Qed.

Lemma hasse_dcoef : forall r j n x,
  hasse (dcoef j r) n x == qn (j + n) * hasse r n x + qn (S n) * x * hasse r (S n) x.
Proof.
  induction r as [|a r IH]; intros j n x.
  - cbn [dcoef hasse]. ring.
  - cbn [dcoef]. change (inject_Z (Z.of_nat j)) with (qn j).
    destruct n as [|m].
    + cbn [hasse]. rewrite (IH (S j) 0%nat).
      rewrite !qn_add, !qn_S, !qn_0. ring.
    + cbn [hasse]. rewrite (IH (S j) (S m)), (IH (S j) m).
      rewrite !qn_add, !qn_S. ring.
Qed.

Lemma hasse_pderiv : forall p n x, qn (S n) * hasse p (S n) x == hasse (pderiv p) n x.
Proof.
  intros [|a r] n x.
  - cbn [pderiv hasse]. ring.
  - cbn [pderiv]. rewrite hasse_dcoef. cbn [hasse].
    rewrite !qn_add, !qn_S, !qn_0. ring.
Qed.

Lemma hasse_0 : forall p x, hasse p 0 x == peval p x.
Proof. induction p as [|a r IH]; intro x; cbn [hasse peval]; [reflexivity | rewrite IH; ring]. Qed.

Lemma qfact_S : forall n, qfact (S n) == qn (S n) * qfact n.
Proof. intro n. unfold qfact, qn. cbn [zfact]. rewrite inject_Z_mult. reflexivity. Qed.

Lemma nderiv_succ_r : forall n p, nderiv (S n) p = nderiv n (pderiv p).
Proof.
  induction n as [|n IH]; intro p; [reflexivity|].
  change (nderiv (S (S n)) p) with (pderiv (nderiv (S n) p)). rewrite IH. reflexivity.
Qed.

(* n! * T_n(p)(x) is the value at x of the n-fold formal derivative *)
Lemma hasse_nderiv : forall n p x, qfact n * hasse p n x == peval (nderiv n p) x.
Proof.
  induction n as [|n IH]; intros p x.
  - change (nderiv 0 p) with p. rewrite hasse_0. change (qfact 0) with 1. ring.
  - rewrite nderiv_succ_r.
    rewrite <- IH, <- hasse_pderiv, qfact_S. ring.
Qed.

Lemma qpow_nonzero : forall h n, ~ h == 0 -> ~ qpow h n == 0.
Proof.
  intros h n Hh. induction n as [|n IH]; cbn [qpow].
  - discriminate.
  - intro E. apply Qmult_integral in E. tauto.
Qed.

Lemma moments_imply_exact_l : forall n D cs, moments_hold n D cs ->
  forall p, (length p <= D)%nat -> forall x0 h, ~ h == 0 ->
  stencil n cs p x0 h == peval (nderiv n p) x0.
Proof.
  intros n D cs HM p Hp x0 h Hh. unfold stencil.
  rewrite (stencil_hasse p cs n (qfact n)).
  - rewrite <- hasse_nderiv. field. apply qpow_nonzero; exact Hh.
  - intros j Hj. apply HM. lia.
Qed.

(* the un-divided form, valid also for h = 0 *)
Lemma moments_imply_exact_sum_l : forall n D cs, moments_hold n D cs ->
  forall p, (length p <= D)%nat -> forall x0 h,
  stencil_sum cs p x0 h == qpow h n * peval (nderiv n p) x0.
Proof.
  intros n D cs HM p Hp x0 h.
  rewrite (stencil_hasse p cs n (qfact n)).
  - rewrite <- hasse_nderiv. ring.
  - intros j Hj. apply HM. lia.
Qed.

Lemma dotq_cons : forall x a y b, dotq (x :: a) (y :: b) == x * y + dotq a b.
Proof. intros. cbn [dotq]. apply Qred_correct. Qed.

Lemma dotq_nil_r : forall a, dotq a [] = 0.
Proof. destruct a; reflexivity. Qed.

Lemma dotq_zeros : forall a m, dotq a (repeat 0 m) == 0.
Proof.
  induction a as [|x a IH]; intros [|m]; try reflexivity.
  cbn [repeat]. rewrite dotq_cons, IH. ring.
Qed.

Lemma dotq_snoc : forall a b c, length a = S (length b) -> dotq a (b ++ [c]) == dotq a b + last a 0 * c.
Proof.
  induction a as [|x a IH]; intros b c H; [discriminate|].
  destruct b as [|y b].
  - destruct a; [|discriminate]. cbn [app]. rewrite dotq_cons. cbn. ring.
  - cbn [app]. rewrite !dotq_cons, IH by (cbn in H; lia).
    destruct a as [|x' a]; [discriminate|]. cbn [last]. ring.
Qed.

Lemma row_sub_length : forall f p r, length p = length r -> length (row_sub f p r) = length r.
Proof.
  induction p as [|x p IH]; intros [|y r] H; try discriminate; [reflexivity|].
  cbn [row_sub length]. rewrite IH by (cbn in H; lia). reflexivity.
Qed.

Lemma dotq_row_sub : forall f p r v, length p = length r ->
  dotq (row_sub f p r) v == dotq r v - f * dotq p v.
Proof.
  induction p as [|x p IH]; intros [|y r] v H; try discriminate.
  - cbn. ring.
  - destruct v as [|z v].
    + rewrite !dotq_nil_r. ring.
    + cbn [row_sub]. rewrite !dotq_cons, IH by (cbn in H; lia). rewrite Qred_correct. ring.
Qed.

Lemma find_pivot_some : forall rows acc p others, find_pivot acc rows = Some (p, others) ->
  (exists ph pt, p = ph :: pt /\ ~ ph == 0) /\ Permutation (p :: others) (acc ++ rows).
Proof.
  induction rows as [|r rest IH]; intros acc p others E; cbn [find_pivot] in E; [discriminate|].
  destruct r as [|x t]; [discriminate|].
  destruct (Qeq_bool x 0) eqn:Z.
  - apply IH in E. rewrite <- app_assoc in E. exact E.
  - injection E as <- <-. split.
    + exists x, t. split; [reflexivity|]. apply Qeq_bool_neq. exact Z.
    + apply Permutation_middle.
Qed.

Lemma find_pivot_none : forall rows acc, find_pivot acc rows = None ->
  Forall (fun r => r <> []) rows -> Forall (fun r => exists x t, r = x :: t /\ x == 0) rows.
Proof.
  induction rows as [|r rest IH]; intros acc E H; [constructor|].
  inversion H as [|? ? Hr Hrest]; subst. cbn [find_pivot] in E.
  destruct r as [|x t]; [contradiction|].
  destruct (Qeq_bool x 0) eqn:Z; [|discriminate].
  constructor.
  - exists x, t. split; [reflexivity | apply Qeq_bool_iff; exact Z].
  - exact (IH _ E Hrest).
Qed.

Definition eliminate (ph : Q) (pt : list Q) (others : list (list Q)) : list (list Q) :=
  map (fun r => match r with [] => [] | rh :: rt => row_sub (Qred (rh / ph)) pt rt end) others.

Lemma solve_S : forall m rows, solve (S m) rows =
  match find_pivot [] rows with
  | Some (ph :: pt, others) =>
      match solve m (eliminate ph pt others) with
      | Some xs => Some (Qred ((last pt 0 - dotq pt xs) / ph) :: xs)
      | None => None
      end
  | _ => None
  end.
Proof. intros. cbn [solve]. destruct (find_pivot [] rows) as [[[|ph pt] others]|]; reflexivity. Qed.

Lemma eliminate_length : forall ph pt others m, length pt = S m ->
  Forall (fun r => length r = S (S m)) others ->
  Forall (fun r => length r = S m) (eliminate ph pt others).
Proof.
  intros ph pt others m Hpt H. unfold eliminate. rewrite Forall_map.
  eapply Forall_impl; [|exact H]. intros [|rh rt] Hr; [discriminate|].
  cbn in Hr. rewrite row_sub_length; lia.
Qed.

Lemma eliminate_kernel : forall ph pt others w0 w, ~ ph == 0 ->
  Forall (fun r => length r = S (length pt)) others ->
  ph * w0 + dotq pt w == 0 ->
  Forall (fun r => dotq r w == 0) (eliminate ph pt others) ->
  Forall (fun r => dotq r (w0 :: w) == 0) ((ph :: pt) :: others).
Proof.
  intros ph pt others w0 w Hph Hlen Hp Hred. constructor.
  - rewrite dotq_cons. exact Hp.
  - unfold eliminate in Hred. rewrite Forall_map in Hred. rewrite Forall_forall in *.
    intros [|rh rt] Hin; [specialize (Hlen _ Hin); discriminate|].
    specialize (Hlen _ Hin). specialize (Hred _ Hin). cbn beta iota in Hred.
    rewrite dotq_row_sub, Qred_correct in Hred by (cbn in Hlen; lia).
    rewrite dotq_cons.
    setoid_replace (rh * w0 + dotq rt w)
      with ((dotq rt w - rh / ph * dotq pt w) + rh / ph * (ph * w0 + dotq pt w)) by (field; exact Hph).
    rewrite Hred, Hp. ring.
Qed.

(* A row (coefficients, right-hand side) is satisfied by xs iff it is orthogonal to xs ++ [-1], so both halves
   speak of kernels and share eliminate_kernel: what the elimination returns solves a square system, and
   where it gives up the coefficient matrix has a non-zero kernel vector. *)
Lemma solve_spec : forall m rows, Forall (fun r => length r = S m) rows ->
  match solve m rows with
  | Some xs => length xs = m /\ (length rows = m -> Forall (fun r => dotq r (xs ++ [-1]) == 0) rows)
  | None => exists v, length v = m /\ Forall (fun r => dotq r v == 0) rows /\ ~ Forall (fun x => x == 0) v
  end.
Proof.
  induction m as [|m IH]; intros rows Hlen.
  - split; [reflexivity|]. intro H. apply length_zero_iff_nil in H. subst rows. constructor.
  - rewrite solve_S. destruct (find_pivot [] rows) as [[p others]|] eqn:F.
    + apply find_pivot_some in F. destruct F as [(ph & pt & -> & Hph) Perm]. cbn [app] in Perm.
      pose proof (Permutation_Forall (Permutation_sym Perm) Hlen) as Hlen'.
      inversion Hlen' as [|? ? Hp Ho]; subst.
      assert (Hpt : length pt = S m) by (cbn in Hp; lia).
      specialize (IH _ (eliminate_length ph pt others m Hpt Ho)). rewrite <- Hpt in Ho.
      destruct (solve m (eliminate ph pt others)) as [ys|].
      * destruct IH as [Hys Hred]. split; [cbn; lia|]. intro Hrows.
        apply (Permutation_Forall Perm). cbn [app]. apply eliminate_kernel; try assumption.
        -- rewrite dotq_snoc, Qred_correct by lia. field. exact Hph.
        -- apply Hred. unfold eliminate. rewrite map_length.
           apply Permutation_length in Perm. cbn in Perm. lia.
      * destruct IH as (v & Hv & Hred & Hnz). exists ((- dotq pt v / ph) :: v).
        split; [cbn; lia|]. split.
        -- apply (Permutation_Forall Perm), eliminate_kernel; try assumption. field. exact Hph.
        -- intro K. inversion K. contradiction.
    + exists (1 :: repeat 0 m). split; [cbn; rewrite repeat_length; reflexivity|]. split.
      * assert (Z : Forall (fun r => exists x t, r = x :: t /\ x == 0) rows).
        { apply (find_pivot_none _ _ F). eapply Forall_impl; [|exact Hlen].
          intros [|] H; [discriminate H | discriminate]. }
        eapply Forall_impl; [|exact Z]. intros r (x & t & -> & Hx).
        rewrite dotq_cons, dotq_zeros, Hx. ring.
      * intro K. inversion K as [|? ? H1 _]. discriminate H1.
Qed.

Fixpoint distinct (ss : list Q) : Prop :=
  match ss with [] => True | s :: r => Forall (fun t => ~ t == s) r /\ distinct r end.

(* the stencil with weights c_i * (s_i - s): its moments are m_(j+1) - s * m_j, which removes the
   point s from a stencil whose moments vanish *)
Definition wshift (s : Q) (cs : list (Q * Q)) : list (Q * Q) :=
  map (fun c => (fst c * (snd c - s), snd c)) cs.

Lemma moment_wshift : forall s cs j, moment (wshift s cs) j == moment cs (S j) - s * moment cs j.
Proof.
  induction cs as [|[c t] r IH]; intro j; cbn [wshift map moment fst snd].
  - ring.
  - fold (wshift s r). rewrite IH. cbn [qpow]. ring.
Qed.

Lemma moment_zero_coeffs : forall cs j, Forall (fun c => fst c == 0) cs -> moment cs j == 0.
Proof.
  induction 1 as [|[c s] r Hc _ IH]; cbn [moment]; [reflexivity|].
  cbn [fst] in Hc. rewrite Hc, IH. ring.
Qed.

Lemma vandermonde_kernel : forall cs, distinct (map snd cs) ->
  (forall j, (j < length cs)%nat -> moment cs j == 0) -> Forall (fun c => fst c == 0) cs.
Proof.
  intro cs. remember (length cs) as N eqn:HN. revert cs HN.
  induction N as [|N IH]; intros [|[d s] r] HN Hd H; try discriminate; [constructor|].
  injection HN as HN. cbn [map snd distinct] in Hd. destruct Hd as [Hs Hd].
  assert (Hr : Forall (fun c => fst c == 0) r).
  { assert (W : Forall (fun c => fst c == 0) (wshift s r)).
    { apply IH.
      - unfold wshift. rewrite map_length. exact HN.
      - unfold wshift. rewrite map_map. exact Hd.
      - intros j Hj. rewrite moment_wshift.
        pose proof (H (S j) ltac:(cbn [length]; lia)) as H1.
        pose proof (H j ltac:(cbn [length]; lia)) as H0.
        cbn [moment qpow] in H1, H0.
        setoid_replace (moment r (S j) - s * moment r j)
          with ((d * (s * qpow s j) + moment r (S j)) - s * (d * qpow s j + moment r j)) by ring.
        rewrite H1, H0. ring. }
    unfold wshift in W. rewrite Forall_map in W. rewrite Forall_forall in *.
    intros c Hc. specialize (W c Hc). cbn [fst snd] in W.
    apply Qmult_integral in W. destruct W as [W|W]; [exact W|].
    exfalso. apply (Hs (snd c) (in_map snd r c Hc)).
    setoid_replace (snd c) with ((snd c - s) + s) by ring. rewrite W. ring. }
  constructor; [|exact Hr]. cbn [fst].
  pose proof (H 0%nat ltac:(cbn [length]; lia)) as H0. cbn [moment qpow] in H0.
  rewrite (moment_zero_coeffs r 0 Hr) in H0.
  setoid_replace d with (d * 1 + 0) by ring. exact H0.
Qed.

Definition sdiff (cs cs' : list (Q * Q)) : list (Q * Q) :=
  map (fun p => (fst (fst p) - fst (snd p), snd (fst p))) (combine cs cs').

Lemma sdiff_shifts : forall cs cs', map snd cs = map snd cs' -> map snd (sdiff cs cs') = map snd cs.
Proof.
  induction cs as [|c r IH]; intros [|c' r'] H; try discriminate; [reflexivity|].
  injection H as _ H. cbn [sdiff combine map fst snd]. fold (sdiff r r'). rewrite IH by exact H. reflexivity.
Qed.

Lemma moment_sdiff : forall cs cs' j, map snd cs = map snd cs' ->
  moment (sdiff cs cs') j == moment cs j - moment cs' j.
Proof.
  induction cs as [|[c s] r IH]; intros [|[c' s'] r'] j H; try discriminate.
  - cbn. ring.
  - injection H as <- H. cbn [sdiff combine map fst snd moment]. fold (sdiff r r').
    rewrite IH by exact H. ring.
Qed.

(* two stencils over the same distinct shifts with the same first moments are the same *)
Lemma vandermonde_unique : forall cs cs', distinct (map snd cs) -> map snd cs = map snd cs' ->
  (forall j, (j < length cs)%nat -> moment cs j == moment cs' j) ->
  Forall (fun p => fst (fst p) == fst (snd p)) (combine cs cs').
Proof.
  intros cs cs' Hd Hs H.
  assert (K : Forall (fun c => fst c == 0) (sdiff cs cs')).
  { apply vandermonde_kernel.
    - rewrite sdiff_shifts; assumption.
    - intros j Hj. rewrite <- (map_length snd), sdiff_shifts, map_length in Hj by assumption.
      rewrite moment_sdiff, (H j Hj) by assumption. ring. }
  unfold sdiff in K. rewrite Forall_map in K. eapply Forall_impl; [|exact K].
  intros p Hp. cbn [fst] in Hp.
  setoid_replace (fst (fst p)) with ((fst (fst p) - fst (snd p)) + fst (snd p)) by ring.
  rewrite Hp. ring.
Qed.

Lemma combine_fst : forall (A B : Type) (l : list A) (l' : list B),
  length l = length l' -> map fst (combine l l') = l.
Proof.
  induction l as [|x l IH]; intros [|y l'] H; try discriminate; [reflexivity|].
  cbn [combine map fst]. rewrite IH by (cbn in H; lia). reflexivity.
Qed.

Lemma combine_snd : forall (A B : Type) (l : list A) (l' : list B),
  length l = length l' -> map snd (combine l l') = l'.
Proof.
  induction l as [|x l IH]; intros [|y l'] H; try discriminate; [reflexivity|].
  cbn [combine map snd]. rewrite IH by (cbn in H; lia). reflexivity.
Qed.

Lemma dotq_powers : forall j ss tl xs, length xs = length ss ->
  dotq (map (fun s => Qred (qpow s j)) ss ++ tl) xs == moment (combine xs ss) j.
Proof.
  induction ss as [|s ss IH]; intros tl [|x xs] H; try discriminate.
  - rewrite dotq_nil_r. reflexivity.
  - cbn [map app combine moment]. rewrite dotq_cons, IH, Qred_correct by (cbn in H; lia). ring.
Qed.

Lemma moment_ext : forall cs cs' j, map snd cs = map snd cs' ->
  Forall (fun p => fst (fst p) == fst (snd p)) (combine cs cs') -> moment cs j == moment cs' j.
Proof.
  induction cs as [|[c s] r IH]; intros [|[c' s'] r'] j Hs H; try discriminate; [reflexivity|].
  injection Hs as <- Hs. inversion H as [|? ? Hc Hr]; subst. cbn [fst snd] in Hc.
  cbn [moment]. rewrite Hc, (IH r' j Hs Hr). reflexivity.
Qed.

Lemma vsystem_length : forall ss n, Forall (fun r => length r = S (length ss)) (vsystem ss n).
Proof.
  intros. unfold vsystem. rewrite Forall_map. apply Forall_forall. intros j _.
  unfold vrow. rewrite app_length, map_length. cbn. lia.
Qed.

Lemma vsystem_moments : forall ss n xs, length xs = length ss ->
  Forall (fun r => dotq r (xs ++ [-1]) == 0) (vsystem ss n) -> moments_hold n (length ss) (combine xs ss).
Proof.
  intros ss n xs Hx H j Hj. unfold vsystem in H. rewrite Forall_map, Forall_forall in H.
  specialize (H j ltac:(apply in_seq; lia)). unfold vrow in H.
  rewrite dotq_snoc in H by (rewrite app_length, map_length; cbn; lia).
  rewrite last_last, dotq_powers in H by exact Hx. fold (moment_target n j) in H.
  setoid_replace (moment (combine xs ss) j)
    with ((moment (combine xs ss) j + moment_target n j * -1) + moment_target n j) by ring.
  rewrite H. ring.
Qed.

Lemma vsystem_kernel : forall ss n v, length v = length ss ->
  Forall (fun r => dotq r v == 0) (vsystem ss n) ->
  forall j, (j < length ss)%nat -> moment (combine v ss) j == 0.
Proof.
  intros ss n v Hv H j Hj. unfold vsystem in H. rewrite Forall_map, Forall_forall in H.
  specialize (H j ltac:(apply in_seq; lia)). unfold vrow in H.
  rewrite dotq_powers in H by exact Hv. exact H.
Qed.

Theorem vandermonde_solvable : forall ss n, distinct ss -> solve (length ss) (vsystem ss n) <> None.
Proof.
  intros ss n Hd. pose proof (solve_spec _ _ (vsystem_length ss n)) as S.
  destruct (solve _ _); [discriminate|]. destruct S as (v & Hv & H & Hnz). exfalso. apply Hnz.
  pose proof (vandermonde_kernel (combine v ss)) as K.
  rewrite combine_snd, combine_length, Hv, Nat.min_id in K by exact Hv.
  specialize (K Hd (vsystem_kernel ss n v Hv H)).
  rewrite <- (combine_fst _ _ v ss Hv), Forall_map. exact K.
Qed.

Theorem vandermonde_solution : forall ss n xs, solve (length ss) (vsystem ss n) = Some xs ->
  length xs = length ss /\ moments_hold n (length ss) (combine xs ss).
Proof.
  intros ss n xs E. pose proof (solve_spec _ _ (vsystem_length ss n)) as S. rewrite E in S.
  destruct S as [Hx H]. split; [exact Hx|]. apply vsystem_moments; [exact Hx|]. apply H.
  unfold vsystem. rewrite map_length, seq_length. reflexivity.
Qed.

Lemma In_zrange : forall k lo z, In z (zrange lo k) <-> (lo <= z < lo + Z.of_nat k)%Z.
Proof.
  induction k as [|k IH]; intros lo z; cbn [zrange In]; [lia|]. rewrite IH. lia.
Qed.

Lemma distinct_zrange : forall k lo, distinct (map inject_Z (zrange lo k)).
Proof.
  induction k as [|k IH]; intro lo; cbn [zrange map distinct]; [exact I|]. split; [|apply IH].
  apply Forall_forall. intros t Ht. apply in_map_iff in Ht. destruct Ht as (z & <- & Hz).
  apply In_zrange in Hz. intro E. apply (inject_Z_injective z lo) in E. lia.
Qed.

Lemma shifts_of_zrange : forall n a s zs, shifts_of n a s = Some zs -> exists lo k, zs = zrange lo k.
Proof.
  intros n a s zs. unfold shifts_of. cbv zeta.
  destruct (n <? 1)%Z; [discriminate|]. destruct (a <? 1)%Z; [discriminate|].
  destruct s; try discriminate.
  - intro E; injection E as <-; eauto.
  - intro E; injection E as <-; eauto.
  - destruct (negb (a mod 2 =? 0)%Z); [discriminate|]. intro E; injection E as <-; eauto.
Qed.

Lemma qpow_wd : forall s t j, s == t -> qpow s j == qpow t j.
Proof. intros s t j H. induction j as [|j IH]; cbn [qpow]; [reflexivity | rewrite IH, H; reflexivity]. Qed.

Lemma moment_thresh : forall cs j,
  Forall (fun c => thresh (fst c) == fst c) cs -> Forall (fun s => thresh s == s) (map snd cs) ->
  moment (map (fun c => (thresh (fst c), thresh (snd c))) cs) j == moment cs j.
Proof.
  induction cs as [|[c s] r IH]; intros j Hc Hs; [reflexivity|].
  inversion Hc as [|? ? Hc1 Hc2]; inversion Hs as [|? ? Hs1 Hs2]; subst. cbn [fst snd] in Hc1, Hs1.
  cbn [map moment fst snd]. rewrite (IH j Hc2 Hs2), Hc1, (qpow_wd _ _ j Hs1). reflexivity.
Qed.

Lemma moment_filter_nonzero : forall cs j, moment (filter col_nonzero cs) j == moment cs j.
Proof.
  induction cs as [|[c s] r IH]; intro j; [reflexivity|]. cbn [filter].
  destruct (col_nonzero (c, s)) eqn:E; cbn [moment]; rewrite IH; [reflexivity|].
  unfold col_nonzero in E. apply negb_false_iff, andb_true_iff in E. destruct E as [E _].
  apply Qeq_bool_iff in E. cbn [fst] in E. rewrite E. ring.
Qed.

Lemma moment_insert_col : forall c l j, moment (insert_col c l) j == moment (c :: l) j.
Proof.
  intros [c s] l j. induction l as [|[d t] r IH]; [reflexivity|]. cbn [insert_col].
  destruct (Qle_bool _ _); [|reflexivity]. cbn [moment] in *. rewrite IH. ring.
Qed.

Lemma moment_sort_cols : forall l j, moment (sort_cols l) j == moment l j.
Proof.
  intros l j. unfold sort_cols.
  assert (G : forall acc, moment (fold_left (fun acc c => insert_col c acc) l acc) j == moment l j + moment acc j).
  { induction l as [|[c s] r IH]; intro acc; cbn [fold_left].
    - cbn [moment]. ring.
    - rewrite IH, moment_insert_col. cbn [moment]. ring. }
  rewrite G. cbn [moment]. ring.
Qed.

Lemma thresh_inject_Z : forall z, thresh (inject_Z z) = inject_Z z.
Proof.
  intro z. unfold thresh. destruct (Qle_bool _ _) eqn:E; [reflexivity|].
  destruct z as [|p|p]; [reflexivity| |]; exfalso; apply not_true_iff_false in E; apply E;
    apply Qle_bool_iff; unfold Qle, inject_Z, Qabs, Z.abs, Qnum, Qden; lia.
Qed.

Definition toQ (L : positive) (wz : list (Z * Z)) : list (Q * Q) :=
  map (fun c => (fst c # L, inject_Z (snd c))) wz.
Definition zsum (wz : list (Z * Z)) : Z := fold_right (fun c a => (fst c + a)%Z) 0%Z wz.
Definition zwmul (wz : list (Z * Z)) : list (Z * Z) := map (fun c => ((fst c * snd c)%Z, snd c)) wz.
Fixpoint zmoments_okb (wz : list (Z * Z)) (targets : list Z) : bool :=
  match targets with
  | [] => true
  | t :: ts => (zsum wz =? t)%Z && zmoments_okb (zwmul wz) ts
  end.

Lemma Qmake_nonzero : forall L : positive, ~ inject_Z (Zpos L) == 0.
Proof. intros L H. discriminate H. Qed.

Lemma moment_toQ_0 : forall L wz, moment (toQ L wz) 0 == zsum wz # L.
Proof.
  induction wz as [|[w z] r IH]; [reflexivity|].
  cbn [toQ map moment zsum fold_right fst snd qpow]. fold (toQ L r) (zsum r).
  rewrite IH, !Qmake_Qdiv, inject_Z_plus. field. apply Qmake_nonzero.
Qed.

Lemma moment_toQ_S : forall L wz j, moment (toQ L wz) (S j) == moment (toQ L (zwmul wz)) j.
Proof.
  induction wz as [|[w z] r IH]; intro j; [reflexivity|].
  cbn [toQ zwmul map moment fst snd qpow]. fold (zwmul r) (toQ L r) (toQ L (zwmul r)).
  rewrite IH, !Qmake_Qdiv, inject_Z_mult. field. apply Qmake_nonzero.
Qed.

Lemma zmoments_hold : forall L f D k wz, zmoments_okb wz (map f (seq k D)) = true ->
  forall j, (j < D)%nat -> moment (toQ L wz) j == f (k + j)%nat # L.
Proof.
  induction D as [|D IH]; intros k wz H j Hj; [lia|].
  cbn [seq map zmoments_okb] in H. apply andb_true_iff in H. destruct H as [H0 H].
  destruct j as [|j].
  - rewrite moment_toQ_0, Nat.add_0_r. apply Z.eqb_eq in H0. rewrite H0. reflexivity.
  - rewrite moment_toQ_S, (IH (S k) _ H j) by lia. rewrite Nat.add_succ_r. reflexivity.
Qed.

Definition thresh_okb (L : positive) (w : Z) : bool :=
  (w =? 0)%Z || (Zpos L <=? 10000000000 * Z.abs w)%Z.

Lemma thresh_ok : forall L w x, thresh_okb L w = true -> x == w # L -> thresh x == x.
Proof.
  intros L w x H Hx. unfold thresh. destruct (Qle_bool _ _) eqn:E; [reflexivity|].
  apply orb_true_iff in H. destruct H as [H|H].
  - apply Z.eqb_eq in H. subst w. rewrite Hx. reflexivity.
  - exfalso. apply not_true_iff_false in E. apply E. apply Qle_bool_iff. rewrite Hx.
    apply Z.leb_le in H. unfold Qle, Qabs, Qnum, Qden. lia.
Qed.

(* Lagrange weights  n! [x^n] prod_(t<>z) (x - t) / prod_(t<>z) (z - t)  as integers over a common
   denominator L.  Nothing is proved about how they are computed: cert_okb checks their moments in Z, and
   by vandermonde_unique they are then the coefficients the elimination finds. *)
Fixpoint lin_mul (s carry : Z) (p : list Z) : list Z :=               (* (x - s) * p, carry = 0 *)
  match p with [] => [carry] | a :: r => (carry - s * a)%Z :: lin_mul s a r end.
Definition lagrange (zs : list Z) (z : Z) : list Z * Z :=
  fold_right (fun t pd => if (t =? z)%Z then pd else (lin_mul t 0 (fst pd), ((z - t) * snd pd)%Z))
             ([1%Z], 1%Z) zs.
Definition certificate (n : nat) (zs : list Z) : positive * list (Z * Z) :=
  let lag := map (lagrange zs) zs in
  let L := fold_right (fun pd l => Z.lcm (snd pd) l) 1%Z lag in
  (Z.to_pos L,
   map (fun c => ((zfact n * nth n (fst (snd c)) 0 * (L / snd (snd c)))%Z, fst c)) (combine zs lag)).

Lemma certificate_shifts : forall n zs, map snd (snd (certificate n zs)) = zs.
Proof.
  intros n zs. unfold certificate. cbn [snd]. rewrite map_map. cbn [snd].
  apply combine_fst. rewrite map_length. reflexivity.
Qed.

Definition cert_okb (n D : nat) (zs : list Z) : bool :=
  let (L, wz) := certificate n zs in
  (length zs <=? D)%nat && forallb (fun c => thresh_okb L (fst c)) wz &&
  zmoments_okb wz (map (fun j => if Nat.eqb j n then (zfact n * Zpos L)%Z else 0%Z) (seq 0 D)).

Lemma Forall_combine : forall (A B : Type) (P : A -> Prop) (Q : A * B -> Prop) (R : B -> Prop),
  (forall a b, Q (a, b) -> R b -> P a) ->
  forall l l', length l = length l' -> Forall Q (combine l l') -> Forall R l' -> Forall P l.
Proof.
  intros A B P Q R H. induction l as [|a l IH]; intros [|b l'] Hl HQ HR; try discriminate; [constructor|].
  inversion HQ; inversion HR; subst. constructor; [eauto | apply (IH l'); auto].
Qed.

Lemma cert_moments : forall n D zs xs, distinct (map inject_Z zs) -> cert_okb n D zs = true ->
  solve (length (map inject_Z zs)) (vsystem (map inject_Z zs) n) = Some xs ->
  moments_hold n D (sort_cols (filter col_nonzero
    (map (fun c => (thresh (fst c), thresh (snd c))) (combine xs (map inject_Z zs))))).
Proof.
  intros n D zs xs Hd C E. unfold cert_okb in C.
  pose proof (certificate_shifts n zs) as Hz. destruct (certificate n zs) as [L wz]. cbn [snd] in Hz.
  apply andb_true_iff in C. destruct C as [C HM]. apply andb_true_iff in C. destruct C as [HD HT].
  apply Nat.leb_le in HD. rewrite forallb_forall in HT.
  apply vandermonde_solution in E. destruct E as [Hx Hm].
  set (ss := map inject_Z zs) in *.
  assert (Hc : forall j, (j < D)%nat -> moment (toQ L wz) j == moment_target n j).
  { intros j Hj. rewrite (zmoments_hold L _ D 0 wz HM j Hj). cbn [Nat.add]. unfold moment_target.
    destruct (Nat.eqb j n); [|reflexivity]. unfold qfact. rewrite Qmake_Qdiv, inject_Z_mult. field.
    apply Qmake_nonzero. }
  assert (Hs : map snd (combine xs ss) = map snd (toQ L wz)).
  { rewrite combine_snd by exact Hx. unfold toQ. rewrite map_map. cbn [snd].
    unfold ss. rewrite <- Hz, map_map. reflexivity. }
  assert (U : Forall (fun p => fst (fst p) == fst (snd p)) (combine (combine xs ss) (toQ L wz))).
  { apply vandermonde_unique; [rewrite combine_snd by exact Hx; exact Hd | exact Hs |].
    intros j Hj. rewrite combine_length, Hx, Nat.min_id in Hj.
    assert (Hss : length ss = length zs) by apply map_length.
    rewrite (Hm j), (Hc j) by lia. reflexivity. }
  intros j Hj. rewrite moment_sort_cols, moment_filter_nonzero, moment_thresh.
  - rewrite (moment_ext _ _ j Hs U). apply Hc. exact Hj.
  - apply (Forall_combine _ _ _ _ (fun c' => thresh_okb L (Qnum (fst c')) = true /\ Qden (fst c') = L))
      with (l' := toQ L wz) (3 := U).
    + intros [x s] [[yn yd] t] Hxy [Hy HL]. cbn [fst snd Qnum Qden] in *. subst yd.
      exact (thresh_ok L yn x Hy Hxy).
    + rewrite <- (map_length snd), Hs, map_length. reflexivity.
    + unfold toQ. rewrite Forall_map. apply Forall_forall. intros c Hc'. cbn [fst Qnum Qden].
      split; [apply HT; exact Hc' | reflexivity].
  - rewrite combine_snd by exact Hx. unfold ss. rewrite Forall_map. apply Forall_forall.
    intros z _. rewrite thresh_inject_Z. reflexivity.
Qed.

Lemma moments_okb_iff : forall n D cs, moments_okb n D cs = true <-> moments_hold n D cs.
Proof.
  intros n D cs. unfold moments_okb, moments_hold. rewrite forallb_forall. split.
  - intros H j Hj. apply Qeq_bool_iff, H, in_seq. lia.
  - intros H j Hj. apply Qeq_bool_iff, H. apply in_seq in Hj. lia.
Qed.

Lemma shifts_of_defined : forall n a s, (1 <= n)%Z -> (1 <= a)%Z ->
  (shifts_of n a s <> None <-> s = Forward \/ s = Backward \/ (s = Center /\ (a mod 2 = 0)%Z)).
Proof.
  intros n a s Hn Ha. unfold shifts_of. cbv zeta.
  rewrite (proj2 (Z.ltb_ge n 1)), (proj2 (Z.ltb_ge a 1)) by lia.
  destruct s.
  - split; [auto | discriminate].
  - split; [auto | discriminate].
  - destruct (Z.eqb_spec (a mod 2) 0) as [E|E]; cbn [negb].
    + split; [auto | discriminate].
    + split; [congruence | intros [H|[H|[_ H]]]; [discriminate H | discriminate H | contradiction]].
  - split; [congruence | intros [H|[H|[H _]]]; discriminate H].
Qed.

(* the solve step never fails: the model returns coefficients whenever it has chosen shifts *)
Theorem fd_coeffs_none : forall n a s, fd_coeffs n a s = None <-> shifts_of n a s = None.
Proof.
  intros n a s. unfold fd_coeffs. destruct (shifts_of n a s) as [zs|] eqn:Sh; [|tauto].
  destruct (shifts_of_zrange _ _ _ _ Sh) as (lo & k & ->). cbv zeta.
  pose proof (vandermonde_solvable (map inject_Z (zrange lo k)) (Z.to_nat n) (distinct_zrange k lo)) as V.
  destruct (solve _ _); [split; discriminate | contradiction].
Qed.

Theorem fd_coeffs_defined : forall n a s, (1 <= n)%Z -> (1 <= a)%Z ->
  (fd_coeffs n a s <> None <-> s = Forward \/ s = Backward \/ (s = Center /\ (a mod 2 = 0)%Z)).
Proof. intros n a s Hn Ha. rewrite fd_coeffs_none. apply shifts_of_defined; assumption. Qed.

Definition cell_cert_okb (n a : Z) (s : strategy) : bool :=
  match shifts_of n a s with
  | None => true
  | Some zs => cert_okb (Z.to_nat n) (Z.to_nat (n + a)) zs
  end.

Lemma cell_cert_moments : forall n a s cs, cell_cert_okb n a s = true ->
  fd_coeffs n a s = Some cs -> moments_hold (Z.to_nat n) (Z.to_nat (n + a)) cs.
Proof.
  intros n a s cs C F. unfold cell_cert_okb in C. unfold fd_coeffs in F.
  destruct (shifts_of n a s) as [zs|] eqn:Sh; [|discriminate].
  destruct (shifts_of_zrange _ _ _ _ Sh) as (lo & k & ->). cbv zeta in F.
  destruct (solve _ _) as [xs|] eqn:So; [|discriminate]. injection F as <-.
  apply cert_moments; [apply distinct_zrange | exact C | exact So].
Qed.

Definition grid_cert_okb (nmax amax : nat) : bool :=
  forallb (fun n => forallb (fun a => forallb (cell_cert_okb n a) [Forward; Backward; Center; SUnknown])
                            (zrange 1 amax)) (zrange 1 nmax).

Lemma grid_cert_moments : forall nmax amax, grid_cert_okb nmax amax = true ->
  forall n a s cs, (1 <= n <= Z.of_nat nmax)%Z -> (1 <= a <= Z.of_nat amax)%Z ->
  fd_coeffs n a s = Some cs -> moments_hold (Z.to_nat n) (Z.to_nat (n + a)) cs.
Proof.
  intros nmax amax G n a s cs Hn Ha. apply cell_cert_moments.
  unfold grid_cert_okb in G. rewrite forallb_forall in G. specialize (G n ltac:(apply In_zrange; lia)).
  rewrite forallb_forall in G. specialize (G a ltac:(apply In_zrange; lia)).
  rewrite forallb_forall in G. apply G. destruct s; cbn; tauto.
Qed.

(* the certificates are integer arithmetic; the model's own rational elimination is not run *)
Lemma grid_cert_8_10 : grid_cert_okb 8 10 = true.
Proof. vm_compute. reflexivity. Qed.

Lemma coeffs_moments_8_10 : forall n a s cs, (1 <= n <= 8)%Z -> (1 <= a <= 10)%Z ->
  fd_coeffs n a s = Some cs -> moments_hold (Z.to_nat n) (Z.to_nat (n + a)) cs.
Proof. intros n a s cs Hn Ha. apply (grid_cert_moments 8 10 grid_cert_8_10); cbn; lia. Qed.

Lemma coeffs_moments_4_6 : forall n a s cs, (1 <= n <= 4)%Z -> (1 <= a <= 6)%Z ->
  fd_coeffs n a s = Some cs -> moments_hold (Z.to_nat n) (Z.to_nat (n + a)) cs.
Proof. intros n a s cs Hn Ha. apply coeffs_moments_8_10; lia. Qed.

Lemma coeffs_defined_8_10 : forall n a s, (1 <= n <= 8)%Z -> (1 <= a <= 10)%Z ->
  (fd_coeffs n a s <> None <->
   s = Forward \/ s = Backward \/ (s = Center /\ (a mod 2 = 0)%Z)).
Proof. intros n a s Hn Ha. apply fd_coeffs_defined; lia. Qed.

(* the property itself for the model: its stencils differentiate every polynomial of degree
   below n + approx_order exactly *)
Lemma fd_exact_8_10 : forall n a s cs, (1 <= n <= 8)%Z -> (1 <= a <= 10)%Z ->
  fd_coeffs n a s = Some cs ->
  forall p, (length p <= Z.to_nat (n + a))%nat -> forall x0 h, ~ h == 0 ->
  stencil (Z.to_nat n) cs p x0 h == peval (nderiv (Z.to_nat n) p) x0.
Proof.
  intros n a s cs Hn Ha E. apply moments_imply_exact_l.
  exact (coeffs_moments_8_10 n a s cs Hn Ha E).
Qed.
