(* Lemmas about the model of gradients/vjp.py and gradients/jvp.py.
   Well-shaped inputs are not characterised by a predicate on the dynamic values: they are BUILT from dense
   data (records `meas`, functions enc_dy, enc_jac_t, enc_jac_a) and the theorems quantify over the data.  Every path of
   compute_vjp_multi (single-parameter branch, both einsum paths, except-fallback) is reduced to the same
   value vjp_sum, whose components are the explicit contraction (vjp_sum_contraction); the batch loop is
   rewritten once as a fold over the per-tape results (batch_loop_spec), from which the four batch theorems
   are read off. *)
From Coq Require Import List ZArith Lia Bool Arith.
From PLV Require Import Alg.ListFacts Num.JacProdModel.
Import ListNotations.
Open Scope Z_scope.

(* ---------- well-shaped PennyLane structures built from dense data ---------- *)
(* one Jacobian / dy entry: a rank-0 array (sc = true, the list has length 1) or a rank-1 array *)
Definition enc_t (sc : bool) (l : list Z) : tens := if sc then T0 (hd 0 l) else T1 l.
Definition enc_e (sc : bool) (l : list Z) : val := VT (enc_t sc l).
(* entry list l is well-shaped for dimension d *)
Definition wf_e (sc : bool) (d : nat) (l : list Z) : Prop := length l = d.
Definition wf_d (sc : bool) (d : nat) : Prop := d <> O /\ (sc = true -> d = 1%nat).

(* one measurement: kind, dy entry, Jacobian rows (one per trainable parameter) *)
Record meas := { m_sc : bool; m_dy : list Z; m_rows : list (list Z) }.
Definition wf_m (k : nat) (m : meas) : Prop :=
  wf_d (m_sc m) (length (m_dy m)) /\ length (m_rows m) = k /\
  Forall (fun r => length r = length (m_dy m)) (m_rows m).
Definition enc_dy (ms : list meas) : val := VTup (map (fun m => enc_e (m_sc m) (m_dy m)) ms).
Definition enc_jac_t (ms : list meas) : val :=                 (* tuple of tuples (several parameters) *)
  VTup (map (fun m => VTup (map (enc_e (m_sc m)) (m_rows m))) ms).
Definition enc_jac_a (ms : list meas) : val :=                 (* tuple of arrays (one parameter) *)
  VTup (map (fun m => enc_e (m_sc m) (hd [] (m_rows m))) ms).
(* the explicit contraction: component p of the VJP *)
Definition contract_vjp (ms : list meas) (p : nat) : Z :=
  fold_right Z.add 0 (map (fun m => dot (m_dy m) (nth p (m_rows m) [])) ms).
(* component i of the JVP of one measurement *)
Definition contract_jvp (tg : list Z) (rows : list (list Z)) (i : nat) : Z :=
  dot tg (map (fun r => nth i r 0) rows).

Lemma dot_nil_r : forall a, dot a [] = 0.
Proof. destruct a; reflexivity. Qed.

Lemma dot_single : forall a x, dot [a] [x] = a * x.
Proof. intros; cbn [dot]; lia. Qed.

Lemma length1 : forall (l : list Z), length l = 1%nat -> l = [hd 0 l].
Proof. intros [|x [|y l]] H; cbn in *; try discriminate; reflexivity. Qed.

Lemma nonnil_length : forall {A} (l : list A), length l <> O -> l <> [].
Proof. intros A l H ->. apply H. reflexivity. Qed.

Lemma eqb_ln_refl : forall a, eqb_ln a a = true.
Proof. induction a; cbn; [reflexivity | rewrite Nat.eqb_refl, IHa; reflexivity]. Qed.

Lemma all_some_ext : forall {A B} (f : A -> option B) (g : A -> B) (l : list A),
  Forall (fun x => f x = Some (g x)) l -> all_some (map f l) = Some (map g l).
Proof.
  induction 1; cbn; [reflexivity|]. rewrite H, IHForall. reflexivity.
Qed.

Lemma all_some_map_Some : forall {A B} (f : A -> B) (l : list A), all_some (map (fun x => Some (f x)) l) = Some (map f l).
Proof. intros. apply all_some_ext, Forall_forall. reflexivity. Qed.

(* all_some succeeds on a guarded map only if every guard holds *)
Lemma all_some_if : forall {A B} (c : A -> bool) (g : A -> B) l ys,
  all_some (map (fun x => if c x then Some (g x) else None) l) = Some ys ->
  ys = map g l /\ Forall (fun x => c x = true) l.
Proof.
  induction l as [|x l IH]; intros ys H; cbn [map all_some] in H.
  - inversion H. split; [reflexivity | constructor].
  - destruct (c x) eqn:Ec; [|discriminate].
    destruct (all_some _) as [zs|]; [|discriminate]. inversion H; subst.
    destruct (IH zs eq_refl) as [-> Hall]. split; [reflexivity | constructor; assumption].
Qed.

Lemma map2o_map : forall {A B C D} (f : A -> B -> C) (a : D -> A) (b : D -> B) (l : list D),
  map2o f (map a l) (map b l) = Some (map (fun x => f (a x) (b x)) l).
Proof. induction l; cbn; [reflexivity | rewrite IHl; reflexivity]. Qed.

Lemma chunks_aux_concat : forall n rows fuel, n <> O -> Forall (fun r => length r = n) rows ->
  (length (concat rows) <= fuel)%nat -> chunks_aux fuel n (concat rows) = Some rows.
Proof.
  intros n rows; induction rows as [|r rows IH]; intros fuel Hn Hf Hlen.
  - destruct fuel; reflexivity.
  - inversion Hf as [|? ? Hr Hf']; subst.
    cbn [concat] in *. rewrite app_length in Hlen.
    destruct r as [|x r]; [cbn in Hn; congruence|].
    destruct fuel as [|fuel]; [cbn in Hlen; lia|].
    cbn [chunks_aux app].
    change (x :: r ++ concat rows) with ((x :: r) ++ concat rows).
    destruct (Nat.ltb_spec (length ((x :: r) ++ concat rows)) (length (x :: r))) as [Hlt|_].
    + rewrite app_length in Hlt. lia.
    + rewrite firstn_app_exact, skipn_app_exact.
      rewrite IH; [reflexivity | assumption | assumption | cbn in Hlen; lia].
Qed.

Lemma chunks_concat : forall n rows, n <> O -> rows <> [] -> Forall (fun r => length r = n) rows ->
  chunks n (concat rows) = Some rows.
Proof.
  intros n rows Hn Hne Hf. unfold chunks.
  destruct (concat rows) eqn:E.
  - destruct rows as [|r rows]; [congruence|]. inversion Hf; subst.
    cbn in E. destruct r; [cbn in Hn; congruence | discriminate].
  - rewrite <- E. apply chunks_aux_concat; auto.
Qed.

(* ---------- encoded entries: one statement for both kinds ---------- *)
Lemma flatten_enc : forall sc l, wf_d sc (length l) -> flatten_t (enc_t sc l) = l.
Proof. intros [|] l [_ H]; [symmetry; apply length1, H; reflexivity | reflexivity]. Qed.

Lemma is_shape0_enc : forall sc l, l <> [] -> is_shape0 (enc_t sc l) = false.
Proof. intros [|] [|x l] H; first [reflexivity | congruence]. Qed.

Lemma tscale_enc : forall sc c l, tscale c (enc_t sc l) = enc_t sc (vscale c l).
Proof. intros [|] c [|x l]; cbn; try reflexivity. f_equal. lia. Qed.

Lemma tadd_enc : forall sc a b, length a = length b -> tadd (enc_t sc a) (enc_t sc b) = Some (enc_t sc (vadd a b)).
Proof.
  intros [|] a b H; unfold tadd; cbn [enc_t tshape eqb_ln].
  - destruct a, b; try discriminate; reflexivity.
  - rewrite H, Nat.eqb_refl. reflexivity.
Qed.

Lemma as_t_enc : forall sc rows, all_some (map as_t (map (enc_e sc) rows)) = Some (map (enc_t sc) rows).
Proof. intros; rewrite map_map; cbn [enc_e as_t]. apply all_some_map_Some. Qed.

Lemma stack_flat_enc : forall sc d rows, wf_d sc d -> rows <> [] -> Forall (fun r => length r = d) rows ->
  stack_flat (map (enc_e sc) rows) = Some (concat rows).
Proof.
  intros sc d rows Hd Hne Hf. unfold stack_flat. rewrite as_t_enc. rewrite Forall_forall in Hf.
  destruct rows as [|r0 rows]; [congruence|]. cbn [map].
  replace (forallb _ (map (enc_t sc) rows)) with true.
  - change (Some (concat (map flatten_t (map (enc_t sc) (r0 :: rows)))) = Some (concat (r0 :: rows))).
    rewrite map_map. do 2 f_equal. transitivity (map (fun r => r) (r0 :: rows)); [|apply map_id].
    apply map_ext_in. intros r Hr. apply flatten_enc. rewrite (Hf r Hr). exact Hd.
  - symmetry. apply forallb_forall. intros u Hu. apply in_map_iff in Hu as (x & <- & Hx).
    destruct sc; cbn; [reflexivity|]. rewrite (Hf x), (Hf r0), Nat.eqb_refl by (cbn; auto). reflexivity.
Qed.

Lemma map_dot_single : forall a rows, Forall (fun r => length r = 1%nat) rows ->
  map (dot [a]) rows = vscale a (map (hd 0) rows).
Proof.
  induction 1 as [|r rows Hr Hf IH]; [reflexivity|].
  cbn [map vscale]. fold (vscale a (map (hd 0) rows)). rewrite IH. f_equal. rewrite (length1 r Hr). cbn. lia.
Qed.

Lemma concat_singletons : forall rows, Forall (fun r => length r = 1%nat) rows ->
  concat rows = map (hd 0) rows.
Proof.
  induction 1 as [|r rows Hr Hf IH]; cbn; [reflexivity|].
  rewrite IH, (length1 r Hr). reflexivity.
Qed.

(* ---------- compute_vjp_single ---------- *)
Lemma vjp_single_array_ok : forall sc dy row,
  wf_d sc (length dy) -> length row = length dy ->
  compute_vjp_single (enc_e sc dy) (enc_e sc row) = Ok (VT (T1 [dot dy row])).
Proof.
  intros sc dy row Hd Hr.
  assert (Hd' : wf_d sc (length row)) by (rewrite Hr; exact Hd).
  unfold compute_vjp_single, enc_e. cbv beta iota zeta.
  rewrite is_shape0_enc, !flatten_enc by (try assumption; apply nonnil_length, Hd').
  rewrite Hr, Nat.eqb_refl. reflexivity.
Qed.

(* the two reshapes of the stacked Jacobian: num == 1 scales the flat stack, num > 1 cuts it back into rows *)
Lemma vjp_single_tuple_ok : forall sc dy rows,
  wf_d sc (length dy) -> rows <> [] -> Forall (fun r => length r = length dy) rows ->
  compute_vjp_single (enc_e sc dy) (VTup (map (enc_e sc) rows)) = Ok (VT (T1 (map (dot dy) rows))).
Proof.
  intros sc dy rows Hd Hne Hf. unfold compute_vjp_single, enc_e at 1. cbv beta iota zeta.
  destruct (map (enc_e sc) rows) eqn:Em; [destruct rows; [congruence | discriminate]|].
  rewrite <- Em. clear Em.
  rewrite flatten_enc, (stack_flat_enc sc (length dy) rows) by assumption.
  destruct (Nat.eqb_spec (length dy) 1) as [H1|H1].
  - rewrite H1 in Hf. rewrite (concat_singletons rows Hf), (length1 dy H1). cbn [hd].
    rewrite map_dot_single by assumption. reflexivity.
  - rewrite chunks_concat by (assumption || apply Hd). reflexivity.
Qed.

(* ---------- sums of stacked vectors ---------- *)
Lemma vadd_length : forall a b, length a = length b -> length (vadd a b) = length a.
Proof. induction a; destruct b; cbn; intros; try discriminate; auto. Qed.

Lemma nth_vadd : forall a b p, length a = length b -> nth p (vadd a b) 0 = nth p a 0 + nth p b 0.
Proof.
  induction a; destruct b; cbn; intros p H; try discriminate.
  - destruct p; reflexivity.
  - destruct p; [reflexivity | apply IHa; lia].
Qed.

Lemma nth_vscale : forall c r i, nth i (vscale c r) 0 = c * nth i r 0.
Proof.
  induction r as [|x r IH]; intros i; destruct i; cbn; try lia. apply IH.
Qed.

Lemma sum_stack_T1 : forall vs, sum_stack (map T1 vs) = option_map T1 (vsum1 vs).
Proof.
  induction vs as [|v vs IH]; [reflexivity|].
  destruct vs as [|w vs]; [reflexivity|].
  cbn [map sum_stack vsum1] in *. rewrite IH.
  destruct (match vs with [] => Some w | _ :: _ => _ end) as [s|]; cbn [option_map]; [|reflexivity].
  unfold tadd. cbn [tshape eqb_ln]. rewrite Bool.andb_true_r.
  destruct (Nat.eqb (length v) (length s)); reflexivity.
Qed.

Lemma vsum1_spec : forall k vs, vs <> [] -> Forall (fun v => length v = k) vs ->
  exists c, vsum1 vs = Some c /\ length c = k /\
            forall p, nth p c 0 = fold_right Z.add 0 (map (fun v => nth p v 0) vs).
Proof.
  intros k vs Hne Hf. induction Hf as [|v vs Hv Hf IH]; [congruence|].
  destruct vs as [|w vs].
  - exists v. repeat split; [assumption|]. intros p. cbn. lia.
  - destruct IH as (c & Hc & Hl & Hn); [discriminate|].
    cbn [vsum1] in *. rewrite Hc, Hv, Hl, Nat.eqb_refl.
    exists (vadd v c). repeat split; [rewrite vadd_length; lia|].
    intros p. rewrite nth_vadd, Hn by lia. reflexivity.
Qed.

Lemma nth_map_dot : forall dy rows p, nth p (map (dot dy) rows) 0 = dot dy (nth p rows []).
Proof.
  induction rows as [|r rows IH]; intros p.
  - destruct p; cbn; rewrite dot_nil_r; reflexivity.
  - destruct p; cbn; [reflexivity | apply IH].
Qed.

(* the per-measurement VJP vectors, and their sum as every path of compute_vjp_multi returns it *)
Definition vjp_rows (ms : list meas) : list (list Z) := map (fun m => map (dot (m_dy m)) (m_rows m)) ms.
Definition vjp_sum (ms : list meas) : res :=
  match vsum1 (vjp_rows ms) with Some c => Ok (VT (T1 c)) | None => Err end.

Lemma vjp_sum_contraction : forall k ms, ms <> [] -> Forall (wf_m k) ms ->
  exists c, vjp_sum ms = Ok (VT (T1 c)) /\ length c = k /\ forall p, nth p c 0 = contract_vjp ms p.
Proof.
  intros k ms Hne Hf. destruct (vsum1_spec k (vjp_rows ms)) as (c & Hc & Hl & Hn).
  - destruct ms; [congruence | discriminate].
  - unfold vjp_rows. rewrite Forall_map. eapply Forall_impl; [|exact Hf].
    intros m (_ & Hk & _). rewrite map_length. exact Hk.
  - exists c. unfold vjp_sum. rewrite Hc. repeat split; [exact Hl|].
    intros p. rewrite Hn. unfold contract_vjp, vjp_rows. rewrite map_map.
    f_equal. apply map_ext. intros m. apply nth_map_dot.
Qed.

Lemma sum_stack_rows : forall ms,
  match sum_stack (map (fun m => T1 (map (dot (m_dy m)) (m_rows m))) ms) with
  | Some t => Ok (VT t) | None => Err end = vjp_sum ms.
Proof.
  intros ms. rewrite <- (map_map (fun m => map (dot (m_dy m)) (m_rows m)) T1). fold (vjp_rows ms).
  rewrite sum_stack_T1. unfold vjp_sum. destruct (vsum1 (vjp_rows ms)); reflexivity.
Qed.

(* the tail shared by the single-parameter branch and the except-branch *)
Lemma sum_rows_ok : forall (f : meas -> option tens) ms,
  Forall (fun m => f m = Some (T1 (map (dot (m_dy m)) (m_rows m)))) ms ->
  match all_some (map f ms) with
  | Some ts => match sum_stack ts with Some t => Ok (VT t) | None => Err end
  | None => Err end = vjp_sum ms.
Proof. intros f ms H. rewrite (all_some_ext _ _ ms H). apply sum_stack_rows. Qed.

(* ---------- compute_vjp_multi: the except-branch ---------- *)
Lemma all_some_T0 : forall l,
  all_some (map (fun t => match t with T0 x => Some x | _ => None end) (map T0 l)) = Some l.
Proof. induction l; cbn; [reflexivity | rewrite IHl; reflexivity]. Qed.

Lemma stack_row_T0 : forall l, l <> [] -> stack_row (map T0 l) = Some (T1 l).
Proof.
  intros [|x l] H; [congruence|]. unfold stack_row. simpl. rewrite all_some_T0. reflexivity.
Qed.

Lemma fallback_row_ok : forall k m, k <> O -> wf_m k m ->
  fallback_row (enc_e (m_sc m) (m_dy m)) (VTup (map (enc_e (m_sc m)) (m_rows m)))
  = Some (T1 (map (dot (m_dy m)) (m_rows m))).
Proof.
  intros k m Hk (Hd & Hlen & Hf). unfold fallback_row. rewrite map_map.
  rewrite (all_some_ext _ (fun r => T0 (dot (m_dy m) r))).
  - rewrite <- (map_map (dot (m_dy m)) T0). apply stack_row_T0.
    rewrite <- (map_length (dot (m_dy m))) in Hlen. apply nonnil_length. congruence.
  - eapply Forall_impl; [|exact Hf]. intros r Hr. cbn beta.
    rewrite vjp_single_array_ok by assumption. reflexivity.
Qed.

(* the items of enc_dy ms and of enc_jac_t ms: the helpers of compute_vjp_multi take the lists, not the tuples *)
Definition dyl (ms : list meas) : list val := map (fun m => enc_e (m_sc m) (m_dy m)) ms.
Definition jtl (ms : list meas) : list val := map (fun m => VTup (map (enc_e (m_sc m)) (m_rows m))) ms.

Lemma vjp_fallback_ok : forall k ms, k <> O -> Forall (wf_m k) ms ->
  vjp_fallback (dyl ms) (jtl ms) = vjp_sum ms.
Proof.
  intros k ms Hk Hf. unfold vjp_fallback, dyl, jtl. rewrite map2o_map. apply sum_rows_ok.
  eapply Forall_impl; [|exact Hf]. intros m Hm. apply (fallback_row_ok k); assumption.
Qed.

(* ---------- compute_vjp_multi: the einsum paths ---------- *)
Lemma as_T0_dyl : forall ms xs, all_some (map as_T0 (dyl ms)) = Some xs ->
  xs = map (fun m => hd 0 (m_dy m)) ms /\ Forall (fun m => m_sc m = true) ms.
Proof.
  intros ms xs H. apply (all_some_if m_sc). rewrite <- H. unfold dyl. rewrite map_map.
  f_equal. apply map_ext. intros m. unfold enc_e, enc_t. destruct (m_sc m); reflexivity.
Qed.

Lemma as_T1_dyl : forall ms rows, all_some (map as_T1 (dyl ms)) = Some rows ->
  rows = map m_dy ms /\ Forall (fun m => m_sc m = false) ms.
Proof.
  intros ms rows H. destruct (all_some_if (fun m => negb (m_sc m)) m_dy ms rows) as [E Hsc].
  - rewrite <- H. unfold dyl. rewrite map_map.
    f_equal. apply map_ext. intros m. unfold enc_e, enc_t. destruct (m_sc m); reflexivity.
  - split; [exact E|]. eapply Forall_impl; [|exact Hsc]. intros m. apply negb_true_iff.
Qed.

Lemma dense0_jtl : forall ms, Forall (fun m => m_sc m = true) ms ->
  dense0 (jtl ms) = Some (map (fun m => map (hd 0) (m_rows m)) ms).
Proof.
  intros ms H. unfold dense0, jtl. rewrite map_map. apply all_some_ext.
  eapply Forall_impl; [|exact H]. intros m Hm. cbn beta. rewrite Hm, map_map.
  cbn [enc_e enc_t as_T0]. apply all_some_map_Some.
Qed.

Lemma dense1_jtl : forall ms, Forall (fun m => m_sc m = false) ms ->
  dense1 (jtl ms) = Some (map m_rows ms).
Proof.
  intros ms H. unfold dense1, jtl. rewrite map_map. apply all_some_ext.
  eapply Forall_impl; [|exact H]. intros m Hm. cbn beta. rewrite Hm, map_map.
  cbn [enc_e enc_t as_T1]. rewrite all_some_map_Some, map_id. reflexivity.
Qed.

Lemma einsum_s_sound : forall k ms xs, Forall (wf_m k) ms ->
  all_some (map as_T0 (dyl ms)) = Some xs -> einsum_s xs (jtl ms) = vsum1 (vjp_rows ms).
Proof.
  intros k ms xs Hf H. destruct (as_T0_dyl ms xs H) as [-> Hsc].
  unfold einsum_s. rewrite dense0_jtl by assumption. rewrite map2o_map.
  f_equal. unfold vjp_rows. apply map_ext_in. intros m Hin.
  rewrite Forall_forall in Hf, Hsc. destruct (Hf m Hin) as ((_ & H1) & _ & Hr).
  specialize (H1 (Hsc m Hin)). rewrite H1 in Hr.
  rewrite (length1 (m_dy m) H1). cbn [hd]. symmetry. apply map_dot_single. assumption.
Qed.

Lemma einsum_v_sound : forall ms rows r,
  all_some (map as_T1 (dyl ms)) = Some rows -> einsum_v rows (jtl ms) = Some r -> vsum1 (vjp_rows ms) = Some r.
Proof.
  intros ms rows r H He. destruct (as_T1_dyl ms rows H) as [-> Hsc].
  unfold einsum_v in He. rewrite dense1_jtl in He by assumption.
  destruct (forallb _ (map m_rows ms)); [|discriminate].
  rewrite map2o_map in He. exact He.
Qed.

Lemma dy_kind_inv : forall ds,
  match dy_kind ds with
  | KScalar xs => all_some (map as_T0 ds) = Some xs
  | KVector rows => all_some (map as_T1 ds) = Some rows
  | KRagged => True
  end.
Proof.
  intros ds. unfold dy_kind. destruct ds as [|d ds]; [exact I|].
  destruct (all_some (map as_T0 (d :: ds))); [reflexivity|].
  destruct (all_some (map as_T1 (d :: ds))) as [[|a r]|]; try exact I.
  destruct (forallb _ r); [reflexivity | exact I].
Qed.

Lemma vjp_multi_tuple_paths : forall ms, ms <> [] ->
  compute_vjp_multi (enc_dy ms) (enc_jac_t ms) =
  let fallback := vjp_fallback (dyl ms) (jtl ms) in
  match dy_kind (dyl ms) with
  | KScalar xs => match einsum_s xs (jtl ms) with Some r => Ok (VT (T1 r)) | None => fallback end
  | KVector rows => match einsum_v rows (jtl ms) with Some r => Ok (VT (T1 r)) | None => fallback end
  | KRagged => fallback
  end.
Proof. intros [|m ms] H; [congruence | reflexivity]. Qed.

(* every path of the several-parameters branch returns the summed per-measurement vectors *)
Lemma vjp_multi_tuple_sum : forall k ms, k <> O -> ms <> [] -> Forall (wf_m k) ms ->
  compute_vjp_multi (enc_dy ms) (enc_jac_t ms) = vjp_sum ms.
Proof.
  intros k ms Hk Hne Hf. rewrite (vjp_multi_tuple_paths ms Hne), (vjp_fallback_ok k ms Hk Hf). cbv zeta.
  pose proof (dy_kind_inv (dyl ms)) as Ek. unfold vjp_sum.
  destruct (dy_kind (dyl ms)) as [xs|rows|]; [| |reflexivity].
  - rewrite (einsum_s_sound k ms xs Hf Ek). destruct (vsum1 (vjp_rows ms)); reflexivity.
  - destruct (einsum_v rows (jtl ms)) as [r|] eqn:Ee; [|reflexivity].
    rewrite (einsum_v_sound ms rows r Ek Ee). reflexivity.
Qed.

(* ---------- compute_vjp_multi: the single-parameter branch ---------- *)
Lemma vjp_multi_array_sum : forall ms, ms <> [] -> Forall (wf_m 1) ms ->
  compute_vjp_multi (enc_dy ms) (enc_jac_a ms) = vjp_sum ms.
Proof.
  intros ms Hne Hf.
  transitivity
    (match map2o (fun d j => res_t (compute_vjp_single d j)) (dyl ms)
                 (map (fun m => enc_e (m_sc m) (hd [] (m_rows m))) ms) with
     | Some l => match all_some l with
                 | Some ts => match sum_stack ts with Some t => Ok (VT t) | None => Err end
                 | None => Err end
     | None => Err end); [destruct ms; [congruence | reflexivity]|].
  unfold dyl. rewrite map2o_map. apply sum_rows_ok.
  eapply Forall_impl; [|exact Hf]. intros m (Hd & Hlen & Hr).
  destruct (m_rows m) as [|r [|? ?]]; try discriminate.
  inversion Hr; subst. cbn [hd map]. rewrite vjp_single_array_ok by assumption. reflexivity.
Qed.

Lemma vjp_multi_tuple_contraction : forall k ms, k <> O -> ms <> [] -> Forall (wf_m k) ms ->
  exists c, compute_vjp_multi (enc_dy ms) (enc_jac_t ms) = Ok (VT (T1 c)) /\ length c = k /\
            forall p, nth p c 0 = contract_vjp ms p.
Proof.
  intros k ms Hk Hne Hf. rewrite (vjp_multi_tuple_sum k ms Hk Hne Hf). apply vjp_sum_contraction; assumption.
Qed.

Lemma vjp_multi_array_contraction : forall ms, ms <> [] -> Forall (wf_m 1) ms ->
  compute_vjp_multi (enc_dy ms) (enc_jac_a ms) = Ok (VT (T1 [contract_vjp ms 0])).
Proof.
  intros ms Hne Hf. rewrite (vjp_multi_array_sum ms Hne Hf).
  destruct (vjp_sum_contraction 1 ms Hne Hf) as (c & -> & Hl & Hn).
  rewrite <- (Hn O). destruct c as [|x [|? ?]]; try discriminate. reflexivity.
Qed.

Lemma vjp_multi_sum_of_singles : forall k ms, k <> O -> ms <> [] -> Forall (wf_m k) ms ->
  Forall (fun m => compute_vjp_single (enc_e (m_sc m) (m_dy m)) (VTup (map (enc_e (m_sc m)) (m_rows m)))
                   = Ok (VT (T1 (map (dot (m_dy m)) (m_rows m))))) ms /\
  compute_vjp_multi (enc_dy ms) (enc_jac_t ms)
  = match sum_stack (map (fun m => T1 (map (dot (m_dy m)) (m_rows m))) ms) with
    | Some t => Ok (VT t) | None => Err end.
Proof.
  intros k ms Hk Hne Hf. split.
  - eapply Forall_impl; [|exact Hf]. intros m (Hd & Hlen & Hr).
    apply vjp_single_tuple_ok; try assumption. apply nonnil_length. congruence.
  - rewrite sum_stack_rows. apply (vjp_multi_tuple_sum k); assumption.
Qed.

(* ---------- compute_jvp_single / multi ---------- *)
(* the tensordot of the encoded rows of either kind encodes the linear combination of the rows *)
Lemma lincomb_enc : forall sc d tg rows, length tg = length rows -> rows <> [] ->
  Forall (fun r => length r = d) rows ->
  exists L, lincomb tg (map (enc_t sc) rows) = Some (enc_t sc L) /\ length L = d /\
            forall i, nth i L 0 = contract_jvp tg rows i.
Proof.
  intros sc d. induction tg as [|c tg IH]; intros [|r rows] Hl Hne Hf; try discriminate; [congruence|].
  inversion Hf as [|? ? Hr Hf']; subst.
  assert (Hlr : length (vscale c r) = length r) by apply map_length.
  destruct rows as [|r2 rows].
  - destruct tg; [|discriminate]. exists (vscale c r). cbn [map lincomb]. rewrite tscale_enc.
    repeat split; [exact Hlr|]. intros i. rewrite nth_vscale. unfold contract_jvp. cbn. lia.
  - destruct tg as [|c2 tg]; [discriminate|].
    destruct (IH (r2 :: rows)) as (L & HL & Hlen & Hn); [cbn in *; lia | discriminate | assumption|].
    cbn [map lincomb] in *. rewrite HL, tscale_enc, tadd_enc by lia.
    exists (vadd (vscale c r) L). repeat split; [rewrite vadd_length; lia|].
    intros i. rewrite nth_vadd, nth_vscale, Hn by lia. unfold contract_jvp. cbn. lia.
Qed.

Lemma jvp_single_enc : forall sc d tg rows, length tg = length rows -> rows <> [] ->
  Forall (fun r => length r = d) rows ->
  exists L, compute_jvp_single tg (VTup (map (enc_e sc) rows)) = Ok (VT (enc_t sc L)) /\ length L = d /\
            forall i, nth i L 0 = contract_jvp tg rows i.
Proof.
  intros sc d tg rows Hl Hne Hf. destruct (lincomb_enc sc d tg rows Hl Hne Hf) as (L & HL & HLn).
  exists L. split; [|exact HLn]. unfold compute_jvp_single.
  destruct (map (enc_e sc) rows) eqn:Em; [destruct rows; [congruence | discriminate]|].
  rewrite <- Em. rewrite as_t_enc, HL. reflexivity.
Qed.

(* a rank-0 entry only shows the head of its list, so the rows need no common length *)
Lemma jvp_single_scalar_ok : forall tg rows, length tg = length rows -> rows <> [] ->
  compute_jvp_single tg (VTup (map (enc_e true) rows)) = Ok (VT (T0 (dot tg (map (hd 0) rows)))).
Proof.
  intros tg rows Hl Hne.
  destruct (jvp_single_enc true 1 tg (map (fun r => [hd 0 r]) rows)) as (L & HL & _ & Hn).
  - rewrite map_length. exact Hl.
  - destruct rows; [congruence | discriminate].
  - apply Forall_map, Forall_forall. reflexivity.
  - rewrite map_map in HL. change (compute_jvp_single tg (VTup (map (enc_e true) rows)) = Ok (VT (T0 (hd 0 L)))) in HL.
    rewrite HL. do 3 f_equal. transitivity (nth 0 L 0); [destruct L; reflexivity|].
    rewrite (Hn O). unfold contract_jvp. rewrite map_map. reflexivity.
Qed.

Lemma jvp_single_array_ok : forall c t, is_shape0 t = false ->
  compute_jvp_single [c] (VT t) = Ok (VT (tscale c t)).
Proof. intros c t H. unfold compute_jvp_single. rewrite H. reflexivity. Qed.

Lemma jvp_multi_is_map : forall tg js,
  compute_jvp_multi tg (VTup js)
  = match all_ok (map (compute_jvp_single tg) js) with Some l => Ok (VTup l) | None => Err end.
Proof. reflexivity. Qed.

(* ---------- the zero shortcut of vjp() ---------- *)
Lemma dot_zero_l : forall dy r, Forall (eq 0) dy -> dot dy r = 0.
Proof.
  induction dy as [|x dy IH]; intros r H; [reflexivity|].
  inversion H; subst. destruct r; [reflexivity|]. cbn [dot]. rewrite IH by assumption. lia.
Qed.

Lemma forallb_zero : forall tg, Forall (eq 0) tg -> forallb (Z.eqb 0) tg = true.
Proof. induction 1 as [|x l Hx Hf IH]; [reflexivity|]. cbn. rewrite IH. subst. reflexivity. Qed.

Lemma all_zero_repeat : forall k c, length c = k -> (forall p, nth p c 0 = 0) -> c = repeat 0 k.
Proof.
  induction k; intros [|x c] Hl Hn; cbn in Hl; try discriminate; [reflexivity|].
  cbn [repeat]. f_equal; [exact (Hn O)|]. apply IHk; [lia|]. intros p. exact (Hn (S p)).
Qed.

Lemma contract_vjp_zero : forall ms p, Forall (fun m => Forall (eq 0) (m_dy m)) ms -> contract_vjp ms p = 0.
Proof.
  intros ms p H. unfold contract_vjp. induction H as [|m ms Hm H IH]; [reflexivity|].
  cbn [map fold_right]. rewrite IH, dot_zero_l by assumption. reflexivity.
Qed.

Lemma map_dot_zero : forall dy rows, Forall (eq 0) dy -> map (dot dy) rows = repeat 0 (length rows).
Proof.
  intros dy rows H. induction rows; cbn; [reflexivity|]. rewrite IHrows, dot_zero_l by assumption. reflexivity.
Qed.

Lemma all_zero_enc_e : forall sc dy, wf_d sc (length dy) -> Forall (eq 0) dy -> all_zero_val (enc_e sc dy) = true.
Proof.
  intros sc dy Hd Hz. unfold enc_e. cbn [all_zero_val]. rewrite flatten_enc by exact Hd. apply forallb_zero, Hz.
Qed.

Lemma all_zero_enc_dy : forall k ms, Forall (wf_m k) ms -> Forall (fun m => Forall (eq 0) (m_dy m)) ms ->
  all_zero_val (enc_dy ms) = true.
Proof.
  intros k ms Hf Hz. unfold enc_dy. cbn [all_zero_val]. apply forallb_forall. intros v Hv.
  apply in_map_iff in Hv as (m & <- & Hin). rewrite Forall_forall in Hf, Hz.
  apply all_zero_enc_e; [apply (Hf m Hin) | apply (Hz m Hin)].
Qed.

Lemma vjp_tape_zero : forall t dy g results, tp_k t <> O -> all_zero_val dy = true ->
  snd (vjp_tape t dy g) results = Ok (VT (T1 (repeat 0 (tp_k t)))).
Proof.
  intros t dy g results Hk Hz. unfold vjp_tape.
  destruct (Nat.eqb_spec (tp_k t) 0) as [E|_]; [congruence|]. rewrite Hz. reflexivity.
Qed.

Lemma zero_dy_shortcut_multi : forall t g results ms,
  tp_k t <> O -> multi t = true -> partitioned t = false -> ms <> [] ->
  Forall (wf_m (tp_k t)) ms -> Forall (fun m => Forall (eq 0) (m_dy m)) ms ->
  snd g results = enc_jac_t ms ->
  snd (vjp_tape t (enc_dy ms) g) results = vjp_proc t (enc_dy ms) g results.
Proof.
  intros t g results ms Hk Hm Hp Hne Hf Hz Hg.
  rewrite vjp_tape_zero by (try exact Hk; apply (all_zero_enc_dy _ ms Hf Hz)).
  unfold vjp_proc. rewrite Hm, Hp, Hg. cbn [negb].
  destruct (vjp_multi_tuple_contraction (tp_k t) ms Hk Hne Hf) as (c & -> & Hl & Hn).
  do 3 f_equal. symmetry. apply all_zero_repeat; [assumption|].
  intros p. rewrite Hn. apply contract_vjp_zero. assumption.
Qed.

Lemma zero_dy_shortcut_single : forall t g results sc dy rows,
  tp_k t <> O -> multi t = false -> partitioned t = false ->
  wf_d sc (length dy) -> length rows = tp_k t -> Forall (fun r => length r = length dy) rows ->
  Forall (eq 0) dy -> snd g results = VTup (map (enc_e sc) rows) ->
  snd (vjp_tape t (enc_e sc dy) g) results = vjp_proc t (enc_e sc dy) g results.
Proof.
  intros t g results sc dy rows Hk Hm Hp Hd Hlen Hr Hz Hg.
  rewrite vjp_tape_zero by (try exact Hk; apply (all_zero_enc_e sc dy Hd Hz)).
  unfold vjp_proc. rewrite Hm, Hp, Hg. cbn [negb].
  rewrite vjp_single_tuple_ok; try assumption.
  - rewrite map_dot_zero, Hlen by assumption. reflexivity.
  - apply nonnil_length. congruence.
Qed.

(* ---------- the zero shortcut of jvp(), with and without a shot vector ---------- *)
Lemma nth_error_all : forall (l : list val), all_some (map (fun i => nth_error l i) (seq 0 (length l))) = Some l.
Proof.
  induction l as [|x l IH]; [reflexivity|]. cbn [length seq map nth_error all_some].
  rewrite <- seq_shift, map_map. cbn [nth_error]. rewrite IH. reflexivity.
Qed.

Lemma all_ok_const : forall {A} (f : A -> res) z (l : list A), Forall (fun x => f x = Ok z) l ->
  all_ok (map f l) = Some (repeat z (length l)).
Proof.
  induction 1 as [|x l Hx Hf IH]; [reflexivity|]. cbn [map all_ok length repeat]. rewrite Hx, IH. reflexivity.
Qed.

(* entry length of a measurement of dimension d (0 = scalar measurement, rank-0 entries) *)
Definition dlen (d : nat) : nat := if Nat.eqb d 0 then 1%nat else d.
Definition enc_jrows (d : nat) (rows : list (list Z)) : val := VTup (map (enc_e (Nat.eqb d 0)) rows).

Lemma jvp_single_zero : forall d tg rows, Forall (eq 0) tg -> length tg = length rows -> rows <> [] ->
  Forall (fun r => length r = dlen d) rows ->
  compute_jvp_single tg (enc_jrows d rows) = Ok (zero_meas d).
Proof.
  intros d tg rows Hz Hl Hne Hf.
  destruct (jvp_single_enc (Nat.eqb d 0) (dlen d) tg rows Hl Hne Hf) as (L & HL & Hlen & Hn).
  unfold enc_jrows. rewrite HL. replace L with (repeat 0 (dlen d)).
  - unfold zero_meas, dlen. destruct (Nat.eqb d 0); reflexivity.
  - symmetry. apply all_zero_repeat; [assumption|].
    intros i. rewrite Hn. unfold contract_jvp. apply dot_zero_l; assumption.
Qed.

Definition wf_rows (k d : nat) (rows : list (list Z)) : Prop :=
  length rows = k /\ Forall (fun r => length r = dlen d) rows.

Lemma jvp_tape_zero : forall t tg g results d, tp_k t <> O -> tp_meas t = [d] -> Forall (eq 0) tg ->
  snd (jvp_tape t tg g) results
  = Ok (if partitioned t then VTup (repeat (zero_meas d) (tp_shots t)) else zero_meas d).
Proof.
  intros t tg g results d Hk Hm Hz. unfold jvp_tape, zero_all.
  destruct (Nat.eqb_spec (tp_k t) 0) as [E|_]; [congruence|]. rewrite (forallb_zero tg Hz), Hm. reflexivity.
Qed.

Lemma single_meas_not_multi : forall t d, tp_meas t = [d] -> multi t = false.
Proof. intros t d H. unfold multi. rewrite H. reflexivity. Qed.

Lemma zero_tangent_shortcut_shots : forall t g results d tg shots_rows,
  tp_k t <> O -> tp_meas t = [d] -> partitioned t = true ->
  Forall (eq 0) tg -> length tg = tp_k t ->
  length shots_rows = tp_shots t -> Forall (wf_rows (tp_k t) d) shots_rows ->
  snd g results = VTup (map (enc_jrows d) shots_rows) ->
  snd (jvp_tape t tg g) results = jvp_proc t tg g results.
Proof.
  intros t g results d tg shots_rows Hk Hm Hp Hz Hl Hn Hf Hg.
  rewrite (jvp_tape_zero t tg g results d Hk Hm Hz). unfold jvp_proc.
  rewrite Hp, Hg, (single_meas_not_multi t d Hm). cbn [negb].
  rewrite <- Hn, <- (map_length (enc_jrows d) shots_rows), nth_error_all, map_map, map_length.
  rewrite (all_ok_const _ (zero_meas d)); [reflexivity|].
  eapply Forall_impl; [|exact Hf]. intros rows [Hk' Hr]. cbn beta.
  apply jvp_single_zero; try assumption; [lia|]. apply nonnil_length. congruence.
Qed.

Lemma zero_tangent_shortcut_noshots : forall t g results d tg rows,
  tp_k t <> O -> tp_meas t = [d] -> partitioned t = false ->
  Forall (eq 0) tg -> length tg = tp_k t -> wf_rows (tp_k t) d rows ->
  snd g results = enc_jrows d rows ->
  snd (jvp_tape t tg g) results = jvp_proc t tg g results.
Proof.
  intros t g results d tg rows Hk Hm Hp Hz Hl [Hk' Hr] Hg.
  rewrite (jvp_tape_zero t tg g results d Hk Hm Hz). unfold jvp_proc.
  rewrite Hp, Hg, (single_meas_not_multi t d Hm). cbn [negb].
  symmetry. apply jvp_single_zero; try assumption; [lia|]. apply nonnil_length. congruence.
Qed.

(* ---------- batch processing ---------- *)
Fixpoint run_all (fs : list (nat * (list Z -> res))) (results : list Z) : list res :=
  match fs with [] => [] | (n, f) :: r => f (firstn n results) :: run_all r (skipn n results) end.
Definition offset (t : nat) (fs : list (nat * (list Z -> res))) : nat :=
  fold_right Nat.add O (map fst (firstn t fs)).
Definition iter_or_skip (v : val) : option (list val) := match v with VNone => Some [] | _ => iter_val v end.

(* what one tape's result contributes to the accumulated list: itself (append) or its items (extend) *)
Definition batch_items (ext : bool) (v : val) : option (list val) := if ext then iter_or_skip v else Some [v].

Lemma batch_loop_cons : forall ext n f fs results acc,
  batch_loop ext ((n, f) :: fs) results acc =
  match f (firstn n results) with
  | Err => Err
  | Ok v => match batch_items ext v with
            | Some l => batch_loop ext fs (skipn n results) (acc ++ l)
            | None => Err
            end
  end.
Proof.
  intros. cbn [batch_loop]. destruct (f (firstn n results)) as [[| |]|]; destruct ext; cbn;
    rewrite ?app_nil_r; reflexivity.
Qed.

(* the loop as a whole: any exception or non-iterable entry aborts, otherwise the contributions are
   concatenated in tape order *)
Lemma batch_loop_spec : forall ext fs results acc,
  batch_loop ext fs results acc =
  match all_ok (run_all fs results) with
  | None => Err
  | Some vs => match all_some (map (batch_items ext) vs) with
               | Some ls => Ok (VTup (acc ++ concat ls))
               | None => Err
               end
  end.
Proof.
  intros ext. induction fs as [|[n f] fs IH]; intros results acc.
  - cbn. rewrite app_nil_r. reflexivity.
  - rewrite batch_loop_cons. cbn [run_all all_ok]. destruct (f (firstn n results)) as [v|]; [|reflexivity].
    destruct (batch_items ext v) as [l|] eqn:E; [rewrite IH|];
      (destruct (all_ok (run_all fs (skipn n results))) as [vs|]; [|reflexivity]);
      cbn [map all_some]; rewrite E; [|reflexivity].
    destruct (all_some (map (batch_items ext) vs)); [|reflexivity].
    cbn [concat]. rewrite app_assoc. reflexivity.
Qed.

Lemma run_all_slice : forall fs results t n f, nth_error fs t = Some (n, f) ->
  nth_error (run_all fs results) t = Some (f (firstn n (skipn (offset t fs) results))).
Proof.
  induction fs as [|[n0 f0] fs IH]; intros results t n f H; [destruct t; discriminate|].
  destruct t as [|t].
  - cbn in H. inversion H; subst. reflexivity.
  - cbn [nth_error] in H. cbn [run_all nth_error]. rewrite (IH _ t n f H).
    unfold offset. cbn [firstn map fold_right fst]. rewrite <- skipn_add. reflexivity.
Qed.

Lemma batch_append_ok : forall fs results vs, all_ok (run_all fs results) = Some vs ->
  batch_loop false fs results [] = Ok (VTup vs).
Proof.
  intros fs results vs H. rewrite batch_loop_spec, H. change (batch_items false) with (fun v : val => Some [v]).
  rewrite all_some_map_Some, <- flat_map_concat_map, flat_map_singleton. reflexivity.
Qed.

Lemma batch_err : forall ext fs results, all_ok (run_all fs results) = None ->
  batch_loop ext fs results [] = Err.
Proof. intros ext fs results H. rewrite batch_loop_spec, H. reflexivity. Qed.

Lemma batch_extend_ok : forall fs results vs ls, all_ok (run_all fs results) = Some vs ->
  all_some (map iter_or_skip vs) = Some ls ->
  batch_loop true fs results [] = Ok (VTup (concat ls)).
Proof. intros fs results vs ls H Hi. rewrite batch_loop_spec, H. change (batch_items true) with iter_or_skip. rewrite Hi. reflexivity. Qed.

Lemma batch_extend_not_iterable : forall fs results vs, all_ok (run_all fs results) = Some vs ->
  all_some (map iter_or_skip vs) = None -> batch_loop true fs results [] = Err.
Proof. intros fs results vs H Hi. rewrite batch_loop_spec, H. change (batch_items true) with iter_or_skip. rewrite Hi. reflexivity. Qed.
