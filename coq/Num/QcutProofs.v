(* C24  Lemmas about the circuit-cutting model (QcutModel.v).
   One cut: a 2x2 matrix is half the sum of its Pauli coefficients times the Paulis (wirecut_id), each Pauli
   is the CHANGE_OF_BASIS combination of the prepared states (prepare_resolution); both fragments reduce to
   2x2 operators on the cut wire (upeff, Meff), which gives the one-cut formula and, after unfolding the
   executable contraction on two fragments, one_cut_model.  k parallel cuts: induction on k, peeling the first
   cut wire with ptr (pauli_words_resolve, J_pword); this is proved of the formula `reconstruct`, which is not
   linked to `contract` for k > 1. *)
From Coq Require Import List ZArith QArith Qcanon Bool Ring Permutation.
From PLV Require Import Num.ShadowsModel Num.ShadowsProofs Num.QcutModel.
Import ListNotations.

Lemma chalf_2 : cmul chalf (cadd c1 c1) = c1.
Proof. apply ceqb_eq. vm_compute. reflexivity. Qed.
Lemma chalf_double : forall x, cmul chalf (cadd x x) = x.
Proof. intro x. transitivity (cmul (cmul chalf (cadd c1 c1)) x); [ring | rewrite chalf_2; ring]. Qed.
Lemma oscale_oscale : forall n a b X, oscale n a (oscale n b X) = oscale n (cmul a b) X.
Proof. intros; apply op_ext; intro; rewrite !entry_oscale; ring. Qed.

Lemma pauli_sum_twice : forall A : M2,
  osum 1 (map (fun p => oscale 1 (pairing 1 A (pmat p)) (pmat p)) paulis) = oadd 1 A A.
Proof.
  intros [a b c d]. unfold paulis, pmat, pI, pX, pY, pZ.
  cbn [map osum fold_right pairing oscale oadd ozero q00 q01 q10 q11].
  f_equal; ring [ci_sq].
Qed.
Lemma wirecut_id : forall A : M2,
  oscale 1 chalf (osum 1 (map (fun p => oscale 1 (pairing 1 A (pmat p)) (pmat p)) paulis)) = A.
Proof.
  intros A. rewrite pauli_sum_twice. destruct A as [a b c d]. cbn [oscale oadd q00 q01 q10 q11].
  rewrite !chalf_double. reflexivity.
Qed.
(* the same identity as a bilinear form: tr(A B) = 1/2 sum_P tr(P B) tr(A P) *)
Lemma wirecut_pairing : forall A B : M2,
  cmul chalf (csum (map (fun p => cmul (pairing 1 (pmat p) B) (pairing 1 A (pmat p))) paulis)) = pairing 1 A B.
Proof.
  intros. symmetry. rewrite <- (wirecut_id A) at 1. rewrite pairing_scale_l, pairing_osum_l.
  f_equal. f_equal. apply map_ext; intro p. ring.
Qed.

Lemma prepare_resolution : forall p,
  pmat p = osum 1 (map (fun s => oscale 1 (cob p s) (pstate s)) preps).
Proof. intros [| | |]; apply (oeqb_eq 1); vm_compute; reflexivity. Qed.
Lemma prep_circuits : forall s, density (run_prep (prep_ops s)) = pstate s.
Proof. intros [| | |]; apply (oeqb_eq 1); vm_compute; reflexivity. Qed.
Lemma mc_circuits : forall s, density (run_prep (mc_ops s)) = mc_density s.
Proof. intros [| | | | |]; apply (oeqb_eq 1); vm_compute; reflexivity. Qed.
Lemma pstate_trace1_herm : forall s, otr 1 (pstate s) = c1 /\ oadj 1 (pstate s) = pstate s
                                     /\ omul 1 (pstate s) (pstate s) = pstate s.
Proof. intros [| | |]; repeat split; (apply (oeqb_eq 1) || apply ceqb_eq); vm_compute; reflexivity. Qed.

Lemma pauli_coeff_from_preps : forall (M : M2) p,
  pairing 1 (pmat p) M = csum (map (fun s => cmul (cob p s) (pairing 1 (pstate s) M)) preps).
Proof. intros M p. rewrite (prepare_resolution p) at 1. apply pairing_osum_l. Qed.

(* Both fragments reduce to a 2x2 operator on the cut wire.
   Upstream: tr_envA[ X (OA (x) 1) ]. *)
Fixpoint upeff (m : nat) : QT M2 m -> QT C m -> M2 :=
  match m return QT M2 m -> QT C m -> M2 with
  | O => fun sigma c => oscale 1 c sigma
  | S j => fun x y => oadd 1 (oadd 1 (upeff j (q00 x) (q00 y)) (upeff j (q01 x) (q10 y)))
                             (oadd 1 (upeff j (q10 x) (q01 y)) (upeff j (q11 x) (q11 y)))
  end.
Lemma gpair_upeff : forall (M : M2) m X OA,
  gpair (fun sigma c => cmul c (pairing 1 sigma M)) m X OA = pairing 1 (upeff m X OA) M.
Proof.
  intro M; induction m as [|m IH]; intros X OA; cbn [gpair upeff].
  - rewrite pairing_scale_l. reflexivity.
  - rewrite !pairing_add_l, !IH. reflexivity.
Qed.
Lemma gpair_ext : forall {L1 L2} (f g : L1 -> L2 -> C), (forall x y, f x y = g x y) ->
  forall m X Y, gpair f m X Y = gpair g m X Y.
Proof.
  intros L1 L2 f g H; induction m as [|m IH]; intros X Y.
  - apply H.
  - cbn [gpair]. rewrite !IH. reflexivity.
Qed.
(* Downstream: tr_envB[ (1 (x) tau) W ]. *)
Definition Meff (k : nat) (tau : Op k) (W : Op (S k)) : M2 :=
  mkQ (pairing k tau (q00 W)) (pairing k tau (q01 W)) (pairing k tau (q10 W)) (pairing k tau (q11 W)).
Lemma down_prep_eff : forall k tau W sigma, down_prep k tau W sigma = pairing 1 sigma (Meff k tau W).
Proof.
  intros k tau W [a b c d]. unfold down_prep, kron2, Meff.
  cbn [pairing q00 q01 q10 q11]. rewrite !pairing_scale_l. reflexivity.
Qed.
Lemma up_meas_eff : forall m X OA p, up_meas m X OA p = pairing 1 (upeff m X OA) (pmat p).
Proof. intros. apply gpair_upeff. Qed.
Lemma uncut_eff : forall m k X OA tau W, uncut m k X OA tau W = pairing 1 (upeff m X OA) (Meff k tau W).
Proof.
  intros. rewrite <- gpair_upeff. apply gpair_ext. intros sigma c.
  rewrite pairing_scale_r. f_equal. apply down_prep_eff.
Qed.

Theorem one_cut_formula : forall m k (X : QT M2 m) (OA : QT C m) (tau : Op k) (W : Op (S k)),
  uncut m k X OA tau W
  = cmul chalf (csum (map (fun p => cmul (csum (map (fun s => cmul (cob p s) (down_prep k tau W (pstate s))) preps))
                                         (up_meas m X OA p)) paulis)).
Proof.
  intros. rewrite uncut_eff, <- wirecut_pairing. f_equal. f_equal. apply map_ext; intro p.
  rewrite up_meas_eff, pauli_coeff_from_preps. f_equal. f_equal. apply map_ext; intro s.
  rewrite down_prep_eff. reflexivity.
Qed.

(* the executable contraction model on the two fragments of a single cut *)
Lemma contract_single_cut : forall (u : pl -> C) (d : prep -> C),
  contract 1 [frag_up u; frag_down d]
  = cmul chalf (csum (map (fun p => cmul (csum (map (fun s => cmul (cob p s) (d s)) preps)) (u p)) paulis)).
Proof.
  intros u d. unfold contract, contract_with, term, tens, raw, frag_up, frag_down, GF1, paulis, preps.
  cbn -[cmul cadd cob chalf]. unfold cob, COB. cbn -[cmul cadd chalf cq qz].
  ring.
Qed.

Theorem one_cut_model : forall m k (X : QT M2 m) (OA : QT C m) (tau : Op k) (W : Op (S k)),
  contract 1 [frag_up (up_meas m X OA); frag_down (fun s => down_prep k tau W (pstate s))]
  = uncut m k X OA tau W.
Proof. intros. rewrite contract_single_cut, one_cut_formula. reflexivity. Qed.

Lemma fold_right_perm : forall {A} (f : A -> A -> A) e, (forall x y z, f x (f y z) = f y (f x z)) ->
  forall l l', Permutation l l' -> fold_right f e l = fold_right f e l'.
Proof.
  intros A f e Hf; induction 1; cbn [fold_right].
  - reflexivity.
  - rewrite IHPermutation. reflexivity.
  - apply Hf.
  - etransitivity; eassumption.
Qed.
Lemma csum_perm : forall l l' : list C, Permutation l l' -> csum l = csum l'.
Proof. apply fold_right_perm. intros; ring. Qed.
Lemma cprod_perm : forall l l' : list C, Permutation l l' -> cprod l = cprod l'.
Proof. apply fold_right_perm. intros; ring. Qed.
Theorem contract_order_indep : forall k frs frs' asg',
  Permutation frs frs' -> Permutation (tuples paulis k) asg' ->
  contract_with k asg' frs' = contract k frs.
Proof.
  intros k frs frs' asg' Hf Ha. unfold contract, contract_with. f_equal.
  symmetry. transitivity (csum (map (term frs) asg')).
  - apply csum_perm. apply Permutation_map. exact Ha.
  - f_equal. apply map_ext; intro a. unfold term. apply cprod_perm. apply Permutation_map. exact Hf.
Qed.

Lemma tuples_length : forall {A} (al : list A) n w, In w (tuples al n) -> length w = n.
Proof.
  induction n as [|m IH]; intros w H.
  - destruct H as [<-|[]]; reflexivity.
  - cbn [tuples] in H. apply in_flat_map in H. destruct H as [x [_ H]].
    apply in_map_iff in H. destruct H as [r [<- H]]. cbn [length]. f_equal. apply IH; exact H.
Qed.

(* the prepare side of reconstruct: the k-fold CHANGE_OF_BASIS combination of the product preparations
   is the Pauli word *)
Definition J (m : nat) (w : list pl) (N : Op m) : C :=
  csum (map (fun ss => cmul (cobprod w ss) (pairing m (pprep m ss) N)) (tuples preps m)).
Lemma J_pword : forall m w N, length w = m -> J m w N = pairing m (pword m w) N.
Proof.
  induction m as [|m IH]; intros w N Hw.
  - destruct w; [|discriminate]. unfold J. cbn [tuples map csum fold_right cobprod pprep pword]. ring.
  - destruct w as [|p w]; [discriminate|]. injection Hw as Hw.
    unfold J. cbn [tuples]. rewrite csum_flat_map.
    transitivity (csum (map (fun s => cmul (cob p s) (pairing 1 (pstate s) (Meff m (pword m w) N))) preps)).
    + f_equal. apply map_ext; intro s.
      rewrite <- down_prep_eff. unfold down_prep. rewrite pairing_kron_l, <- (IH w _ Hw).
      unfold J. rewrite <- csum_scale.
      f_equal. apply map_ext; intro ss. cbn [cobprod pprep]. rewrite pairing_kron_l. ring.
    + rewrite <- pauli_coeff_from_preps, <- down_prep_eff. reflexivity.
Qed.

(* sum_P P_ij P_kl = 2 delta_il delta_jk, contracted with the blocks of rho and M *)
Lemma pauli_ptr_sum : forall m (rho M : Op (S m)),
  csum (map (fun p => pairing m (ptr m (pmat p) rho) (ptr m (pmat p) M)) paulis)
  = cadd (pairing (S m) rho M) (pairing (S m) rho M).
Proof.
  intros. unfold paulis, ptr, pmat, pI, pX, pY, pZ. cbn [map csum fold_right q00 q01 q10 q11].
  rewrite !oscale_0, !oscale_1, !oadd_0_l, !oadd_0_r.
  rewrite !pairing_add_l, !pairing_add_r, !pairing_scale_l, !pairing_scale_r. cbn [pairing]. ring [ci_sq].
Qed.
(* tr(rho M) = 2^-m sum_w tr(rho P_w) tr(P_w M) over the Pauli words on m qubits *)
Lemma pauli_words_resolve : forall m (rho M : Op m),
  cmul (halfpow m) (csum (map (fun w => cmul (pairing m rho (pword m w)) (pairing m (pword m w) M))
                              (tuples paulis m)))
  = pairing m rho M.
Proof.
  induction m as [|m IH]; intros rho M.
  - cbn [halfpow tuples map csum fold_right pword pairing]. ring.
  - cbn [halfpow tuples]. rewrite csum_flat_map, cmul_assoc, <- csum_scale.
    rewrite <- (chalf_double (pairing (S m) rho M)), <- pauli_ptr_sum.
    f_equal. f_equal. apply map_ext; intro p. rewrite <- IH.
    f_equal. f_equal. apply map_ext; intro w. cbn [pword]. rewrite pairing_kron_l, pairing_kron_r. reflexivity.
Qed.

Theorem reconstruct_pairing : forall n (rho M : Op n), reconstruct n rho M = pairing n rho M.
Proof.
  intros. rewrite <- pauli_words_resolve. unfold reconstruct. f_equal. f_equal.
  apply map_ext_in; intros w Hw. f_equal. apply (J_pword n w M). apply (tuples_length _ _ _ Hw).
Qed.

(* the two states prepared for each measured letter are its eigenprojectors *)
Lemma mc_eigenprojectors :
  oadd 1 (mc_density M0) (mc_density M1) = pI /\ osub 1 (mc_density MP) (mc_density MM) = pX
  /\ osub 1 (mc_density MIP) (mc_density MIM) = pY /\ osub 1 (mc_density M0) (mc_density M1) = pZ.
Proof. repeat split; apply (oeqb_eq 1); vm_compute; reflexivity. Qed.
Lemma mc_group : forall t : pl -> C,
  osum 1 (map (fun x : pl * mcstate * C => oscale 1 (cmul (snd x) (t (fst (fst x)))) (mc_density (snd (fst x)))) mc_settings)
  = oscale 1 chalf (osum 1 (map (fun p => oscale 1 (t p) (pmat p)) paulis)).
Proof.
  intro t. destruct mc_eigenprojectors as (EI & EX & EY & EZ).
  unfold mc_settings, MC_MEAS, MC_STATES, MC_EVALS, paulis.
  cbn [combine map osum fold_right fst snd pmat].
  rewrite <- EI, <- EX, <- EY, <- EZ. unfold osub. omod.
Qed.
Theorem mc_identity : forall A : M2,
  osum 1 (map (fun x : pl * mcstate * C =>
                 oscale 1 (cmul (snd x) (pairing 1 A (pmat (fst (fst x))))) (mc_density (snd (fst x))))
              mc_settings)
  = A.
Proof. intros. rewrite (mc_group (fun p => pairing 1 A (pmat p))). apply wirecut_id. Qed.

Lemma wirecut_prepare_form : forall A : M2,
  oscale 1 chalf
    (osum 1 (map (fun p => oscale 1 (pairing 1 A (pmat p))
                                  (osum 1 (map (fun s => oscale 1 (cob p s) (pstate s)) preps))) paulis))
  = A.
Proof.
  intros. symmetry. rewrite <- (wirecut_id A) at 1.
  apply (f_equal (oscale 1 chalf)), (f_equal (osum 1)), map_ext; intro p.
  rewrite <- prepare_resolution. reflexivity.
Qed.

Lemma k_cuts_trace : forall k (rho M : Op k), reconstruct k rho M = otr k (omul k rho M).
Proof. intros. rewrite otr_omul. apply reconstruct_pairing. Qed.
Lemma prepare_settings_ok : forall s,
  density (run_prep (prep_ops s)) = pstate s
  /\ otr 1 (pstate s) = c1 /\ oadj 1 (pstate s) = pstate s /\ omul 1 (pstate s) (pstate s) = pstate s.
Proof. intro s; split; [apply prep_circuits | apply pstate_trace1_herm]. Qed.
