(* C63  Soundness of the Schroedinger checker, schedules, and the parameter-routing theorems. *)
From Coq Require Import List Arith ZArith QArith Qreals Reals Lia Bool Lra.
From Coquelicot Require Import Coquelicot.
From PLV Require Import Alg.Poly Alg.PolyEval Alg.Angles Alg.DerivDef Alg.Deriv Lin.Vec Lin.VecHom Lin.PVec Lin.PVecSound Num.PulseModel.
Import ListNotations.
Local Close Scope Q_scope.
Local Open Scope R_scope.

Notation evm rho := (map (map (peval rho))).
Definition c_scale (a : C) (M : cmat) : cmat := map (map (Cmult a)) M.
Definition minus_i : C := Copp Ci.
Definition cnth (M : cmat) (r c : nat) : C := mnth (RtoC 0) M r c.

(* "U (a matrix of functions of the real variable theta_j, the other variables fixed by th) solves
    dU/d theta_j = -i H U  entrywise at every real x, and equals U0 at theta_j = 0" *)
Definition sol_sem (hz D : Z) (j : nat) (H U U0 : pmat) : Prop :=
  forall th : list R,
    (forall x r c,
        Cderive (fun y => cnth (evm (aenv hz D (upd th j y)) U) r c) x
                (cnth (c_scale minus_i (c_mmul (evm (aenv hz D (upd th j x)) H) (evm (aenv hz D (upd th j x)) U))) r c))
    /\ evm (aenv hz D (upd th j 0)) U = evm (aenv hz D (upd th j 0)) U0.

Lemma cnth_evm rho M r c : cnth (evm rho M) r c = peval rho (mnth pzero M r c).
Proof. unfold cnth. symmetry. apply (mnth_hom poly C pzero (RtoC 0) (peval rho)). reflexivity. Qed.

Lemma mnth_mderiv hz D j U r c : mnth pzero (mderiv hz D j U) r c = pderiv hz D j (mnth pzero U r c).
Proof. unfold mderiv. symmetry. apply (mnth_hom poly poly pzero pzero (pderiv hz D j)). reflexivity. Qed.

(* erasing the exponent of a variable whose angle is 0 does not change the value *)
Lemma elin_ezero a e : forall k m, a (k + m)%nat = 0 -> elin a k (ezero m e) = elin a k e.
Proof.
  induction e as [|x e IH]; intros k m Hz; [destruct m; reflexivity|].
  destruct m as [|m]; cbn [ezero elin].
  - rewrite Nat.add_0_r in Hz. rewrite Hz. ring.
  - rewrite IH; [reflexivity|]. rewrite <- Hz. f_equal. lia.
Qed.

Lemma ang_upd_zero hz D th j : ang hz D (upd th j 0) (S j) = 0.
Proof. cbn [ang]. rewrite nth_upd_same. unfold Rdiv. ring. Qed.

Lemma peval_pat0 hz D th j p : peval (aenv hz D (upd th j 0)) (pat0 j p) = peval (aenv hz D (upd th j 0)) p.
Proof.
  induction p as [|t p IH]; [reflexivity|].
  unfold pat0. cbn [map]. fold (pat0 j p).
  change (peval ?r (?a :: ?q)) with (Cplus (teval r a) (peval r q)).
  rewrite IH. f_equal. unfold teval. cbn [fst snd]. f_equal.
  rewrite !eeval_cis. f_equal. apply elin_ezero. cbn [Nat.add]. apply ang_upd_zero.
Qed.

Lemma evm_mat0 hz D th j U : evm (aenv hz D (upd th j 0)) (mat0 j U) = evm (aenv hz D (upd th j 0)) U.
Proof.
  unfold mat0. rewrite map_map. apply map_ext. intros r. rewrite map_map. apply map_ext. intros p. apply peval_pat0.
Qed.

Section Sound.
  Variables hz D : Z.
  Hypothesis Hhz : (0 < hz)%Z.
  Hypothesis Heven : Z.even hz = true.
  Hypothesis HD : D <> 0%Z.

  Lemma peval_minus_i th : peval (aenv hz D th) (p_minus_i hz) = minus_i.
  Proof.
    unfold p_minus_i, minus_i.
    change (peval ?r [?a]) with (Cplus (teval r a) (RtoC 0)).
    unfold teval. cbn [fst snd]. rewrite eeval_cis. cbn [elin ang].
    replace (IZR (hz / 2) * (PI / IZR hz) + 0) with (IZR (hz / 2) * (PI / IZR hz)) by ring.
    rewrite (cis_half hz Hhz Heven).
    unfold q2c, Q2R. cbn [Qnum Qden]. unfold Ci, Copp, Cplus, Cmult, RtoC. cbn [fst snd Ropp].
    apply injective_projections; cbn [fst snd]; field.
  Qed.

  Lemma evm_rhs th H U :
    evm (aenv hz D th) (schrod_rhs hz H U) = c_scale minus_i (c_mmul (evm (aenv hz D th) H) (evm (aenv hz D th) U)).
  Proof.
    pose proof (aenv_good hz D th Hhz) as G.
    unfold schrod_rhs, c_scale. rewrite <- (ev_mmul hz _ G). rewrite !map_map. apply map_ext. intros r.
    rewrite !map_map. apply map_ext. intros p. rewrite (peval_nmul hz _ G), peval_minus_i. reflexivity.
  Qed.
End Sound.

Lemma solves_schrodinger_true hz D j H U U0 : solves_schrodinger hz D j H U U0 = true ->
  (0 < hz)%Z /\ Z.even hz = true /\ D <> 0%Z
  /\ meqb hz (mderiv hz D j U) (schrod_rhs hz H U) = true /\ meqb hz (mat0 j U) U0 = true.
Proof. unfold solves_schrodinger. rewrite !andb_true_iff, Z.ltb_lt, negb_true_iff, Z.eqb_neq. tauto. Qed.

Theorem solves_schrodinger_sound hz D j H U U0 :
  solves_schrodinger hz D j H U U0 = true -> sol_sem hz D j H U U0.
Proof.
  intros X. apply solves_schrodinger_true in X as (Hhz & Heven & HD & E1 & E0).
  intros th. split.
  - intros x r c.
    apply (Cderive_ext (fun y => peval (aenv hz D (upd th j y)) (mnth pzero U r c))).
    + intros y. symmetry. apply cnth_evm.
    + pose proof (aenv_good hz D (upd th j x) Hhz) as G.
      rewrite <- (evm_rhs hz D Hhz Heven), <- (meqb_sound hz _ G _ _ E1), cnth_evm, mnth_mderiv.
      apply pderiv_sound; assumption.
  - pose proof (aenv_good hz D (upd th j 0) Hhz) as G.
    rewrite <- (meqb_sound hz _ G _ _ E0). symmetry. apply evm_mat0.
Qed.

Fixpoint sched_sem (hz D : Z) (k : nat) (V0 : pmat) (ws : list (pmat * pmat)) : Prop :=
  match ws with
  | [] => True
  | (H, U) :: r =>
      let V := p_mmul hz U V0 in
      sol_sem hz D k H V V0
      /\ (forall th : list R, evm (aenv hz D th) V = c_mmul (evm (aenv hz D th) U) (evm (aenv hz D th) V0))
      /\ sched_sem hz D (S k) V r
  end.

Theorem piecewise_compose hz D ws : forall k V0,
  sched_ok hz D k V0 ws = true -> sched_sem hz D k V0 ws.
Proof.
  induction ws as [|[H U] ws IH]; intros k V0 X; [exact I|].
  cbn [sched_ok] in X. apply andb_prop in X as [X1 X2]. cbn [sched_sem]. split; [|split].
  - apply solves_schrodinger_sound. exact X1.
  - intros th. apply solves_schrodinger_true in X1 as [Hhz _]. apply (ev_mmul hz _ (aenv_good hz D th Hhz)).
  - apply IH. exact X2.
Qed.

(* a time shift of the window does not matter for a time-independent generator *)
Lemma is_derive_shift (g : R -> R) s x l : is_derive g (x - s) l -> is_derive (fun y => g (y - s)) x l.
Proof.
  intros A. replace l with (scal (1 - 0) l) by (unfold scal; cbn; unfold mult; cbn; ring).
  apply (is_derive_comp g (fun y => y - s)); [exact A|].
  apply (is_derive_minus (V:=R_NormedModule)); [apply (is_derive_id (K:=R_AbsRing)) | apply (is_derive_const (V:=R_NormedModule))].
Qed.
Lemma Cderive_shift (f : R -> C) s x l : Cderive f (x - s) l -> Cderive (fun y => f (y - s)) x l.
Proof. intros [A B]. split; [exact (is_derive_shift _ s x _ A) | exact (is_derive_shift _ s x _ B)]. Qed.

Local Close Scope R_scope.
Local Open Scope Z_scope.

Definition ph_wf (h : ph) : Prop :=
  List.Forall (fun t => is_call (fst t) = false) (fst h) /\ List.Forall (fun t => is_call (fst t) = true) (snd h).

Lemma filter_all {A} (f : A -> bool) l : List.Forall (fun x => f x = true) l -> filter f l = l.
Proof. induction 1 as [|x l H _ IH]; [reflexivity|]. cbn [filter]. rewrite H, IH. reflexivity. Qed.
Lemma filter_none {A} (f : A -> bool) l : List.Forall (fun x => f x = false) l -> filter f l = [].
Proof. induction 1 as [|x l H _ IH]; [reflexivity|]. cbn [filter]. rewrite H, IH. reflexivity. Qed.

Lemma Forall_negb {A} (k : A -> bool) b l : List.Forall (fun t => k t = b) l -> List.Forall (fun t => negb (k t) = negb b) l.
Proof. apply List.Forall_impl. intros t ->. reflexivity. Qed.

Lemma ph_make_wf ts : ph_wf (ph_make ts).
Proof.
  unfold ph_wf, ph_make. cbn [fst snd]. split; apply Forall_forall; intros t Ht; apply filter_In in Ht as [_ Ht].
  - apply negb_true_iff in Ht. exact Ht.
  - exact Ht.
Qed.

Lemma partition_parts {A} (k : A -> bool) f1 p1 f2 p2 :
  List.Forall (fun t => k t = false) f1 -> List.Forall (fun t => k t = true) p1 ->
  List.Forall (fun t => k t = false) f2 -> List.Forall (fun t => k t = true) p2 ->
  (filter (fun t => negb (k t)) ((f1 ++ p1) ++ (f2 ++ p2)), filter k ((f1 ++ p1) ++ (f2 ++ p2))) = (f1 ++ f2, p1 ++ p2).
Proof.
  intros F1 P1 F2 P2. rewrite !filter_app.
  rewrite (filter_all _ f1 (Forall_negb k false f1 F1)), (filter_all _ f2 (Forall_negb k false f2 F2)),
          (filter_none _ p1 (Forall_negb k true p1 P1)), (filter_none _ p2 (Forall_negb k true p2 P2)).
  rewrite (filter_none k f1 F1), (filter_none k f2 F2), (filter_all k p1 P1), (filter_all k p2 P2).
  rewrite !app_nil_r. reflexivity.
Qed.

Lemma ph_make_parts (f1 p1 f2 p2 : list pterm) :
  List.Forall (fun t : pterm => is_call (fst t) = false) f1 -> List.Forall (fun t : pterm => is_call (fst t) = true) p1 ->
  List.Forall (fun t : pterm => is_call (fst t) = false) f2 -> List.Forall (fun t : pterm => is_call (fst t) = true) p2 ->
  ph_make ((f1 ++ p1) ++ (f2 ++ p2)) = (f1 ++ f2, p1 ++ p2).
Proof. intros F1 P1 F2 P2. exact (partition_parts (fun t : pterm => is_call (fst t)) f1 p1 f2 p2 F1 P1 F2 P2). Qed.

Lemma route_params_app t1 : forall p1 l1 t2 p2,
  route_params t1 p1 = Some l1 ->
  route_params (t1 ++ t2) (p1 ++ p2) = match route_params t2 p2 with Some l2 => Some (l1 ++ l2) | None => None end.
Proof.
  induction t1 as [|[c op] t1 IH]; intros p1 l1 t2 p2 H.
  - destruct p1; [|discriminate]. injection H as <-. cbn [app]. destruct (route_params t2 p2); reflexivity.
  - destruct p1 as [|p p1]; [destruct c; discriminate|].
    cbn [app route_params] in *. destruct c; destruct (route_params t1 p1) as [l|] eqn:E; try discriminate;
      injection H as <-; rewrite (IH _ _ t2 p2 E); destruct (route_params t2 p2); reflexivity.
Qed.

Lemma ph_call_Some h ps f r : ph_call h ps = Some (f, r) -> route_params (snd h) ps = Some r /\ f = fixed_values (fst h).
Proof. unfold ph_call. destruct (route_params (snd h) ps); [|discriminate]. intros E. injection E as <- <-. auto. Qed.

Lemma ph_add_parts a b : ph_wf a -> ph_wf b -> ph_add a b = (fst a ++ fst b, snd a ++ snd b).
Proof. intros [Fa Pa] [Fb Pb]. apply ph_make_parts; assumption. Qed.

(* H = H_a + H_b takes the concatenation of the two parameter lists: the first len(params_a) entries reach the
   coefficient functions of H_a (in their order), the rest those of H_b; fixed terms are concatenated. *)
Theorem ph_add_call a b pa pb fa ra fb rb :
  ph_wf a -> ph_wf b -> ph_call a pa = Some (fa, ra) -> ph_call b pb = Some (fb, rb) ->
  ph_call (ph_add a b) (pa ++ pb) = Some (fa ++ fb, ra ++ rb).
Proof.
  intros Wa Wb Ca Cb. apply ph_call_Some in Ca as [Ea ->], Cb as [Eb ->].
  rewrite (ph_add_parts a b Wa Wb). unfold ph_call, fixed_values. cbn [fst snd].
  rewrite (route_params_app _ _ _ (snd b) pb Ea), Eb, map_app. reflexivity.
Qed.

Definition zscale (c : Z) (x : Z * Z) : Z * Z := (c * fst x, snd x).

Lemma route_params_scale c (ts : list pterm) : forall ps l,
  List.Forall (fun t : pterm => is_call (fst t) = true) ts -> route_params ts ps = Some l ->
  route_params (map (fun t : pterm => (cscale c (fst t), snd t)) ts) ps = Some (map (zscale c) l).
Proof.
  induction ts as [|[k op] ts IH]; intros ps l F H.
  - destruct ps; [|discriminate]. injection H as <-. reflexivity.
  - inversion F as [|? ? Hk F']; subst. destruct k as [v|m]; [discriminate|].
    destruct ps as [|p ps]; [discriminate|]. cbn [map route_params fst snd cscale] in *.
    destruct (route_params ts ps) as [l'|] eqn:E; [|discriminate]. injection H as <-.
    rewrite (IH ps l' F' E). cbn [map]. unfold zscale. cbn [fst snd]. rewrite Z.mul_assoc. reflexivity.
Qed.

Lemma is_call_cscale c x : is_call (cscale c x) = is_call x.
Proof. destruct x; reflexivity. Qed.

Lemma Forall_is_call_scale c b (ts : list pterm) : List.Forall (fun t : pterm => is_call (fst t) = b) ts ->
  List.Forall (fun t : pterm => is_call (fst t) = b) (map (fun t : pterm => (cscale c (fst t), snd t)) ts).
Proof. intros F. apply Forall_map. eapply List.Forall_impl; [|exact F]. intros t. cbn [fst]. rewrite is_call_cscale. auto. Qed.

Lemma fixed_values_scale c (ts : list pterm) : List.Forall (fun t : pterm => is_call (fst t) = false) ts ->
  fixed_values (map (fun t : pterm => (cscale c (fst t), snd t)) ts) = map (zscale c) (fixed_values ts).
Proof.
  intros F. unfold fixed_values. rewrite !map_map. apply map_ext_in. intros [[v|m] op] Hin; [reflexivity|].
  rewrite List.Forall_forall in F. discriminate (F _ Hin).
Qed.

Lemma ph_scale_parts c a : ph_wf a ->
  ph_scale c a = (map (fun t : pterm => (cscale c (fst t), snd t)) (fst a), map (fun t : pterm => (cscale c (fst t), snd t)) (snd a)).
Proof.
  intros [Fa Pa].
  pose proof (ph_make_parts _ _ [] [] (Forall_is_call_scale c _ _ Fa) (Forall_is_call_scale c _ _ Pa)
                (List.Forall_nil _) (List.Forall_nil _)) as E.
  rewrite !app_nil_r in E. exact E.
Qed.

(* c * H: every coefficient (fixed value or function value) is multiplied by c; the routing is unchanged *)
Theorem ph_scale_call c a pa fa ra :
  ph_wf a -> ph_call a pa = Some (fa, ra) ->
  ph_call (ph_scale c a) pa = Some (map (zscale c) fa, map (zscale c) ra).
Proof.
  intros W Ca. apply ph_call_Some in Ca as [Ea ->]. rewrite (ph_scale_parts c a W). destruct W as [Fa Pa].
  unfold ph_call. cbn [fst snd]. rewrite (route_params_scale c _ _ _ Pa Ea), (fixed_values_scale c _ Fa). reflexivity.
Qed.

(* hardware Hamiltonians: the reorder functions act block by block *)
Inductive block :=
| BF (f : Z)                                   (* a plain callable coefficient: one parameter *)
| BAP2 (fa fp : Z)                             (* drive with callable amplitude and phase: two parameters *)
| BAP1 (a p : harg).                           (* drive with exactly one of amplitude / phase callable: one parameter *)
Definition block_ok (b : block) : Prop :=
  match b with BAP1 a p => xorb (acall a) (acall p) = true | _ => True end.
Definition block_coeffs (b : block) : list hcoef :=
  match b with
  | BF f => [HC_F f]
  | BAP2 fa fp => [HC_AP (ACall fa) (ACall fp); HC_AP (ACall fa) (ACall fp)]
  | BAP1 a p => [HC_AP a p; HC_AP a p]
  end.
Definition block_arity (b : block) : nat := match b with BAP2 _ _ => 2 | _ => 1 end.
Definition block_route (b : block) (ps : list Z) : list pval :=
  match b, ps with
  | BF _, [x] => [POne x]
  | BAP2 _ _, [x; y] => [PMany [x; y]; PMany [x; y]]     (* amplitude parameter first, phase parameter second, to BOTH the cos and the sin coefficient *)
  | BAP1 _ _, [x] => [POne x; POne x]
  | _, _ => []
  end.
Fixpoint routes (bs : list block) (pss : list (list Z)) : list pval :=
  match bs, pss with b :: bs', ps :: pss' => block_route b ps ++ routes bs' pss' | _, _ => [] end.

Theorem reorder_ap_blocks bs : forall pss i,
  List.Forall block_ok bs -> List.Forall2 (fun b ps => length ps = block_arity b) bs pss ->
  reorder_ap i i (concat (map block_coeffs bs)) (concat pss) = Some (routes bs pss).
Proof.
  induction bs as [|b bs IH]; intros pss i Ok F2; inversion F2 as [|? ps ? pss' Hl F2']; subst; [reflexivity|].
  inversion Ok as [|? ? Okb Ok']; subst.
  cbn [map concat routes].
  (* a drive contributes two coefficients; the second is passed over because coeff_idx has advanced by 2 *)
  assert (N : Nat.eqb (S i) (i + 2) = false) by (apply Nat.eqb_neq; lia).
  assert (E1 : (i + 1 = S i)%nat) by lia. assert (E2 : (i + 2 = S (S i))%nat) by lia.
  destruct b as [f|fa fp|a p]; cbn [block_arity] in Hl.
  - destruct ps as [|x [|? ?]]; try discriminate. cbn [block_coeffs app reorder_ap block_route].
    rewrite Nat.eqb_refl, E1, (IH pss' (S i) Ok' F2'). reflexivity.
  - destruct ps as [|x [|y [|? ?]]]; try discriminate. cbn [block_coeffs app reorder_ap block_route acall andb].
    rewrite Nat.eqb_refl, N, E2, (IH pss' (S (S i)) Ok' F2'). reflexivity.
  - destruct ps as [|x [|? ?]]; try discriminate. cbn [block_ok] in Okb. cbn [block_coeffs app reorder_ap block_route].
    rewrite Nat.eqb_refl, N, E2, (IH pss' (S (S i)) Ok' F2'). destruct (acall a), (acall p); try discriminate; reflexivity.
Qed.

(* transmon: every AmplitudeAndPhaseAndFreq coefficient receives the slice of as many parameters as it has callables *)
Definition apf_arity (c : hcoef) : nat := match c with HC_APF a p f => ncall3 a p f | _ => 1 end.
Definition apf_route (c : hcoef) (ps : list Z) : pval :=
  match c with HC_APF _ _ _ => PMany ps | _ => POne (hd 0 ps) end.
Fixpoint apf_routes (cs : list hcoef) (pss : list (list Z)) : list pval :=
  match cs, pss with c :: cs', ps :: pss' => apf_route c ps :: apf_routes cs' pss' | _, _ => [] end.

Theorem reorder_apf_blocks cs : forall pss,
  List.Forall2 (fun c ps => length ps = apf_arity c) cs pss ->
  reorder_apf cs (concat pss) = Some (apf_routes cs pss).
Proof.
  induction cs as [|c cs IH]; intros pss F2; inversion F2 as [|? ps ? pss' Hl F2']; subst; [reflexivity|].
  cbn [concat apf_routes]. destruct c as [f|a p|a p f]; cbn [apf_arity] in Hl.
  1, 2: destruct ps as [|x [|? ?]]; try discriminate; cbn [app reorder_apf apf_route hd]; rewrite (IH pss' F2'); reflexivity.
  (* the slice of length ncall3 a p f is exactly ps *)
  cbn [reorder_apf apf_route]. rewrite <- Hl, skipn_app, skipn_all, firstn_app, firstn_all, Nat.sub_diag.
  cbn [skipn firstn app]. rewrite app_nil_r, (IH pss' F2'). reflexivity.
Qed.

(* documented orders as instances *)
Example rydberg_drive_all_callable fa fp fd a p d :
  hden (HRyd (ACall fa) (ACall fp) (ACall fd) true true)
    = Some (RAP, 0%nat, [HC_AP (ACall fa) (ACall fp); HC_AP (ACall fa) (ACall fp); HC_F fd], false)
  /\ hcalls (RAP, 0%nat, [HC_AP (ACall fa) (ACall fp); HC_AP (ACall fa) (ACall fp); HC_F fd], false) [a; p; d]
     = Some [(fa, POne a); (fp, POne p); (fa, POne a); (fp, POne p); (fd, POne d)].
Proof. split; reflexivity. Qed.
Example transmon_drive_amp_freq fa ff a f :
  hcalls (RAPF, 0%nat, [HC_APF (ACall fa) AConst (ACall ff)], false) [a; f] = Some [(fa, POne a); (ff, POne f)].
Proof. reflexivity. Qed.

Local Close Scope Z_scope.
Theorem piecewise_two hz D H1 U1 H2 U2 V0 :
  sched_ok hz D 0 V0 [(H1, U1); (H2, U2)] = true ->
  let V1 := p_mmul hz U1 V0 in let V2 := p_mmul hz U2 V1 in
  sol_sem hz D 0 H1 V1 V0 /\ sol_sem hz D 1 H2 V2 V1
  /\ (forall th : list R, evm (aenv hz D th) V2
        = c_mmul (evm (aenv hz D th) U2) (c_mmul (evm (aenv hz D th) U1) (evm (aenv hz D th) V0))).
Proof.
  intros X. apply piecewise_compose in X. cbn [sched_sem] in X.
  destruct X as [S1 [M1 [S2 [M2 _]]]]. cbv zeta. split; [exact S1|]. split; [exact S2|].
  intros th. rewrite M2, M1. reflexivity.
Qed.
