(* Lemmas for C68 (kernel utilities).
   square_kernel_matrix is a sequence of list assignments; apply_writes_spec reads the final list off the SET of
   assignments (every write to a position carries the same value), so their order never enters, and sq_entry
   is the resulting entry.  polarity is then a double sum over sq_entry.  The post-processing functions are
   treated on a spectral form K = V diag(w) V^T supplied as a hypothesis (eigh is an oracle): the quadratic
   form of V diag(c) V^T is sum_j c_j (x^T V)_j^2, and each function replaces w by f(w). *)
From Coq Require Import List QArith Qabs Bool Arith Lia Setoid Morphisms.
From PLV Require Import Alg.ListFacts Num.KernelsModel.
Import ListNotations.
Open Scope Q_scope.

Lemma firstn_len_app {A} (a b : list A) m : length a = m -> firstn m (a ++ b) = a.
Proof. intros <-. apply firstn_app_exact. Qed.
Lemma skipn_len_app {A} (a b : list A) m : length a = m -> skipn m (a ++ b) = b.
Proof. intros <-. apply skipn_app_exact. Qed.

Section KM.
Context {X : Type} (k : X -> X -> Q).

Lemma flat_length (X1 X2 : list X) :
  length (flat_map (fun x => map (fun y => k x y) X2) X1) = (length X1 * length X2)%nat.
Proof. induction X1; simpl; [reflexivity|]. rewrite app_length, map_length, IHX1. reflexivity. Qed.

Lemma chunks_flat (X1 X2 : list X) :
  chunks (length X1) (length X2) (flat_map (fun x => map (fun y => k x y) X2) X1)
  = map (fun x => map (fun y => k x y) X2) X1.
Proof.
  induction X1; simpl; [reflexivity|].
  rewrite firstn_len_app, skipn_len_app by apply map_length. rewrite IHX1. reflexivity.
Qed.

Lemma kernel_matrix_rows (X1 X2 : list X) : X1 <> [] -> X2 <> [] ->
  kernel_matrix k X1 X2 = Some (map (fun x => map (fun y => k x y) X2) X1).
Proof.
  intros H1 H2. unfold kernel_matrix.
  destruct (flat_map (fun x => map (fun y => k x y) X2) X1) eqn:E.
  - destruct X1 as [|x X1]; [congruence|]. destruct X2 as [|y X2]; [congruence|]. discriminate.
  - rewrite <- E. unfold reshape2. rewrite flat_length, Nat.eqb_refl, chunks_flat. reflexivity.
Qed.

Lemma kernel_matrix_entry (X1 X2 : list X) : X1 <> [] -> X2 <> [] ->
  exists M, kernel_matrix k X1 X2 = Some M /\ length M = length X1 /\
    (forall i, (i < length X1)%nat -> length (nth i M []) = length X2) /\
    forall d1 d2 i j, (i < length X1)%nat -> (j < length X2)%nat ->
      nth j (nth i M []) 0 = k (nth i X1 d1) (nth j X2 d2).
Proof.
  intros H1 H2. eexists. split; [apply kernel_matrix_rows; assumption|].
  split; [apply map_length|]. split.
  - intros i Hi. destruct X1 as [|x0 X1]; [congruence|].
    rewrite (nth_map_lt _ _ _ x0) by exact Hi. apply map_length.
  - intros d1 d2 i j Hi Hj.
    rewrite (nth_map_lt _ _ _ d1) by exact Hi.
    rewrite (nth_map_lt _ _ _ d2) by exact Hj. reflexivity.
Qed.

Lemma kernel_matrix_empty (X1 X2 : list X) : X1 = [] \/ X2 = [] -> kernel_matrix k X1 X2 = None.
Proof.
  intros [-> | ->]; unfold kernel_matrix; simpl; [reflexivity|].
  replace (flat_map (fun x => @nil Q) X1) with (@nil Q); [reflexivity|].
  induction X1; simpl; auto.
Qed.
End KM.

Lemma upd_length l p v : length (upd l p v) = length l.
Proof. revert p. induction l; intros [|p]; simpl; auto. Qed.

Lemma nth_error_upd_same l p v : (p < length l)%nat -> nth_error (upd l p v) p = Some (Some v).
Proof.
  revert p. induction l; intros [|p] H; simpl in *; try lia; [reflexivity|]. apply IHl. lia.
Qed.

Lemma nth_error_upd_other l p q v : p <> q -> nth_error (upd l p v) q = nth_error l q.
Proof.
  revert p q. induction l; intros [|p] [|q] H; simpl; try reflexivity; try congruence.
  apply IHl. congruence.
Qed.

Lemma apply_writes_length ws : forall m, length (apply_writes m ws) = length m.
Proof.
  unfold apply_writes. induction ws; intros m; simpl; [reflexivity|]. rewrite IHws. apply upd_length.
Qed.

Lemma apply_writes_app m ws ws' : apply_writes (apply_writes m ws) ws' = apply_writes m (ws ++ ws').
Proof. symmetry. apply fold_left_app. Qed.

(* if every assignment to position q carries the value v, and either the list already holds v at q or q is
   assigned at least once, the list holds v at q afterwards (no reasoning about the ORDER of assignments) *)
Lemma apply_writes_spec ws : forall m q v, (q < length m)%nat ->
  (forall w, In w ws -> fst w = q -> snd w = v) ->
  (nth_error m q = Some (Some v) \/ exists w, In w ws /\ fst w = q) ->
  nth_error (apply_writes m ws) q = Some (Some v).
Proof.
  induction ws as [|w ws IH]; intros m q v Hq Hc Hd.
  - destruct Hd as [H | [w [[] _]]]. exact H.
  - change (apply_writes m (w :: ws)) with (apply_writes (upd m (fst w) (snd w)) ws).
    apply IH.
    + rewrite upd_length. exact Hq.
    + intros w' Hin. apply Hc. right. exact Hin.
    + destruct (Nat.eq_dec (fst w) q) as [E | E].
      * left. rewrite E. rewrite nth_error_upd_same by exact Hq.
        rewrite (Hc w (or_introl eq_refl) E). reflexivity.
      * destruct Hd as [H | [w' [[<- | Hin] Hf]]].
        -- left. rewrite nth_error_upd_other by exact E. exact H.
        -- congruence.
        -- right. exists w'. split; assumption.
Qed.

Lemma all_some_spec (m : arr) :
  (forall p, (p < length m)%nat -> exists v, nth_error m p = Some (Some v)) ->
  exists flat, all_some m = Some flat /\ length flat = length m /\
               forall p, (p < length m)%nat -> nth_error m p = Some (Some (nth p flat 0)).
Proof.
  induction m as [|x m IH]; intros H.
  - exists []. split; [reflexivity|]. split; [reflexivity|]. intros p Hp. inversion Hp.
  - destruct (H O) as [v Hv]; [simpl; lia|]. simpl in Hv. injection Hv as ->.
    destruct IH as [flat [E [L N]]].
    { intros p Hp. apply (H (S p)). simpl. lia. }
    exists (v :: flat). simpl. rewrite E. split; [reflexivity|]. split; [simpl; lia|].
    intros [|p] Hp; simpl; [reflexivity|]. apply N. lia.
Qed.

Lemma nth_chunks n : forall m l i j, length l = (n * m)%nat -> (i < n)%nat -> (j < m)%nat ->
  nth j (nth i (chunks n m l) []) 0 = nth (m * i + j) l 0.
Proof.
  induction n; intros m l i j L Hi Hj; [lia|].
  destruct i as [|i]; simpl chunks; cbn [nth].
  - rewrite Nat.mul_0_r, Nat.add_0_l.
    rewrite <- (firstn_skipn m l) at 2.
    rewrite app_nth1; [reflexivity|]. rewrite firstn_length. simpl in L. lia.
  - rewrite IHn; try lia.
    + rewrite <- (firstn_skipn m l) at 2.
      rewrite app_nth2; rewrite firstn_length; simpl in L; [|nia].
      f_equal. rewrite Nat.min_l by lia. nia.
    + rewrite skipn_length. simpl in L. lia.
Qed.

Lemma chunks_length n : forall m l, length (chunks n m l) = n.
Proof. induction n; intros; simpl; auto. Qed.

Lemma chunks_row_length n : forall m l i, length l = (n * m)%nat -> (i < n)%nat ->
  length (nth i (chunks n m l) []) = m.
Proof.
  induction n; intros m l i L Hi; [lia|]. destruct i; simpl.
  - rewrite firstn_length. simpl in L. lia.
  - apply IHn; [|lia]. rewrite skipn_length. simpl in L. lia.
Qed.

Lemma nth_transpose n R i j : (i < n)%nat -> (j < length R)%nat ->
  nth j (nth i (transpose n R) []) 0 = nth i (nth j R []) 0.
Proof.
  intros Hi Hj. unfold transpose. rewrite nth_map_seq0 by exact Hi.
  rewrite (nth_map_lt _ _ _ []) by exact Hj. reflexivity.
Qed.

Lemma decode_pos N i j a b : (j < N)%nat -> (b < N)%nat -> (N * i + j = N * a + b)%nat -> i = a /\ j = b.
Proof. intros Hj Hb E. assert (i = a) by nia. subst. split; [reflexivity|lia]. Qed.

Section SQ.
Context {X : Type} (k : X -> X -> Q) (d : X).

(* the specification: upper triangle = kernel, lower triangle = the MIRRORED upper value (the kernel is never
   called with i > j), diagonal = 1 (assume_normalized_kernel) or kernel(x_i, x_i) *)
Definition sq_entry (xs : list X) (an : bool) (i j : nat) : Q :=
  if (i <? j)%nat then k (nth i xs d) (nth j xs d)
  else if (j <? i)%nat then k (nth j xs d) (nth i xs d)
  else if an then 1 else k (nth i xs d) (nth i xs d).

Lemma sq_entry_lt xs an i j : (i < j)%nat -> sq_entry xs an i j = k (nth i xs d) (nth j xs d).
Proof. intros H. unfold sq_entry. apply Nat.ltb_lt in H. rewrite H. reflexivity. Qed.

Lemma sq_entry_diag xs an i : sq_entry xs an i i = if an then 1 else k (nth i xs d) (nth i xs d).
Proof. unfold sq_entry. rewrite Nat.ltb_irrefl. reflexivity. Qed.

Lemma sq_entry_sym xs an i j : sq_entry xs an i j = sq_entry xs an j i.
Proof.
  unfold sq_entry.
  destruct (Nat.ltb_spec i j), (Nat.ltb_spec j i); try reflexivity; try lia.
  assert (i = j) by lia. subst. reflexivity.
Qed.

(* both loops together assign, to each position N*i + j of the flat list, the value sq_entry i j and nothing else *)
Lemma in_writes xs an w : In w (writes_offdiag k d xs ++ writes_diag k d xs an) <->
  exists i j, (i < length xs)%nat /\ (j < length xs)%nat /\ w = ((length xs * i + j)%nat, sq_entry xs an i j).
Proof.
  unfold writes_offdiag, writes_diag. rewrite in_app_iff, in_flat_map, in_map_iff. split.
  - intros [[i [Hi H]] | [i [<- Hi]]]; apply in_seq in Hi.
    + apply in_flat_map in H. destruct H as [j [Hj H]]. apply in_seq in Hj.
      rewrite <- (sq_entry_lt xs an i j) in H by lia.
      destruct H as [<- | [<- | []]]; [exists i, j|exists j, i; rewrite (sq_entry_sym xs an j i)]; repeat split; lia.
    + exists i, i. rewrite sq_entry_diag. repeat split; lia.
  - intros [i [j [Hi [Hj ->]]]]. destruct (Nat.lt_total i j) as [H | [<- | H]].
    + left. exists i. split; [apply in_seq; lia|]. apply in_flat_map. exists j. split; [apply in_seq; lia|].
      rewrite sq_entry_lt by exact H. left. reflexivity.
    + right. exists i. rewrite sq_entry_diag. split; [reflexivity|apply in_seq; lia].
    + left. exists j. split; [apply in_seq; lia|]. apply in_flat_map. exists i. split; [apply in_seq; lia|].
      rewrite sq_entry_sym, sq_entry_lt by exact H. right. left. reflexivity.
Qed.

Lemma written xs an a b : (a < length xs)%nat -> (b < length xs)%nat ->
  nth_error (apply_writes (repeat None (length xs * length xs)) (writes_offdiag k d xs ++ writes_diag k d xs an))
            (length xs * a + b)
  = Some (Some (sq_entry xs an a b)).
Proof.
  intros Ha Hb. apply apply_writes_spec.
  - rewrite repeat_length. nia.
  - intros w Hin Hf. apply in_writes in Hin. destruct Hin as [i [j [Hi [Hj ->]]]].
    apply decode_pos in Hf; [|lia|lia]. destruct Hf as [-> ->]. reflexivity.
  - right. eexists. split; [apply in_writes; exists a, b; auto|reflexivity].
Qed.

Theorem square_spec xs an : xs <> [] ->
  exists M, square_kernel_matrix k d xs an = Some M /\ length M = length xs /\
    (forall i, (i < length xs)%nat -> length (nth i M []) = length xs) /\
    forall i j, (i < length xs)%nat -> (j < length xs)%nat -> nth j (nth i M []) 0 = sq_entry xs an i j.
Proof.
  intros Hne. unfold square_kernel_matrix.
  assert (HN : (0 < length xs)%nat) by (destruct xs; [congruence|simpl; lia]).
  pose proof (written xs an) as P2. set (N := length xs) in *.
  destruct (an && Nat.eqb N 1) eqn:E1.
  - apply andb_prop in E1. destruct E1 as [-> E1]. apply Nat.eqb_eq in E1.
    exists [[1]]. split; [reflexivity|]. split; [simpl; lia|]. split.
    + intros i Hi. assert (i = O) by lia. subst. simpl. lia.
    + intros i j Hi Hj. assert (i = O) by lia. assert (j = O) by lia. subst. reflexivity.
  - set (m1 := apply_writes (repeat None (N * N)) (writes_offdiag k d xs)).
    assert (L1 : length m1 = (N * N)%nat) by (unfold m1; rewrite apply_writes_length, repeat_length; reflexivity).
    destruct (an && match nth_error m1 1 with Some _ => false | None => true end) eqn:E2.
    { exfalso. apply andb_prop in E2. destruct E2 as [-> E2]. simpl in E1. apply Nat.eqb_neq in E1.
      destruct (nth_error m1 1) eqn:E3; [discriminate|]. apply nth_error_None in E3. nia. }
    unfold m1. rewrite apply_writes_app. fold m1.
    set (m2 := apply_writes _ (_ ++ _)) in *.
    assert (L2 : length m2 = (N * N)%nat) by (unfold m2; rewrite apply_writes_length, repeat_length; reflexivity).
    destruct (all_some_spec m2) as [flat [EA [LF NF]]].
    { intros p Hp. rewrite L2 in Hp. rewrite (Nat.div_mod p N) by lia. eexists. apply P2.
      - apply Nat.div_lt_upper_bound; lia.
      - apply Nat.mod_upper_bound. lia. }
    destruct m2 as [|h t] eqn:Em2; [simpl in L2; nia|]. rewrite <- Em2 in *. rewrite EA.
    unfold reshape2. rewrite LF, L2, Nat.eqb_refl.
    exists (transpose N (chunks N N flat)). split; [reflexivity|].
    split; [unfold transpose; rewrite map_length, seq_length; reflexivity|]. split.
    + intros i Hi. unfold transpose. rewrite nth_map_seq0 by exact Hi. rewrite map_length. apply chunks_length.
    + intros i j Hi Hj. rewrite nth_transpose; [|exact Hi|rewrite chunks_length; exact Hj].
      rewrite nth_chunks; [|lia|exact Hj|exact Hi].
      assert (Hp : (N * j + i < length m2)%nat) by (rewrite L2; nia).
      specialize (NF _ Hp). rewrite P2 in NF by assumption. injection NF as NF. rewrite <- NF.
      apply sq_entry_sym.
Qed.

Corollary square_entries xs an M : square_kernel_matrix k d xs an = Some M ->
  forall i j, (i < length xs)%nat -> (j < length xs)%nat -> nth j (nth i M []) 0 = sq_entry xs an i j.
Proof.
  intros HM i j Hi. destruct xs as [|x0 xs']; [simpl in Hi; lia|].
  destruct (square_spec (x0 :: xs') an) as [M' [E [_ [_ HE]]]]; [discriminate|].
  rewrite HM in E. injection E as <-. apply HE, Hi.
Qed.

(* symmetry of the result does NOT need a symmetric kernel *)
Corollary square_symmetric xs an M : square_kernel_matrix k d xs an = Some M ->
  forall i j, (i < length xs)%nat -> (j < length xs)%nat -> nth j (nth i M []) 0 = nth i (nth j M []) 0.
Proof. intros HM i j Hi Hj. rewrite !(square_entries xs an M HM) by assumption. apply sq_entry_sym. Qed.

Corollary square_unit_diagonal xs an M : square_kernel_matrix k d xs an = Some M ->
  (an = true \/ forall i, (i < length xs)%nat -> k (nth i xs d) (nth i xs d) = 1) ->
  forall i, (i < length xs)%nat -> nth i (nth i M []) 0 = 1.
Proof.
  intros HM Hn i Hi. rewrite (square_entries xs an M HM), sq_entry_diag by assumption.
  destruct an, Hn as [E | Hn]; try reflexivity; [discriminate|]. apply Hn. exact Hi.
Qed.

(* the square matrix reproduces the kernel entrywise exactly when the kernel is symmetric on the data
   (and normalised, if assume_normalized_kernel is used) *)
Corollary square_is_kernel xs an M : square_kernel_matrix k d xs an = Some M ->
  (forall i j, (i < j)%nat -> (j < length xs)%nat -> k (nth j xs d) (nth i xs d) = k (nth i xs d) (nth j xs d)) ->
  (an = true -> forall i, (i < length xs)%nat -> k (nth i xs d) (nth i xs d) = 1) ->
  forall i j, (i < length xs)%nat -> (j < length xs)%nat -> nth j (nth i M []) 0 = k (nth i xs d) (nth j xs d).
Proof.
  intros HM Hs Hn i j Hi Hj. rewrite (square_entries xs an M HM) by assumption.
  destruct (Nat.lt_total i j) as [H | [<- | H]].
  - apply sq_entry_lt, H.
  - rewrite sq_entry_diag. destruct an; [symmetry; apply Hn; auto|reflexivity].
  - rewrite sq_entry_sym, sq_entry_lt by exact H. symmetry. apply Hs; assumption.
Qed.

Lemma square_empty an : square_kernel_matrix k d [] an = None.
Proof. destruct an; reflexivity. Qed.
End SQ.

Definition sumn (n : nat) (f : nat -> Q) : Q := qsum (map f (seq 0 n)).

Lemma qsum_map_ext (f g : nat -> Q) l : (forall i, In i l -> f i == g i) -> qsum (map f l) == qsum (map g l).
Proof.
  induction l; simpl; intros H; [reflexivity|].
  rewrite (H a) by (left; reflexivity). rewrite IHl; [reflexivity|]. intros; apply H; right; assumption.
Qed.

Lemma sumn_ext n f g : (forall i, (i < n)%nat -> f i == g i) -> sumn n f == sumn n g.
Proof. intros H. apply qsum_map_ext. intros i Hi. apply in_seq in Hi. apply H. lia. Qed.

Lemma sumn_S n f : sumn (S n) f == f O + sumn n (fun i => f (S i)).
Proof. unfold sumn. simpl. rewrite <- seq_shift, map_map. reflexivity. Qed.

Lemma dot_as_sum a : forall b, length a = length b ->
  dot a b == sumn (length a) (fun j => nth j a 0 * nth j b 0).
Proof.
  induction a as [|x a IH]; intros [|y b] L; simpl in L; try discriminate.
  - reflexivity.
  - cbn [length]. rewrite sumn_S. cbn [dot nth]. rewrite IH by lia. reflexivity.
Qed.

Lemma frob_as_sum A : forall B, length A = length B ->
  frob A B == sumn (length A) (fun i => dot (nth i A []) (nth i B [])).
Proof.
  induction A as [|x A IH]; intros [|y B] L; simpl in L; try discriminate.
  - reflexivity.
  - cbn [length]. rewrite sumn_S. cbn [frob nth]. rewrite IH by lia. reflexivity.
Qed.

Lemma frob_entries A B n m (f g : nat -> nat -> Q) :
  length A = n -> length B = n ->
  (forall i, (i < n)%nat -> length (nth i A []) = m) -> (forall i, (i < n)%nat -> length (nth i B []) = m) ->
  (forall i j, (i < n)%nat -> (j < m)%nat -> nth j (nth i A []) 0 = f i j) ->
  (forall i j, (i < n)%nat -> (j < m)%nat -> nth j (nth i B []) 0 = g i j) ->
  frob A B == sumn n (fun i => sumn m (fun j => f i j * g i j)).
Proof.
  intros LA LB RA RB EA EB. rewrite frob_as_sum by lia. rewrite LA.
  apply sumn_ext. intros i Hi. rewrite dot_as_sum by (rewrite RA, RB by exact Hi; reflexivity).
  rewrite RA by exact Hi. apply sumn_ext. intros j Hj. rewrite EA, EB by assumption. reflexivity.
Qed.

Lemma outer_entry a b i j : (i < length a)%nat -> (j < length b)%nat ->
  nth j (nth i (outer a b) []) 0 = nth i a 0 * nth j b 0.
Proof.
  intros Hi Hj. unfold outer. rewrite (nth_map_lt _ _ _ 0) by exact Hi.
  rewrite (nth_map_lt _ _ _ 0) by exact Hj. reflexivity.
Qed.

Lemma outer_row_length a b i : (i < length a)%nat -> length (nth i (outer a b) []) = length b.
Proof. intros Hi. unfold outer. rewrite (nth_map_lt _ _ _ 0) by exact Hi. apply map_length. Qed.

Lemma rescale_length Y : length (rescale_labels Y) = length Y.
Proof. apply map_length. Qed.

Lemma rescale_entry Y i : (i < length Y)%nat ->
  nth i (rescale_labels Y) 0
  = if is_one (nth i Y 0) then nth i Y 0 / qnat (count_plus Y)
    else nth i Y 0 / qnat (length Y - count_plus Y).
Proof. intros Hi. unfold rescale_labels. rewrite (nth_map_lt _ _ _ 0) by exact Hi. reflexivity. Qed.

Lemma filter_len_le {A} (f : A -> bool) l : (length (filter f l) <= length l)%nat.
Proof. induction l; simpl; [lia|]. destruct (f a); simpl; lia. Qed.

Lemma count_plus_le Y : (count_plus Y <= length Y)%nat.
Proof. apply filter_len_le. Qed.

(* the divisions of the rescaling are never by zero *)
Lemma count_plus_pos Y y : In y Y -> is_one y = true -> (0 < count_plus Y)%nat.
Proof.
  intros Hin H1. unfold count_plus.
  assert (In y (filter is_one Y)) by (apply filter_In; split; assumption).
  destruct (filter is_one Y); [contradiction|simpl; lia].
Qed.

Lemma count_minus_pos Y y : In y Y -> is_one y = false -> (count_plus Y < length Y)%nat.
Proof.
  unfold count_plus. induction Y as [|z Y IH]; intros Hin H0; [contradiction|].
  simpl. destruct Hin as [-> | Hin].
  - rewrite H0. pose proof (filter_len_le is_one Y). lia.
  - specialize (IH Hin H0). destruct (is_one z); simpl; lia.
Qed.

Lemma rescale_plus Y i : (i < length Y)%nat -> nth i Y 0 == 1 ->
  nth i (rescale_labels Y) 0 == 1 / qnat (count_plus Y).
Proof.
  intros Hi H1. rewrite rescale_entry by exact Hi. unfold is_one.
  destruct (Qeq_bool (nth i Y 0) 1) eqn:E.
  - rewrite H1. reflexivity.
  - apply Qeq_bool_neq in E. contradiction.
Qed.

Lemma rescale_minus Y i : (i < length Y)%nat -> nth i Y 0 == -(1) ->
  nth i (rescale_labels Y) 0 == -(1) / qnat (length Y - count_plus Y).
Proof.
  intros Hi H1. rewrite rescale_entry by exact Hi. unfold is_one.
  destruct (Qeq_bool (nth i Y 0) 1) eqn:E.
  - apply Qeq_bool_eq in E. rewrite H1 in E. discriminate.
  - rewrite H1. reflexivity.
Qed.

Section POL.
Context {X : Type} (k : X -> X -> Q) (d : X).

Definition labels_used (Y : list Q) (rescale : bool) : list Q := if rescale then rescale_labels Y else Y.

Theorem polarity_spec xs Y an rescale : xs <> [] -> length Y = length xs ->
  let N := length xs in
  let y := fun i => nth i (labels_used Y rescale) 0 in
  let K := sq_entry k d xs an in
  exists p n2, polarity k d xs Y an rescale = Some (p, n2) /\
    p == sumn N (fun i => sumn N (fun j => K i j * (y i * y j))) /\
    n2 == sumn N (fun i => sumn N (fun j => K i j * K i j)) *
          sumn N (fun i => sumn N (fun j => (y i * y j) * (y i * y j))).
Proof.
  intros Hne HY N y K. unfold polarity.
  destruct (square_spec k d xs an Hne) as [M [E [LM [RM EM]]]]. rewrite E, HY, Nat.eqb_refl.
  fold (labels_used Y rescale). set (Y' := labels_used Y rescale).
  assert (LY : length Y' = N) by (unfold Y', labels_used; destruct rescale; [rewrite rescale_length|]; exact HY).
  eexists. eexists. split; [reflexivity|].
  assert (LT : length (outer Y' Y') = N) by (unfold outer; rewrite map_length; exact LY).
  assert (RT : forall i, (i < N)%nat -> length (nth i (outer Y' Y') []) = N).
  { intros i Hi. rewrite outer_row_length by lia. exact LY. }
  assert (ET : forall i j, (i < N)%nat -> (j < N)%nat -> nth j (nth i (outer Y' Y') []) 0 = y i * y j).
  { intros i j Hi Hj. apply outer_entry; lia. }
  split.
  - apply (frob_entries M (outer Y' Y') N N K (fun i j => y i * y j)); assumption.
  - rewrite (frob_entries M M N N K K) by assumption.
    rewrite (frob_entries (outer Y' Y') (outer Y' Y') N N (fun i j => y i * y j) (fun i j => y i * y j)) by assumption.
    reflexivity.
Qed.
End POL.

From Coq Require Import Lqa Qminmax.

Lemma dot_comm a : forall b, dot a b == dot b a.
Proof. induction a; intros [|y b]; simpl; try reflexivity. rewrite IHa. ring. Qed.

Lemma dot3_comm a : forall w b, dot3 a w b == dot3 b w a.
Proof. induction a; intros [|c w] [|y b]; simpl; try reflexivity. rewrite IHa. ring. Qed.

Lemma dot3_zeros_r a : forall w m, dot3 a w (repeat 0 m) == 0.
Proof. induction a; intros [|c w] [|m]; simpl; try reflexivity. rewrite IHa. ring. Qed.

Lemma dot3_vadd_r a : forall w b b', length b = length b' ->
  dot3 a w (vadd b b') == dot3 a w b + dot3 a w b'.
Proof.
  induction a; intros [|c w] [|y b] [|y' b'] L; simpl in *; try discriminate; try ring.
  rewrite IHa by lia. ring.
Qed.

Lemma dot3_vscale_r a : forall w s b, dot3 a w (vscale s b) == s * dot3 a w b.
Proof. induction a; intros [|c w] s [|y b]; simpl; try ring. rewrite IHa. ring. Qed.

Lemma vadd_length a : forall b, length a = length b -> length (vadd a b) = length a.
Proof. induction a; intros [|y b] L; simpl in *; try discriminate; auto. Qed.

Lemma lincomb_length m x : forall V, Forall (fun r => length r = m) V -> length (lincomb m x V) = m.
Proof.
  induction x as [|xa x IH]; intros [|ra V] HV; simpl; try apply repeat_length.
  inversion HV; subst. rewrite vadd_length; unfold vscale; rewrite map_length; [reflexivity|].
  rewrite IH by assumption. reflexivity.
Qed.

Lemma dot_sandwich_row m ra w V : Forall (fun r => length r = m) V -> forall x,
  dot x (map (fun rb => dot3 ra w rb) V) == dot3 ra w (lincomb m x V).
Proof.
  induction 1 as [|rb V Hrb HV IH]; intros [|xa x]; simpl; try (rewrite dot3_zeros_r; reflexivity).
  rewrite IH. rewrite dot3_vadd_r.
  - rewrite dot3_vscale_r. ring.
  - unfold vscale. rewrite map_length, lincomb_length by assumption. exact Hrb.
Qed.

Lemma dot_map_ext (f g : list Q -> Q) V : (forall r, In r V -> f r == g r) -> forall x,
  dot x (map f V) == dot x (map g V).
Proof.
  induction V as [|r V IH]; intros H [|xa x]; simpl; try reflexivity.
  rewrite (H r) by (left; reflexivity). rewrite IH; [reflexivity|]. intros; apply H; right; assumption.
Qed.

(* x^T (V diag(w) V^T) x = sum_j w_j (x^T V)_j^2 : no orthogonality needed *)
Theorem sandwich_qform m V w x : Forall (fun r => length r = m) V ->
  qform (sandwich V w) x == dot3 (lincomb m x V) w (lincomb m x V).
Proof.
  intros HV. unfold qform, sandwich. rewrite map_map. set (u := lincomb m x V).
  rewrite (dot_map_ext _ (fun ra => dot3 u w ra)).
  - apply dot_sandwich_row. exact HV.
  - intros r _. rewrite dot_comm, (dot_sandwich_row m) by exact HV. apply dot3_comm.
Qed.

Lemma dot3_nonneg u : forall w, Forall (fun c => 0 <= c) w -> 0 <= dot3 u w u.
Proof.
  induction u as [|x u IH]; intros [|c w] H; simpl; try apply Qle_refl.
  inversion H; subst. specialize (IH w H3). nra.
Qed.

Theorem sandwich_psd m V w x : Forall (fun r => length r = m) V -> Forall (fun c => 0 <= c) w ->
  0 <= qform (sandwich V w) x.
Proof. intros HV Hw. rewrite (sandwich_qform m) by exact HV. apply dot3_nonneg. exact Hw. Qed.

Lemma Qltb_true a b : Qltb a b = true <-> a < b.
Proof.
  unfold Qltb. rewrite negb_true_iff. split; intros H.
  - apply Qnot_le_lt. intros H'. apply Qle_bool_iff in H'. congruence.
  - destruct (Qle_bool b a) eqn:E; [|reflexivity]. apply Qle_bool_iff in E. apply Qle_not_lt in E. contradiction.
Qed.

Lemma Qltb_false a b : Qltb a b = false <-> b <= a.
Proof. unfold Qltb. rewrite negb_false_iff. apply Qle_bool_iff. Qed.

Lemma clip0_nonneg c : 0 <= clip0 c.
Proof. unfold clip0. destruct (Qltb c 0) eqn:E; [apply Qle_refl|]. apply Qltb_false in E. exact E. Qed.

Lemma clip0_id c : 0 <= c -> clip0 c = c.
Proof. intros H. unfold clip0. apply Qltb_false in H. rewrite H. reflexivity. Qed.

Lemma clip0_is_max c : clip0 c == Qmax c 0.
Proof.
  unfold clip0. destruct (Qltb c 0) eqn:E.
  - apply Qltb_true in E. symmetry. apply Q.max_r. apply Qlt_le_weak. exact E.
  - apply Qltb_false in E. symmetry. apply Q.max_l. exact E.
Qed.

Lemma Forall_map_nonneg (f : Q -> Q) w : (forall c, In c w -> 0 <= f c) -> Forall (fun c => 0 <= c) (map f w).
Proof. intros H. apply Forall_forall. intros c Hc. apply in_map_iff in Hc. destruct Hc as [c' [<- Hin]]. auto. Qed.

Section Forall2Equiv.
Context {A : Type} (R : A -> A -> Prop).
Lemma Forall2_reflexive : (forall x, R x x) -> forall l, Forall2 R l l.
Proof. intros HR. induction l; constructor; auto. Qed.
Lemma Forall2_symmetric : (forall x y, R x y -> R y x) -> forall l l', Forall2 R l l' -> Forall2 R l' l.
Proof. intros HR. induction 1; constructor; auto. Qed.
Lemma Forall2_transitive : (forall x y z, R x y -> R y z -> R x z) ->
  forall l l' l'', Forall2 R l l' -> Forall2 R l' l'' -> Forall2 R l l''.
Proof. intros HR l l' l'' H. revert l''. induction H; intros l'' H'; inversion H'; subst; constructor; eauto. Qed.
End Forall2Equiv.
Lemma mat_eq_refl A : mat_eq A A.
Proof. exact (Forall2_reflexive _ (Forall2_reflexive _ Qeq_refl) A). Qed.
Lemma mat_eq_sym A B : mat_eq A B -> mat_eq B A.
Proof. exact (Forall2_symmetric _ (Forall2_symmetric _ Qeq_sym) A B). Qed.
Lemma mat_eq_trans A B : mat_eq A B -> forall C, mat_eq B C -> mat_eq A C.
Proof. intros H C. exact (Forall2_transitive _ (Forall2_transitive _ Qeq_trans) A B C H). Qed.

Lemma dot_compat_l a a' : Forall2 Qeq a a' -> forall x, dot a x == dot a' x.
Proof. induction 1; intros [|xa x0]; simpl; try reflexivity. rewrite H, IHForall2. reflexivity. Qed.

Lemma qform_mat_eq A B x : mat_eq A B -> qform A x == qform B x.
Proof.
  intros H. unfold qform. generalize x at 1 3. induction H as [|ra rb A B Hr HAB IH]; intros [|ya y]; simpl; try reflexivity.
  rewrite IH, (dot_compat_l _ _ Hr). reflexivity.
Qed.

Lemma dot3_compat_mid a : forall w w' b, Forall2 Qeq w w' -> dot3 a w b == dot3 a w' b.
Proof.
  induction a; intros w w' b H; destruct H; destruct b; simpl; try reflexivity.
  rewrite H, (IHa _ _ _ H0). reflexivity.
Qed.

Lemma Forall2_map_same {A B} (R : B -> B -> Prop) (f g : A -> B) l :
  (forall x, In x l -> R (f x) (g x)) -> Forall2 R (map f l) (map g l).
Proof. induction l; simpl; intros H; constructor; auto. Qed.

Lemma sandwich_compat V w w' : Forall2 Qeq w w' -> mat_eq (sandwich V w) (sandwich V w').
Proof.
  intros H. unfold sandwich, mat_eq. apply Forall2_map_same. intros ra _.
  apply Forall2_map_same. intros rb _. apply dot3_compat_mid. exact H.
Qed.

Lemma map_id_on_nonneg (f : Q -> Q) w : (forall c, 0 <= c -> f c == c) -> Forall (fun c => 0 <= c) w ->
  Forall2 Qeq w (map f w).
Proof. intros Hf. induction 1; simpl; constructor; [symmetry; apply Hf; assumption|assumption]. Qed.

Lemma Forall_lower a b w : a <= b -> Forall (fun c => b <= c) w -> Forall (fun c => a <= c) w.
Proof. intros H. apply Forall_impl. intros c. apply Qle_trans, H. Qed.

(* generic: `if w[0] < 0 then V f(w) V^T else K` is V f(w) V^T whenever f fixes non-negative numbers,
   K = V diag(w) V^T and w[0] is the smallest eigenvalue *)
Lemma spectral_branch (f : Q -> Q) w V K : (forall c, 0 <= c -> f c == c) ->
  Forall (fun c => hd 0 w <= c) w -> mat_eq K (sandwich V w) ->
  mat_eq (if Qltb (hd 0 w) 0 then sandwich V (map f w) else K) (sandwich V (map f w)).
Proof.
  intros Hf Hmin HK. destruct (Qltb (hd 0 w) 0) eqn:E; [apply mat_eq_refl|].
  apply Qltb_false in E. eapply mat_eq_trans; [exact HK|]. apply sandwich_compat.
  apply map_id_on_nonneg; [exact Hf|]. exact (Forall_lower _ _ w E Hmin).
Qed.

Theorem threshold_spectral w V K : Forall (fun c => hd 0 w <= c) w -> mat_eq K (sandwich V w) ->
  mat_eq (threshold_matrix w V K) (sandwich V (map clip0 w)).
Proof. intros. apply spectral_branch; try assumption. intros c Hc. rewrite clip0_id by exact Hc. reflexivity. Qed.

Theorem flip_spectral w V K : Forall (fun c => hd 0 w <= c) w -> mat_eq K (sandwich V w) ->
  mat_eq (flip_matrix w V K) (sandwich V (map Qabs w)).
Proof. intros. apply spectral_branch; try assumption. intros c Hc. apply Qabs_pos. exact Hc. Qed.

Theorem threshold_psd m w V K x : Forall (fun r => length r = m) V ->
  Forall (fun c => hd 0 w <= c) w -> mat_eq K (sandwich V w) -> 0 <= qform (threshold_matrix w V K) x.
Proof.
  intros HV Hmin HK. rewrite (qform_mat_eq _ _ x (threshold_spectral w V K Hmin HK)).
  apply (sandwich_psd m); [exact HV|]. apply Forall_map_nonneg. intros c _. apply clip0_nonneg.
Qed.

Theorem flip_psd m w V K x : Forall (fun r => length r = m) V ->
  Forall (fun c => hd 0 w <= c) w -> mat_eq K (sandwich V w) -> 0 <= qform (flip_matrix w V K) x.
Proof.
  intros HV Hmin HK. rewrite (qform_mat_eq _ _ x (flip_spectral w V K Hmin HK)).
  apply (sandwich_psd m); [exact HV|]. apply Forall_map_nonneg. intros c _. apply Qabs_nonneg.
Qed.

Lemma vsub_compat a a' : Forall2 Qeq a a' -> forall b b', Forall2 Qeq b b' -> Forall2 Qeq (vsub a b) (vsub a' b').
Proof. induction 1; intros b b' Hb; destruct Hb; simpl; constructor; [rewrite H, H1; reflexivity|auto]. Qed.
Lemma msub_compat A A' : mat_eq A A' -> forall B B', mat_eq B B' -> mat_eq (msub A B) (msub A' B').
Proof.
  unfold mat_eq. induction 1; intros B B' Hb; destruct Hb; simpl; constructor;
    [apply vsub_compat; assumption|apply IHForall2; assumption].
Qed.
Lemma vscale_compat s a a' : Forall2 Qeq a a' -> Forall2 Qeq (vscale s a) (vscale s a').
Proof. induction 1; simpl; constructor; [rewrite H; reflexivity|assumption]. Qed.
Lemma mscale_compat s A A' : mat_eq A A' -> mat_eq (mscale s A) (mscale s A').
Proof. unfold mat_eq. induction 1; simpl; constructor; [apply vscale_compat; assumption|assumption]. Qed.

Lemma vsub_vscale_maps {A} (f g : A -> Q) s l :
  vsub (map f l) (vscale s (map g l)) = map (fun r => f r - s * g r) l.
Proof. induction l; simpl; [reflexivity|]. rewrite IHl. reflexivity. Qed.
Lemma msub_mscale_maps {A} (F G : A -> list Q) s l :
  msub (map F l) (mscale s (map G l)) = map (fun r => vsub (F r) (vscale s (G r))) l.
Proof. induction l; simpl; [reflexivity|]. rewrite IHl. reflexivity. Qed.

Lemma dot3_shift a : forall w s b,
  dot3 a w b - s * dot3 a (repeat 1 (length w)) b == dot3 a (map (fun c => c - s) w) b.
Proof. induction a; intros [|c w] s [|y b]; simpl; try ring. rewrite <- IHa. ring. Qed.

(* K - wmin * I = V diag(w - wmin) V^T when V V^T = I *)
Theorem displace_spectral wmin w V K :
  mat_eq K (sandwich V w) -> mat_eq (eye (length K)) (sandwich V (repeat 1 (length w))) ->
  mat_eq (displace_matrix wmin K)
         (sandwich V (if Qltb wmin 0 then map (fun c => c - wmin) w else w)).
Proof.
  intros HK HI. unfold displace_matrix. destruct (Qltb wmin 0); [|exact HK].
  eapply mat_eq_trans.
  - apply msub_compat; [exact HK|]. apply mscale_compat. exact HI.
  - unfold sandwich. rewrite msub_mscale_maps. apply Forall2_map_same. intros ra _.
    rewrite vsub_vscale_maps. apply Forall2_map_same. intros rb _. apply dot3_shift.
Qed.

Theorem displace_psd m wmin w V K x : Forall (fun r => length r = m) V ->
  wmin = hd 0 w -> Forall (fun c => hd 0 w <= c) w ->
  mat_eq K (sandwich V w) -> mat_eq (eye (length K)) (sandwich V (repeat 1 (length w))) ->
  0 <= qform (displace_matrix wmin K) x.
Proof.
  intros HV -> Hmin HK HI. rewrite (qform_mat_eq _ _ x (displace_spectral _ w V K HK HI)).
  apply (sandwich_psd m); [exact HV|].
  destruct (Qltb (hd 0 w) 0) eqn:E.
  - apply Forall_map_nonneg. intros c Hc. rewrite Forall_forall in Hmin. specialize (Hmin c Hc). simpl in Hmin. lra.
  - apply Qltb_false in E. exact (Forall_lower _ _ w E Hmin).
Qed.

Lemma nth_vsub a : forall b i, (i < length a)%nat -> (i < length b)%nat ->
  nth i (vsub a b) 0 = nth i a 0 - nth i b 0.
Proof. induction a; intros [|y b] [|i] Ha Hb; simpl in *; try lia; [reflexivity|]. apply IHa; lia. Qed.
Lemma nth_msub A : forall B i, (i < length A)%nat -> (i < length B)%nat ->
  nth i (msub A B) [] = vsub (nth i A []) (nth i B []).
Proof. induction A; intros [|y B] [|i] Ha Hb; simpl in *; try lia; [reflexivity|]. apply IHA; lia. Qed.

Lemma eye_entry n a b : (a < n)%nat -> (b < n)%nat ->
  nth b (nth a (eye n) []) 0 = if Nat.eqb a b then 1 else 0.
Proof. intros Ha Hb. unfold eye. rewrite nth_map_seq0 by exact Ha. rewrite nth_map_seq0 by exact Hb. reflexivity. Qed.

(* displace = K - wmin * identity, entry by entry (no spectral assumption) *)
Theorem displace_entry wmin K a b : Qltb wmin 0 = true ->
  (a < length K)%nat -> (b < length K)%nat -> (b < length (nth a K []))%nat ->
  nth b (nth a (displace_matrix wmin K) []) 0 = nth b (nth a K []) 0 - wmin * (if Nat.eqb a b then 1 else 0).
Proof.
  intros E Ha Hb Hr. unfold displace_matrix. rewrite E. set (n := length K).
  assert (Le : length (eye n) = n) by (unfold eye; rewrite map_length, seq_length; reflexivity).
  rewrite nth_msub; [|exact Ha|unfold mscale; rewrite map_length, Le; exact Ha].
  unfold mscale. rewrite (nth_map_lt _ _ _ []) by (rewrite Le; exact Ha).
  assert (Lr : length (nth a (eye n) []) = n).
  { unfold eye. rewrite nth_map_seq0 by exact Ha. rewrite map_length, seq_length. reflexivity. }
  rewrite nth_vsub; [|exact Hr|unfold vscale; rewrite map_length, Lr; exact Hb].
  unfold vscale. rewrite (nth_map_lt _ _ _ 0) by (rewrite Lr; exact Hb).
  rewrite eye_entry by assumption. reflexivity.
Qed.

(* inputs without negative eigenvalue are returned unchanged *)
Lemma threshold_unchanged w V K : 0 <= hd 0 w -> threshold_matrix w V K = K.
Proof. intros H. unfold threshold_matrix. apply Qltb_false in H. rewrite H. reflexivity. Qed.
Lemma flip_unchanged w V K : 0 <= hd 0 w -> flip_matrix w V K = K.
Proof. intros H. unfold flip_matrix. apply Qltb_false in H. rewrite H. reflexivity. Qed.
Lemma displace_unchanged wmin K : 0 <= wmin -> displace_matrix wmin K = K.
Proof. intros H. unfold displace_matrix. apply Qltb_false in H. rewrite H. reflexivity. Qed.

Lemma eqb_vec_sound a : forall b, eqb_vec a b = true -> Forall2 Qeq a b.
Proof.
  induction a; intros [|y b] H; simpl in H; try discriminate; constructor.
  - apply andb_prop in H. apply Qeq_bool_iff. tauto.
  - apply IHa. apply andb_prop in H. tauto.
Qed.
Lemma eqb_mat_sound A : forall B, eqb_mat A B = true -> mat_eq A B.
Proof.
  unfold mat_eq. induction A; intros [|y B] H; simpl in H; try discriminate; constructor.
  - apply eqb_vec_sound. apply andb_prop in H. tauto.
  - apply IHA. apply andb_prop in H. tauto.
Qed.
Lemma mat_eq_length A B : mat_eq A B -> length A = length B.
Proof. induction 1; simpl; auto. Qed.

Lemma sorted_asc_min w : sorted_asc w = true -> Forall (fun c => hd 0 w <= c) w.
Proof.
  induction w as [|x r IH]; intros H; [constructor|].
  constructor; [apply Qle_refl|]. destruct r as [|y r']; [constructor|].
  change (sorted_asc (x :: y :: r')) with (Qle_bool x y && sorted_asc (y :: r')) in H.
  apply andb_prop in H. destruct H as [Hxy Hs]. apply Qle_bool_iff in Hxy.
  exact (Forall_lower _ _ _ Hxy (IH Hs)).
Qed.

Lemma spectral_ok_sound w V K : spectral_ok w V K = true ->
  mat_eq K (sandwich V w) /\ mat_eq (eye (length K)) (sandwich V (repeat 1 (length w))) /\
  Forall (fun c => hd 0 w <= c) w /\ Forall (fun r => length r = length w) V.
Proof.
  unfold spectral_ok. intros H.
  repeat (apply andb_prop in H; destruct H as [H ?]).
  pose proof (eqb_mat_sound _ _ H) as HK.
  split; [exact HK|]. split.
  - apply mat_eq_length in HK. unfold sandwich in HK. rewrite map_length in HK. rewrite HK.
    apply eqb_mat_sound. assumption.
  - split; [apply sorted_asc_min; assumption|].
    apply Forall_forall. intros r Hr. rewrite forallb_forall in H1. apply Nat.eqb_eq. apply H1. exact Hr.
Qed.

(* every post-processing model output on a case accepted by the tie is positive semidefinite over Q *)
Theorem post_model_psd which w V K x : spectral_ok w V K = true -> 0 <= qform (post_model which w V K) x.
Proof.
  intros H. apply spectral_ok_sound in H. destruct H as [HK [HI [Hmin HV]]].
  destruct which as [|[|which]]; simpl.
  - eapply threshold_psd; eassumption.
  - eapply displace_psd; try eassumption. reflexivity.
  - eapply flip_psd; eassumption.
Qed.
