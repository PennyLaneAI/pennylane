(* C14 Unitary synthesis.  Skeletons: an accepted two-qubit skeleton is, up to the global phase, one of the four templates,
   so it has at most three CNOTs.  Distance check: the fixed-point interval operations enclose the real ones (inF, inC);
   the generic circuit semantics of Lin/Vec.v preserves any relation that zero, one, addition and multiplication preserve
   (Section Rel), so the interval run encloses the complex run of every circuit whose gate entries lie in their enclosures. *)
From Coq Require Import List Arith ZArith Bool Reals Lra Lia Psatz.
From Coquelicot Require Import Complex.
From PLV Require Import Alg.ListFacts Lin.Vec Lin.PVecSound Num.SynthModel.
Import ListNotations.

Lemma gk_eqb_eq a b : gk_eqb a b = true -> a = b.
Proof. destruct a, b; simpl; intros H; try reflexivity; discriminate. Qed.
Lemma nats_eqb_eq a : forall b, nats_eqb a b = true -> a = b.
Proof.
  induction a as [|x a IH]; intros [|y b] H; simpl in H; try discriminate; [reflexivity|].
  apply andb_prop in H as [H1 H2]. apply Nat.eqb_eq in H1. subst. f_equal. apply IH, H2.
Qed.
Lemma sop_eqb_eq a b : sop_eqb a b = true -> a = b.
Proof.
  destruct a as [k w], b as [k' w']. unfold sop_eqb. simpl. intros H. apply andb_prop in H as [H1 H2].
  apply gk_eqb_eq in H1. apply nats_eqb_eq in H2. subst. reflexivity.
Qed.
Lemma skel_eqb_eq a : forall b, skel_eqb a b = true -> a = b.
Proof.
  induction a as [|x a IH]; intros [|y b] H; simpl in H; try discriminate; [reflexivity|].
  apply andb_prop in H as [H1 H2]. apply sop_eqb_eq in H1. subst. f_equal. apply IH, H2.
Qed.

Lemma cnot_count_app a b : cnot_count (a ++ b) = cnot_count a + cnot_count b.
Proof. unfold cnot_count. rewrite filter_app, app_length. reflexivity. Qed.

Lemma cnot_count_strip s : cnot_count (strip_phase s) = cnot_count s.
Proof.
  unfold cnot_count, strip_phase. induction s as [|[k w] s IH]; [reflexivity|].
  simpl. destruct k; simpl; try (rewrite IH; reflexivity); exact IH.
Qed.

Lemma entangler_count_strip_le s : entangler_count (strip_phase s) <= entangler_count s.
Proof.
  unfold entangler_count, strip_phase. induction s as [|[k w] s IH]; [apply Nat.le_refl|].
  simpl. destruct (negb (gk_eqb k GPhase)); simpl; destruct (multiwire (k, w)); simpl; lia.
Qed.

Lemma template_cnot_count k : k <= 3 -> cnot_count (template_of k) = k.
Proof. intros H. destruct k as [|[|[|[|k]]]]; try reflexivity; lia. Qed.

Lemma templates_In t : In t two_qubit_templates -> exists k, k <= 3 /\ t = template_of k.
Proof. intros [H|[H|[H|[H|[]]]]]; [exists 0|exists 1|exists 2|exists 3]; split; auto; lia. Qed.

Lemma templates_cnot_le3 t : In t two_qubit_templates -> cnot_count t <= 3.
Proof. intros H. apply templates_In in H as [k [Hk ->]]. rewrite template_cnot_count; exact Hk. Qed.

Lemma existsb_skel s l : existsb (skel_eqb s) l = true -> In s l.
Proof. intros H. apply existsb_exists in H as [t [Ht E]]. apply skel_eqb_eq in E. subst. exact Ht. Qed.

Lemma two_qubit_skeleton_class s : two_qubit_skeleton_ok s = true -> exists k, k <= 3 /\ strip_phase s = template_of k /\ cnot_count s = k.
Proof.
  unfold two_qubit_skeleton_ok. intros H. apply existsb_skel, templates_In in H as [k [Hk E]].
  exists k. rewrite <- cnot_count_strip, E. auto using template_cnot_count.
Qed.

Lemma two_qubit_skeleton_cnots s : two_qubit_skeleton_ok s = true -> cnot_count s <= 3.
Proof. intros H. apply two_qubit_skeleton_class in H as [k [Hk [_ <-]]]. exact Hk. Qed.

(* every op of a template acting on two wires is a CNOT *)
Lemma templates_only_cnot t o : In t two_qubit_templates -> In o t -> multiwire o = true -> fst o = GCNOT.
Proof.
  intros [H|[H|[H|[H|[]]]]] Ho M; subst; simpl in Ho;
  repeat (destruct Ho as [Ho|Ho]; [subst; simpl in M; try discriminate; reflexivity|]); destruct Ho.
Qed.

Local Open Scope R_scope.
Definition KR : R := IZR K.
Lemma K_pos : (0 < K)%Z. Proof. reflexivity. Qed.
Lemma KR_pos : 0 < KR. Proof. apply IZR_lt, K_pos. Qed.

Definition inF (x : R) (a : fi) : Prop := IZR (fst a) <= x * KR <= IZR (snd a).

Lemma fpt_sound m : inF (IZR m / KR) (fpt m).
Proof. unfold inF, fpt; simpl. pose proof KR_pos. replace (IZR m / KR * KR) with (IZR m) by (field; lra). lra. Qed.

Lemma fadd_sound x y a b : inF x a -> inF y b -> inF (x + y) (fadd a b).
Proof. unfold inF, fadd; simpl. intros [H1 H2] [H3 H4]. rewrite !plus_IZR, Rmult_plus_distr_r. lra. Qed.

Lemma fopp_sound x a : inF x a -> inF (- x) (fopp a).
Proof. unfold inF, fopp; simpl. intros [H1 H2]. rewrite !opp_IZR. lra. Qed.

Lemma fsub_sound x y a b : inF x a -> inF y b -> inF (x - y) (fsub a b).
Proof. intros Hx Hy. unfold fsub, Rminus. apply fadd_sound; [exact Hx | apply fopp_sound, Hy]. Qed.

(* floor and ceiling of a quotient, as used by dn, up and f_of_qz *)
Lemma floor_le p d : (0 < d)%Z -> IZR (p / d) * IZR d <= IZR p.
Proof. intros Hd. rewrite <- mult_IZR. apply IZR_le. rewrite Z.mul_comm. apply Z.mul_div_le, Hd. Qed.
Lemma ceil_ge p d : (0 < d)%Z -> IZR p <= IZR (- (- p / d)) * IZR d.
Proof. intros Hd. rewrite <- mult_IZR. apply IZR_le. pose proof (Z.mul_div_le (- p) d Hd). lia. Qed.

Lemma inF_div x p q d : (0 < d)%Z -> IZR p <= x * KR * IZR d <= IZR q -> inF x ((p / d)%Z, (- (- q / d))%Z).
Proof.
  intros Hd [H1 H2]. pose proof (IZR_lt _ _ Hd). pose proof (floor_le p d Hd). pose proof (ceil_ge q d Hd).
  split; cbn [fst snd]; apply Rmult_le_reg_r with (IZR d); lra.
Qed.

Lemma mul_ge_corner a1 a2 b1 b2 X Y : a1 <= X <= a2 -> b1 <= Y <= b2 ->
  a1 * b1 <= X * Y \/ a1 * b2 <= X * Y \/ a2 * b1 <= X * Y \/ a2 * b2 <= X * Y.
Proof.
  intros [H1 H2] [H3 H4].
  destruct (Rle_dec 0 Y) as [HY|HY].
  - destruct (Rle_dec 0 a1) as [Ha|Ha]; [left | right; left]; nra.
  - destruct (Rle_dec 0 a2) as [Ha|Ha]; [right; right; left | right; right; right]; nra.
Qed.
Lemma mul_le_corner a1 a2 b1 b2 X Y : a1 <= X <= a2 -> b1 <= Y <= b2 ->
  X * Y <= a1 * b1 \/ X * Y <= a1 * b2 \/ X * Y <= a2 * b1 \/ X * Y <= a2 * b2.
Proof.
  (* the lower-corner lemma for - X, which lies between - a2 and - a1 *)
  intros Hx Hy. destruct (mul_ge_corner (- a2) (- a1) b1 b2 (- X) Y ltac:(lra) Hy) as [H|[H|[H|H]]];
    [right; right; left | right; right; right | left | right; left]; lra.
Qed.

Lemma fmul_sound x y a b : inF x a -> inF y b -> inF (x * y) (fmul a b).
Proof.
  destruct a as [a1 a2], b as [b1 b2]. unfold inF at 1 2, fmul, dn, up. cbn [fst snd]. intros Hx Hy.
  apply inF_div; [exact K_pos|]. fold KR. replace (x * y * KR * KR) with (x * KR * (y * KR)) by ring. split.
  - destruct (mul_ge_corner _ _ _ _ _ _ Hx Hy) as [H|[H|[H|H]]]; rewrite <- mult_IZR in H;
      (eapply Rle_trans; [apply IZR_le|exact H]); unfold min4; lia.
  - destruct (mul_le_corner _ _ _ _ _ _ Hx Hy) as [H|[H|[H|H]]]; rewrite <- mult_IZR in H;
      (eapply Rle_trans; [exact H|apply IZR_le]); unfold max4; lia.
Qed.

Lemma fabsmax_sound x a : inF x a -> (x * KR) * (x * KR) <= IZR (fabsmax a * fabsmax a).
Proof.
  unfold inF, fabsmax. destruct a as [lo hi]. cbn [fst snd]. intros [H1 H2].
  set (m := Z.max (Z.abs lo) (Z.abs hi)).
  assert (A : (- m <= lo)%Z) by (unfold m; lia). assert (B : (hi <= m)%Z) by (unfold m; lia).
  apply IZR_le in A, B. rewrite opp_IZR in A. rewrite mult_IZR. nra.
Qed.

(* complex enclosures; Coquelicot's C = R * R *)
Definition inC (z : C) (c : ci) : Prop := inF (fst z) (fst c) /\ inF (snd z) (snd c).
Lemma czero_sound : inC (RtoC 0) czero.
Proof. unfold inC, czero, inF, fpt; simpl. split; lra. Qed.
Lemma cone_sound : inC (RtoC 1) cone.
Proof. unfold inC, cone, inF, fpt, KR; simpl. split; lra. Qed.
Lemma cadd_sound x y a b : inC x a -> inC y b -> inC (Cplus x y) (cadd a b).
Proof. intros [H1 H2] [H3 H4]. split; simpl; apply fadd_sound; assumption. Qed.
Lemma cmul_sound x y a b : inC x a -> inC y b -> inC (Cmult x y) (cmul a b).
Proof.
  intros [H1 H2] [H3 H4]. split; simpl.
  - apply fsub_sound; apply fmul_sound; assumption.
  - apply fadd_sound; apply fmul_sound; assumption.
Qed.
Lemma csub_sound x y a b : inC x a -> inC y b -> inC (Cminus x y) (csub a b).
Proof. intros [H1 H2] [H3 H4]. split; simpl; apply fsub_sound; assumption. Qed.

Definition Cmod2 (z : C) : R := fst z * fst z + snd z * snd z.
Lemma cnorm2_ub_sound z c : inC z c -> Cmod2 z * (KR * KR) <= IZR (cnorm2_ub c).
Proof.
  intros [H1 H2]. apply fabsmax_sound in H1, H2. unfold Cmod2, cnorm2_ub. rewrite plus_IZR. nra.
Qed.

Lemma Forall2_nth {A B} (P : A -> B -> Prop) da db l l' : P da db -> Forall2 P l l' -> forall i, P (nth i l da) (nth i l' db).
Proof. intros Hd. induction 1; intros [|i]; simpl; auto. Qed.
Lemma Forall2_nth_error {A B} (P : A -> B -> Prop) l l' : Forall2 P l l' -> forall k y, nth_error l' k = Some y ->
  exists x, nth_error l k = Some x /\ P x y.
Proof.
  induction 1 as [|a b l l' Hab Hl IH]; intros [|k] y E; simpl in E; try discriminate.
  - injection E as <-. exists a. split; [reflexivity|exact Hab].
  - apply IH, E.
Qed.
Lemma Forall2_map_r {A B C} (P : A -> C -> Prop) (f : B -> C) l' : forall l, Forall2 P l (map f l') -> Forall2 (fun a b => P a (f b)) l l'.
Proof. induction l' as [|b l' IH]; intros l H; inversion H; subst; constructor; auto. Qed.
Lemma Forall2_map_forallb {A B C} (P : B -> C -> Prop) (f : A -> B) (g : A -> C) ok l :
  (forall x, ok x = true -> P (f x) (g x)) -> forallb ok l = true -> Forall2 P (map f l) (map g l).
Proof.
  intros Hok. induction l as [|x l IH]; simpl; intros H; constructor; apply andb_prop in H as [H1 H2]; auto.
Qed.

Section Rel.
  Variables (A B : Type) (R : A -> B -> Prop).
  Variables (za oa : A) (zb ob : B) (adda mula : A -> A -> A) (addb mulb : B -> B -> B).
  Hypothesis Rz : R za zb.
  Hypothesis Ro : R oa ob.
  Hypothesis Radd : forall a a' b b', R a b -> R a' b' -> R (adda a a') (addb b b').
  Hypothesis Rmul : forall a a' b b', R a b -> R a' b' -> R (mula a a') (mulb b b').

  Lemma mnth_rel M M' r c : Forall2 (Forall2 R) M M' -> R (mnth za M r c) (mnth zb M' r c).
  Proof. intros H. unfold mnth. apply Forall2_nth; [exact Rz|]. apply Forall2_nth; [constructor | exact H]. Qed.

  Lemma apply_entry_rel n ws M M' v v' i : Forall2 (Forall2 R) M M' -> Forall2 R v v' ->
    R (apply_entry za adda mula n ws M v i) (apply_entry zb addb mulb n ws M' v' i).
  Proof.
    intros HM Hv. unfold apply_entry.
    induction (seq 0 (2 ^ length ws)) as [|x l IH]; simpl; [exact Rz|].
    apply Radd; [|exact IH]. apply Rmul; [apply mnth_rel, HM | unfold vnth; apply Forall2_nth; [exact Rz | exact Hv]].
  Qed.
  Lemma apply_gate_rel n ws M M' v v' : Forall2 (Forall2 R) M M' -> Forall2 R v v' ->
    Forall2 R (apply_gate za adda mula n ws M v) (apply_gate zb addb mulb n ws M' v').
  Proof.
    intros HM Hv. unfold apply_gate. induction (seq 0 (2 ^ n)) as [|x l IH]; simpl; constructor; [|exact IH].
    apply apply_entry_rel; assumption.
  Qed.
  Definition grel (g : gate A) (g' : gate B) : Prop := fst g = fst g' /\ Forall2 (Forall2 R) (snd g) (snd g').
  Lemma capply_rel n c c' : Forall2 grel c c' -> forall v v', Forall2 R v v' ->
    Forall2 R (capply za adda mula n c v) (capply zb addb mulb n c' v').
  Proof.
    unfold capply. induction 1 as [|g g' c c' [Hw HM] Hc IH]; intros v v' Hv; simpl; [exact Hv|].
    apply IH. rewrite Hw. apply apply_gate_rel; assumption.
  Qed.
  Lemma basis_rel n c : Forall2 R (basis za oa n c) (basis zb ob n c).
  Proof. unfold basis. induction (seq 0 (2 ^ n)) as [|x l IH]; simpl; constructor; [destruct (Nat.eqb x c); assumption | exact IH]. Qed.
End Rel.

Definition gate_in (gi : igate) (g : gate C) : Prop := grel ci C (fun a z => inC z a) gi g.

Lemma circuit_column_enclosed n gatesI gatesC c : Forall2 gate_in gatesI gatesC ->
  Forall2 (fun a z => inC z a) (i_capply n gatesI (i_basis n c)) (c_capply n gatesC (c_basis n c)).
Proof.
  intros H. unfold i_capply, c_capply, i_basis, c_basis.
  apply (capply_rel ci C (fun a z => inC z a) czero (RtoC 0) cadd cmul Cplus Cmult).
  - exact czero_sound.
  - intros; apply cadd_sound; assumption.
  - intros; apply cmul_sound; assumption.
  - exact H.
  - apply basis_rel; [exact czero_sound | exact cone_sound].
Qed.

Lemma col_ok_sound b2 gotI : forall gotC colI colC,
  Forall2 (fun a z => inC z a) gotI gotC -> Forall2 (fun a z => inC z a) colI colC -> col_ok b2 gotI colI = true ->
  Forall2 (fun g w => Cmod2 (Cminus g w) * (KR * KR) <= IZR b2) gotC colC.
Proof.
  induction gotI as [|g gs IH]; intros gotC colI colC Hg Hc H.
  - inversion Hg; subst. destruct colI; simpl in H; [|discriminate]. inversion Hc; subst. constructor.
  - inversion Hg as [|? gc ? gcs Hg1 Hg2]; subst. destruct colI as [|w ws]; simpl in H; [discriminate|].
    inversion Hc as [|? wc ? wcs Hc1 Hc2]; subst. apply andb_prop in H as [Ha Hb]. constructor.
    + apply Z.leb_le, IZR_le in Ha. eapply Rle_trans; [apply cnorm2_ub_sound, csub_sound; eassumption | exact Ha].
    + eapply IH; eassumption.
Qed.

Lemma cols_check_nth n gates b2 : forall UI c0 k colI, cols_check n gates b2 c0 UI = true -> nth_error UI k = Some colI ->
  col_ok b2 (i_capply n gates (i_basis n (c0 + k))) colI = true.
Proof.
  induction UI as [|col r IH]; intros c0 k colI H E; [destruct k; discriminate|].
  simpl in H. apply andb_prop in H as [H1 H2]. destruct k as [|k]; simpl in E.
  - injection E as <-. rewrite Nat.add_0_r. exact H1.
  - replace (c0 + S k)%nat with (S c0 + k)%nat by lia. apply IH; assumption.
Qed.

(* if every gate entry and every entry of U lies in its enclosure and the check passes, then every entry of
   (circuit - U) has squared modulus at most b2 / K^2 -- for the TRUE complex matrices. *)
Theorem interval_check_sound n gatesI gatesC UI UC b2 :
  Forall2 gate_in gatesI gatesC ->
  Forall2 (Forall2 (fun a z => inC z a)) UI UC ->
  dist_check n gatesI UI b2 = true ->
  length UC = (2 ^ n)%nat /\
  forall c colC, nth_error UC c = Some colC ->
    Forall2 (fun g w => Cmod2 (Cminus g w) * (KR * KR) <= IZR b2) (c_capply n gatesC (c_basis n c)) colC.
Proof.
  intros HG HU H. unfold dist_check in H. apply andb_prop in H as [HL HC]. split.
  - apply Nat.eqb_eq in HL. rewrite <- HL. symmetry. eapply Forall2_length, HU.
  - intros c colC E. destruct (Forall2_nth_error _ _ _ HU c colC E) as [colI [EI HI]].
    pose proof (cols_check_nth n gatesI b2 UI 0 c colI HC EI) as OK. simpl in OK.
    eapply col_ok_sound; [apply circuit_column_enclosed, HG | exact HI | exact OK].
Qed.

(* the bound used by check_dist:  b2 / K^2 <= 1e-14, i.e. |entry| <= 1e-7 *)
Lemma bound2_meaning : IZR bound2 <= 1 / 100000000000000 * (KR * KR).
Proof.
  unfold bound2, KR. rewrite <- mult_IZR.
  pose proof (Z.mul_div_le (K * K) 100000000000000 eq_refl) as H. apply IZR_le in H. rewrite mult_IZR in H. lra.
Qed.

Corollary interval_check_entry_bound z : Cmod2 z * (KR * KR) <= IZR bound2 -> Cmod2 z <= 1 / 100000000000000.
Proof.
  intros H. pose proof bound2_meaning as B. pose proof KR_pos as HK.
  assert (0 < KR * KR) by nra. apply Rmult_le_reg_r with (KR * KR); [assumption|]. lra.
Qed.

(* exact rationals are enclosed by the intervals computed in the model *)
Lemma f_of_qz_sound a d : (0 < d)%Z -> inF (IZR a / IZR d) (f_of_qz (a, d)).
Proof.
  intros Hd. unfold f_of_qz. rewrite Z.mul_opp_l. apply inF_div; [exact Hd|].
  apply IZR_lt in Hd. rewrite mult_IZR. fold KR.
  replace (IZR a / IZR d * KR * IZR d) with (IZR a * KR) by (field; lra). lra.
Qed.

(* the enclosure of sqrt(1/2) supplied with each case is verified by the model itself *)
Lemma half_ok_sound h : half_ok h = true -> inF (sqrt (1 / 2)) h.
Proof.
  unfold half_ok, inF. destruct h as [lo hi]. cbn [fst snd]. intros H.
  apply andb_prop in H as [H H4]. apply andb_prop in H as [H H3]. apply andb_prop in H as [H1 H2].
  apply Z.leb_le, IZR_le in H1, H2, H3, H4.
  rewrite !mult_IZR in H3, H4. fold KR in H3, H4.
  pose proof KR_pos as HK. pose proof (sqrt_pos (1 / 2)) as S0.
  assert (E : Rsqr (sqrt (1 / 2) * KR) = KR * KR / 2) by (rewrite Rsqr_mult, Rsqr_sqrt by lra; unfold Rsqr; field).
  (* both bounds compare squares of nonnegative numbers *)
  split; apply Rsqr_incr_0; rewrite ?E; unfold Rsqr; nra.
Qed.

(* value of an exact rational / of an exact element of Q(zeta_8) *)
Definition qzR (q : qz) : R := IZR (fst q) / IZR (snd q).
Definition z8C (x : z8) : C :=
  let '(a, b, c, d) := x in (qzR a + (qzR b - qzR d) * sqrt (1 / 2), qzR c + (qzR b + qzR d) * sqrt (1 / 2)).

Lemma f_of_qz_sound' q : qz_ok q = true -> inF (qzR q) (f_of_qz q).
Proof. destruct q as [a d]. intros H. apply f_of_qz_sound, Z.ltb_lt, H. Qed.
Lemma qz_sub_ok x y : qz_ok x = true -> qz_ok y = true -> qz_ok (qz_sub x y) = true /\ qzR (qz_sub x y) = qzR x - qzR y.
Proof.
  destruct x as [a d], y as [b e]. unfold qz_ok, qz_sub, qzR. cbn [fst snd]. rewrite !Z.ltb_lt. intros Hd He.
  split; [apply Z.mul_pos_pos; assumption|]. apply IZR_lt in Hd, He. rewrite minus_IZR, !mult_IZR. field. lra.
Qed.
Lemma qz_add_ok x y : qz_ok x = true -> qz_ok y = true -> qz_ok (qz_add x y) = true /\ qzR (qz_add x y) = qzR x + qzR y.
Proof.
  destruct x as [a d], y as [b e]. unfold qz_ok, qz_add, qzR. cbn [fst snd]. rewrite !Z.ltb_lt. intros Hd He.
  split; [apply Z.mul_pos_pos; assumption|]. apply IZR_lt in Hd, He. rewrite plus_IZR, !mult_IZR. field. lra.
Qed.

Lemma z8_encl_sound h x : half_ok h = true -> z8_ok x = true -> inC (z8C x) (z8_encl h x).
Proof.
  intros Hh Hx. apply half_ok_sound in Hh. destruct x as [[[a b] c] d]. unfold z8_ok in Hx.
  apply andb_prop in Hx as [Hx Hd]. apply andb_prop in Hx as [Hx Hc]. apply andb_prop in Hx as [Ha Hb].
  destruct (qz_sub_ok b d Hb Hd) as [S1 S2]. destruct (qz_add_ok b d Hb Hd) as [A1 A2].
  unfold z8C, z8_encl, inC. cbn [fst snd]. split.
  - apply fadd_sound; [apply f_of_qz_sound', Ha|]. rewrite <- S2. apply fmul_sound; [apply f_of_qz_sound', S1 | exact Hh].
  - apply fadd_sound; [apply f_of_qz_sound', Hc|]. rewrite <- A2. apply fmul_sound; [apply f_of_qz_sound', A1 | exact Hh].
Qed.

Lemma z8_cols_sound h U : half_ok h = true -> forallb (forallb z8_ok) U = true ->
  Forall2 (Forall2 (fun a z => inC z a)) (map (map (z8_encl h)) U) (map (map z8C) U).
Proof.
  intros Hh. apply Forall2_map_forallb. intros col. apply Forall2_map_forallb. intros x. apply z8_encl_sound, Hh.
Qed.

(* check_dist as evaluated per run: the unitary is the EXACT matrix over Q(zeta_8) given in the case *)
Theorem check_dist_sound x gatesC : check_dist x = true -> Forall2 gate_in (dc_gates x) gatesC ->
  forall c colX, nth_error (dc_U x) c = Some colX ->
    Forall2 (fun g w => Cmod2 (Cminus g (z8C w)) <= 1 / 100000000000000) (c_capply (dc_n x) gatesC (c_basis (dc_n x) c)) colX.
Proof.
  unfold check_dist. intros H HG c colX E.
  apply andb_prop in H as [H HD]. apply andb_prop in H as [Hh HZ].
  pose proof (z8_cols_sound _ _ Hh HZ) as HU.
  destruct (interval_check_sound _ _ _ _ _ _ HG HU HD) as [_ HS].
  specialize (HS c (map z8C colX)). rewrite nth_error_map, E in HS.
  apply (Forall2_map_r (fun g w => Cmod2 (Cminus g w) <= 1 / 100000000000000) z8C).
  eapply Forall2_impl; [|exact (HS eq_refl)]. intros g w. apply interval_check_entry_bound.
Qed.
