(* C59: lemmas about the model of pennylane.fourier (coq/Num/FourierModel.v), in this order.
   Finite sets of rationals as lists: membership up to == (InQ), the canonical form setQ (strictly sorted, so
   two canonical lists with the same members are equal entry by entry: ssorted_ext), sumset algebra.
   The transcription (join_nn on non-negative half spectra, then mirror) equals the sumset of the full
   spectra; |jac| scaling = scaling of the full spectrum; gate half spectrum = eigenvalue differences.
   Finite Fourier sums: product -> sumset of frequencies, evaluation homomorphism, x -> a x.
   DFT in an arbitrary commutative ring: orthogonality and exactness for band-limited samples (all N);
   exact orthogonality in the model's cyclotomic coordinates for odd N <= 17 (by computation);
   low-pass index bookkeeping. *)
From Coq Require Import List ZArith QArith Qabs Bool Lia Lqa Setoid.
From PLV Require Import Num.FourierModel.
Import ListNotations.
Open Scope Q_scope.

(* membership up to equality of rationals *)
Definition InQ (x : Q) (l : list Q) : Prop := exists y, In y l /\ x == y.
Fixpoint nodupQ (l : list Q) : Prop := match l with [] => True | x :: r => ~ InQ x r /\ nodupQ r end.
Fixpoint ssorted (l : list Q) : Prop := match l with [] => True | x :: r => (forall y, In y r -> x < y) /\ ssorted r end.
Fixpoint wsorted (l : list Q) : Prop := match l with [] => True | x :: r => (forall y, In y r -> x <= y) /\ wsorted r end.
Definition nonneg (l : list Q) : Prop := forall y, In y l -> 0 <= y.

Lemma InQ_compat x x' l : x == x' -> InQ x l -> InQ x' l.
Proof. intros E (y & Hy & Hx). exists y. split; [exact Hy|]. rewrite <- E. exact Hx. Qed.
Lemma InQ_nil x : ~ InQ x [].
Proof. intros (y & [] & _). Qed.
Lemma InQ_cons x y l : InQ x (y :: l) <-> x == y \/ InQ x l.
Proof.
  split.
  - intros (z & [<-|Hz] & E); [left; exact E | right; exists z; auto].
  - intros [E|(z & Hz & E)]; [exists y; split; [left; reflexivity | exact E] | exists z; split; [right; exact Hz | exact E]].
Qed.
Lemma InQ_app x a b : InQ x (a ++ b) <-> InQ x a \/ InQ x b.
Proof.
  split.
  - intros (z & Hz & E). apply in_app_or in Hz as [Hz|Hz]; [left|right]; exists z; auto.
  - intros [(z & Hz & E)|(z & Hz & E)]; exists z; split; auto; apply in_or_app; auto.
Qed.
Lemma In_InQ x l : In x l -> InQ x l.
Proof. intros H. exists x. split; [exact H | reflexivity]. Qed.
Lemma InQ_map_opp x l : InQ x (map Qopp l) <-> InQ (- x) l.
Proof.
  split.
  - intros (z & Hz & E). apply in_map_iff in Hz as (u & <- & Hu). exists u. split; [exact Hu|]. rewrite E. ring.
  - intros (z & Hz & E). exists (- z). split; [apply in_map; exact Hz|]. rewrite <- E. ring.
Qed.
Lemma InQ_map_mul c x l : InQ x (map (Qmult c) l) <-> exists u, InQ u l /\ x == c * u.
Proof.
  split.
  - intros (z & Hz & E). apply in_map_iff in Hz as (u & <- & Hu). exists u. split; [apply In_InQ; exact Hu | exact E].
  - intros (u & (z & Hz & Eu) & E). exists (c * z). split; [apply in_map; exact Hz|]. rewrite E, Eu. reflexivity.
Qed.

Lemma memQ_spec x l : memQ x l = true <-> InQ x l.
Proof.
  unfold memQ. rewrite existsb_exists. split; intros (y & Hy & E); exists y; split; auto; apply Qeq_bool_iff; exact E.
Qed.
Lemma InQ_nubQ x l : InQ x (nubQ l) <-> InQ x l.
Proof.
  induction l as [|y l IH]; [reflexivity|]. cbn [nubQ]. destruct (memQ y l) eqn:M.
  - rewrite IH, InQ_cons. split; [auto|]. intros [E|H]; [|exact H]. apply memQ_spec in M. apply (InQ_compat y); [symmetry; exact E | exact M].
  - rewrite !InQ_cons, IH. reflexivity.
Qed.
Lemma nubQ_nodup l : nodupQ (nubQ l).
Proof.
  induction l as [|y l IH]; [exact I|]. cbn [nubQ]. destruct (memQ y l) eqn:M; [exact IH|].
  split; [|exact IH]. rewrite InQ_nubQ. intros H. apply memQ_spec in H. congruence.
Qed.
Lemma InQ_insQ x y l : InQ x (insQ y l) <-> x == y \/ InQ x l.
Proof.
  induction l as [|z l IH]; cbn [insQ]; [apply InQ_cons|].
  destruct (Qle_bool y z); [apply InQ_cons|]. rewrite InQ_cons, IH, InQ_cons. tauto.
Qed.
Lemma In_insQ x y l : In x (insQ y l) <-> x = y \/ In x l.
Proof.
  induction l as [|z l IH]; cbn [insQ]; [cbn; intuition|].
  destruct (Qle_bool y z); [cbn; intuition|]. cbn [In]. rewrite IH. cbn [In]. intuition.
Qed.
Lemma InQ_sortQ x l : InQ x (sortQ l) <-> InQ x l.
Proof.
  induction l as [|y l IH]; [reflexivity|]. unfold sortQ in *. cbn [fold_right]. rewrite InQ_insQ, IH, InQ_cons. reflexivity.
Qed.
Lemma In_sortQ x l : In x (sortQ l) <-> In x l.
Proof.
  induction l as [|y l IH]; [reflexivity|]. unfold sortQ in *. cbn [fold_right]. rewrite In_insQ, IH. cbn [In]. intuition.
Qed.
Lemma InQ_setQ x l : InQ x (setQ l) <-> InQ x l.
Proof. unfold setQ. rewrite InQ_sortQ. apply InQ_nubQ. Qed.

Lemma insQ_wsorted y l : wsorted l -> wsorted (insQ y l).
Proof.
  induction l as [|z l IH]; intros H; cbn [insQ]; [split; [intros ? []|exact I]|].
  destruct (Qle_bool y z) eqn:L.
  - apply Qle_bool_iff in L. split; [|exact H]. destruct H as [Hz _]. intros u [<-|Hu]; [exact L|].
    apply Qle_trans with z; [exact L | apply Hz; exact Hu].
  - assert (Lt : z <= y). { destruct (Qlt_le_dec z y) as [G|G]; [apply Qlt_le_weak; exact G|]. apply Qle_bool_iff in G. congruence. }
    destruct H as [Hz Hs]. split; [|apply IH; exact Hs]. intros u Hu. apply In_insQ in Hu as [->|Hu]; [exact Lt | apply Hz; exact Hu].
Qed.
Lemma sortQ_wsorted l : wsorted (sortQ l).
Proof. induction l as [|y l IH]; [exact I|]. unfold sortQ in *. cbn [fold_right]. apply insQ_wsorted. exact IH. Qed.
Lemma insQ_ssorted y l : ssorted l -> ~ InQ y l -> ssorted (insQ y l).
Proof.
  induction l as [|z l IH]; intros H N; cbn [insQ]; [split; [intros ? []|exact I]|].
  assert (Nz : ~ y == z). { intros E. apply N. apply InQ_cons. left. exact E. }
  assert (Nl : ~ InQ y l). { intros E. apply N. apply InQ_cons. right. exact E. }
  destruct (Qle_bool y z) eqn:L.
  - apply Qle_bool_iff in L. assert (Lt : y < z). { apply Qle_lteq in L as [L|L]; [exact L | contradiction]. }
    split; [|exact H]. destruct H as [Hz _]. intros u [<-|Hu]; [exact Lt|]. apply Qlt_trans with z; [exact Lt | apply Hz; exact Hu].
  - assert (Lt : z < y). { destruct (Qlt_le_dec z y) as [G|G]; [exact G|]. apply Qle_bool_iff in G. congruence. }
    destruct H as [Hz Hs]. split; [|apply IH; assumption]. intros u Hu. apply In_insQ in Hu as [->|Hu]; [exact Lt | apply Hz; exact Hu].
Qed.
Lemma sortQ_ssorted l : nodupQ l -> ssorted (sortQ l).
Proof.
  induction l as [|y l IH]; intros H; [exact I|]. destruct H as [N H]. unfold sortQ in *. cbn [fold_right].
  apply insQ_ssorted; [apply IH; exact H|]. change (~ InQ y (sortQ l)). rewrite InQ_sortQ. exact N.
Qed.
Lemma setQ_ssorted l : ssorted (setQ l).
Proof. apply sortQ_ssorted, nubQ_nodup. Qed.

Lemma ssorted_head_lt x l y : ssorted (x :: l) -> InQ y l -> x < y.
Proof. intros [H _] (z & Hz & E). rewrite E. apply H. exact Hz. Qed.
(* two strictly sorted lists with the same members are equal entry by entry *)
Lemma ssorted_ext a : forall b, ssorted a -> ssorted b -> (forall x, InQ x a <-> InQ x b) -> Forall2 Qeq a b.
Proof.
  induction a as [|x a IH]; intros [|y b] Ha Hb E.
  - constructor.
  - exfalso. apply (InQ_nil y). apply E. apply InQ_cons. left. reflexivity.
  - exfalso. apply (InQ_nil x). apply E. apply InQ_cons. left. reflexivity.
  - assert (Exy : x == y).
    { destruct (proj1 (InQ_cons x y b) (proj1 (E x) (proj2 (InQ_cons x x a) (or_introl (Qeq_refl x))))) as [G|G]; [exact G|].
      destruct (proj1 (InQ_cons y x a) (proj2 (E y) (proj2 (InQ_cons y y b) (or_introl (Qeq_refl y))))) as [G'|G']; [symmetry; exact G'|].
      pose proof (ssorted_head_lt _ _ _ Hb G). pose proof (ssorted_head_lt _ _ _ Ha G'). lra. }
    constructor; [exact Exy|]. apply IH; [apply Ha | apply Hb|]. intros z. split; intros Hz.
    + assert (G : InQ z (y :: b)) by (apply E, InQ_cons; right; exact Hz). apply InQ_cons in G as [G|G]; [|exact G].
      pose proof (ssorted_head_lt _ _ _ Ha Hz). lra.
    + assert (G : InQ z (x :: a)) by (apply E, InQ_cons; right; exact Hz). apply InQ_cons in G as [G|G]; [|exact G].
      pose proof (ssorted_head_lt _ _ _ Hb Hz). lra.
Qed.

Lemma In_sums x a b : In x (sums a b) <-> exists u v, In u a /\ In v b /\ x = u + v.
Proof.
  unfold sums. rewrite in_flat_map. split.
  - intros (u & Hu & H). apply in_map_iff in H as (v & <- & Hv). exists u, v. auto.
  - intros (u & v & Hu & Hv & ->). exists u. split; [exact Hu | apply in_map; exact Hv].
Qed.
Lemma InQ_sums x a b : InQ x (sums a b) <-> exists u v, InQ u a /\ InQ v b /\ x == u + v.
Proof.
  split.
  - intros (z & Hz & E). apply In_sums in Hz as (u & v & Hu & Hv & ->). exists u, v. repeat split; auto using In_InQ.
  - intros (u & v & (u' & Hu & Eu) & (v' & Hv & Ev) & E). exists (u' + v'). split; [apply In_sums; exists u', v'; auto|].
    rewrite E, Eu, Ev. reflexivity.
Qed.
Lemma sumset_spec x a b : InQ x (sumset a b) <-> exists u v, InQ u a /\ InQ v b /\ x == u + v.
Proof. unfold sumset. rewrite InQ_setQ. apply InQ_sums. Qed.
Lemma sumset_spec_In x a b : InQ x (sumset a b) <-> exists u v, In u a /\ In v b /\ x == u + v.
Proof.
  rewrite sumset_spec. split.
  - intros (u & v & (u' & Hu & Eu) & (v' & Hv & Ev) & E). exists u', v'. repeat split; auto. rewrite E, Eu, Ev. reflexivity.
  - intros (u & v & Hu & Hv & E). exists u, v. repeat split; auto using In_InQ.
Qed.
Lemma sumset_comm_mem x a b : InQ x (sumset a b) <-> InQ x (sumset b a).
Proof. rewrite !sumset_spec. split; intros (u & v & Hu & Hv & E); exists v, u; repeat split; auto; rewrite E; ring. Qed.
Lemma sumset_assoc_mem x a b c : InQ x (sumset (sumset a b) c) <-> InQ x (sumset a (sumset b c)).
Proof.
  rewrite !sumset_spec. split.
  - intros (s & w & Hs & Hw & E). apply sumset_spec in Hs as (u & v & Hu & Hv & Es).
    exists u, (v + w). split; [exact Hu|]. split.
    + apply sumset_spec. exists v, w. split; [exact Hv|]. split; [exact Hw | reflexivity].
    + rewrite E, Es. ring.
  - intros (u & s & Hu & Hs & E). apply sumset_spec in Hs as (v & w & Hv & Hw & Es).
    exists (u + v), w. split.
    + apply sumset_spec. exists u, v. split; [exact Hu|]. split; [exact Hv | reflexivity].
    + split; [exact Hw|]. rewrite E, Es. ring.
Qed.
Lemma sumset_comm a b : Forall2 Qeq (sumset a b) (sumset b a).
Proof. apply ssorted_ext; try apply setQ_ssorted. intros x. apply sumset_comm_mem. Qed.
Lemma sumset_assoc a b c : Forall2 Qeq (sumset (sumset a b) c) (sumset a (sumset b c)).
Proof. apply ssorted_ext; try apply setQ_ssorted. intros x. apply sumset_assoc_mem. Qed.
Lemma scaleset_spec c x a : InQ x (scaleset c a) <-> exists u, InQ u a /\ x == c * u.
Proof. unfold scaleset. rewrite InQ_setQ. apply InQ_map_mul. Qed.
Lemma scaleset_sumset c a b x : InQ x (scaleset c (sumset a b)) <-> InQ x (sumset (scaleset c a) (scaleset c b)).
Proof.
  rewrite scaleset_spec, sumset_spec. split.
  - intros (s & Hs & E). apply sumset_spec in Hs as (u & v & Hu & Hv & Es). exists (c * u), (c * v).
    repeat split; [apply scaleset_spec; exists u; split; [auto|reflexivity] | apply scaleset_spec; exists v; split; [auto|reflexivity]|].
    rewrite E, Es. ring.
  - intros (u' & v' & Hu & Hv & E). apply scaleset_spec in Hu as (u & Hu & Eu). apply scaleset_spec in Hv as (v & Hv & Ev).
    exists (u + v). split; [apply sumset_spec; exists u, v; repeat split; auto; reflexivity|]. rewrite E, Eu, Ev. ring.
Qed.

Lemma sortQ_nonneg s : nonneg s -> nonneg (sortQ s).
Proof. intros H y Hy. apply H. apply In_sortQ. exact Hy. Qed.

Lemma InQ_mirror x s : nonneg s -> InQ 0 s -> (InQ x (mirror s) <-> InQ x s \/ InQ (- x) s).
Proof.
  intros Hn H0. unfold mirror. cbv zeta. rewrite InQ_app, InQ_map_opp.
  assert (Hrev : forall z l, InQ z (rev l) <-> InQ z l).
  { intros z l. split; intros (y & Hy & E); exists y; split; auto; [apply in_rev; exact Hy | apply in_rev in Hy; exact Hy]. }
  rewrite Hrev. rewrite <- (InQ_sortQ x s), <- (InQ_sortQ (- x) s).
  pose proof (sortQ_wsorted s) as Hw. pose proof (sortQ_nonneg s Hn) as Hn'. apply InQ_sortQ in H0.
  destruct (sortQ s) as [|h t]; [cbn [tl]; tauto|]. cbn [tl]. split.
  - intros [H|H]; [right; apply InQ_cons; right; exact H | left; exact H].
  - intros [H|H]; [right; exact H|]. apply InQ_cons in H as [E|H]; [|left; exact H]. right.
    (* -x == h and h is the minimum, 0 is a member, everything is non-negative: h == 0 *)
    assert (Hh : h == 0).
    { apply Qle_antisym; [|apply Hn'; left; reflexivity]. apply InQ_cons in H0 as [E0|(z & Hz & E0)]; [rewrite E0; apply Qle_refl|].
      destruct Hw as [Hw _]. rewrite E0. apply Hw. exact Hz. }
    apply InQ_cons. left. rewrite Hh in E. lra.
Qed.

Lemma In_join_raw x a b : In x (join_raw a b) <-> exists u v, In u a /\ In v b /\ (x = u + v \/ x = Qabs (u - v)).
Proof.
  unfold join_raw. rewrite in_app_iff, !in_flat_map. split.
  - intros [(u & Hu & H)|(u & Hu & H)]; apply in_map_iff in H as (v & <- & Hv); exists u, v; auto.
  - intros (u & v & Hu & Hv & [->| ->]); [left|right]; exists u; (split; [exact Hu|]); apply in_map_iff; exists v; auto.
Qed.

Lemma is_zero_set_spec s : is_zero_set s = true -> exists z, s = [z] /\ z == 0.
Proof. destruct s as [|z [|? ?]]; cbn; try discriminate. intros H. exists z. split; [reflexivity | apply Qeq_bool_iff; exact H]. Qed.

Lemma InQ_join_nn x a b : nonneg a -> nonneg b -> InQ 0 a -> InQ 0 b ->
  (InQ x (join_nn a b) <-> exists u v, In u a /\ In v b /\ (x == u + v \/ x == Qabs (u - v))).
Proof.
  intros Ha Hb Za Zb. unfold join_nn. destruct (is_zero_set a) eqn:Ea; [|destruct (is_zero_set b) eqn:Eb].
  - apply is_zero_set_spec in Ea as (z & -> & Ez). split.
    + intros (y & Hy & E). exists z, y. split; [left; reflexivity|]. split; [exact Hy|]. left. rewrite Ez, E. ring.
    + intros (u & v & [<-|[]] & Hv & [E|E]); exists v; (split; [exact Hv|]).
      * rewrite E, Ez. ring.
      * rewrite E. pose proof (Hb v Hv). rewrite Ez. setoid_replace (0 - v) with (- v) by ring. rewrite Qabs_opp. apply Qabs_pos. assumption.
  - apply is_zero_set_spec in Eb as (z & -> & Ez). split.
    + intros (y & Hy & E). exists y, z. split; [exact Hy|]. split; [left; reflexivity|]. left. rewrite Ez, E. ring.
    + intros (u & v & Hu & [<-|[]] & [E|E]); exists u; (split; [exact Hu|]).
      * rewrite E, Ez. ring.
      * rewrite E. pose proof (Ha u Hu). rewrite Ez. setoid_replace (u - 0) with u by ring. apply Qabs_pos. assumption.
  - rewrite InQ_nubQ. split.
    + intros (y & Hy & E). apply In_join_raw in Hy as (u & v & Hu & Hv & [->| ->]); exists u, v; auto.
    + intros (u & v & Hu & Hv & [E|E]); [exists (u + v) | exists (Qabs (u - v))]; (split; [apply In_join_raw; exists u, v; auto | exact E]).
Qed.

Lemma join_nn_nonneg a b : nonneg a -> nonneg b -> nonneg (join_nn a b).
Proof.
  intros Ha Hb. unfold join_nn. destruct (is_zero_set a); [exact Hb|]. destruct (is_zero_set b); [exact Ha|].
  intros y Hy. assert (G : InQ y (join_raw a b)) by (apply InQ_nubQ, In_InQ; exact Hy).
  destruct G as (z & Hz & E). apply In_join_raw in Hz as (u & v & Hu & Hv & [->| ->]); rewrite E.
  - pose proof (Ha u Hu). pose proof (Hb v Hv). lra.
  - apply Qabs_nonneg.
Qed.

Lemma mirror_both u s : nonneg s -> InQ 0 s -> InQ u s -> InQ u (mirror s) /\ InQ (- u) (mirror s).
Proof.
  intros Hn H0 Hu. split; apply InQ_mirror; auto. right. apply (InQ_compat u); [ring | exact Hu].
Qed.

Lemma Qabs_cases x : (0 <= x /\ Qabs x == x) \/ (x <= 0 /\ Qabs x == - x).
Proof. destruct (Qlt_le_dec x 0) as [H|H]; [right; split; [lra | apply Qabs_neg; lra] | left; split; [exact H | apply Qabs_pos; exact H]]. Qed.

(* the implementation's bookkeeping on non-negative half spectra followed by the final mirroring
   = sumset of the full (mirrored) spectra *)
Lemma mirror_join_sumset x a b : nonneg a -> nonneg b -> InQ 0 a -> InQ 0 b ->
  (InQ x (mirror (join_nn a b)) <-> InQ x (sumset (mirror a) (mirror b))).
Proof.
  intros Ha Hb Za Zb.
  assert (Zj : InQ 0 (join_nn a b)).
  { apply InQ_join_nn; auto. destruct Za as (u & Hu & Eu). destruct Zb as (v & Hv & Ev). exists u, v. repeat split; auto. left. rewrite <- Eu, <- Ev. ring. }
  rewrite (InQ_mirror x _ (join_nn_nonneg a b Ha Hb) Zj), !InQ_join_nn by assumption. rewrite sumset_spec.
  split.
  - intros [(u & v & Hu & Hv & [E|E])|(u & v & Hu & Hv & [E|E])];
      destruct (mirror_both u a Ha Za (In_InQ u a Hu)) as [Pu Nu]; destruct (mirror_both v b Hb Zb (In_InQ v b Hv)) as [Pv Nv].
    + exists u, v. auto.
    + destruct (Qabs_cases (u - v)) as [[G Eq]|[G Eq]]; rewrite Eq in E; [exists u, (- v) | exists (- u), v]; repeat split; auto; lra.
    + exists (- u), (- v). repeat split; auto. lra.
    + destruct (Qabs_cases (u - v)) as [[G Eq]|[G Eq]]; rewrite Eq in E; [exists (- u), v | exists u, (- v)]; repeat split; auto; lra.
  - intros (u' & v' & Hu & Hv & E).
    apply InQ_mirror in Hu; auto. apply InQ_mirror in Hv; auto.
    destruct Hu as [(u & Hu & Eu)|(u & Hu & Eu)]; destruct Hv as [(v & Hv & Ev)|(v & Hv & Ev)].
    + left. exists u, v. repeat split; auto. left. lra.
    + destruct (Qabs_cases (u - v)) as [[G Eq]|[G Eq]]; [left|right]; exists u, v; repeat split; auto; right; rewrite Eq; lra.
    + destruct (Qabs_cases (u - v)) as [[G Eq]|[G Eq]]; [right|left]; exists u, v; repeat split; auto; right; rewrite Eq; lra.
    + right. exists u, v. repeat split; auto. left. lra.
Qed.

(* scaling by |jac| on the half spectrum = scaling the full spectrum by jac (qnode_spectrum) *)
Lemma mirror_scale x j s : nonneg s -> InQ 0 s ->
  (InQ x (mirror (map (Qmult (Qabs j)) s)) <-> exists u, InQ u (mirror s) /\ x == j * u).
Proof.
  intros Hn H0.
  assert (Hn' : nonneg (map (Qmult (Qabs j)) s)).
  { intros y Hy. apply in_map_iff in Hy as (u & <- & Hu). apply Qmult_le_0_compat; [apply Qabs_nonneg | apply Hn; exact Hu]. }
  assert (H0' : InQ 0 (map (Qmult (Qabs j)) s)).
  { apply InQ_map_mul. exists 0. split; [exact H0 | ring]. }
  rewrite (InQ_mirror x _ Hn' H0'), !InQ_map_mul. split.
  - intros [(u & Hu & E)|(u & Hu & E)]; destruct (mirror_both u s Hn H0 Hu) as [Pu Nu];
      destruct (Qabs_cases j) as [[G Eq]|[G Eq]]; rewrite Eq in E;
      [exists u | exists (- u) | exists (- u) | exists u]; (split; [assumption | lra]).
  - intros (u & Hu & E). apply InQ_mirror in Hu; auto.
    destruct Hu as [Hu|Hu]; destruct (Qabs_cases j) as [[G Eq]|[G Eq]].
    + left. exists u. split; [exact Hu | rewrite Eq; exact E].
    + right. exists u. split; [exact Hu | rewrite Eq; lra].
    + right. exists (- u). split; [exact Hu | rewrite Eq; lra].
    + left. exists (- u). split; [exact Hu | rewrite Eq; lra].
Qed.

Lemma get_spectrum_zero ev : InQ 0 (get_spectrum ev).
Proof. unfold get_spectrum. apply InQ_nubQ, InQ_app. right. apply In_InQ. left. reflexivity. Qed.
Lemma pair_diffs_nonneg ev : wsorted ev -> nonneg (pair_diffs ev).
Proof.
  induction ev as [|x r IH]; intros H y Hy; [destruct Hy|]. destruct H as [Hx Hr]. cbn [pair_diffs] in Hy.
  apply in_app_or in Hy as [Hy|Hy]; [|apply IH; assumption]. apply in_map_iff in Hy as (z & <- & Hz). pose proof (Hx z Hz). lra.
Qed.
Lemma get_spectrum_nonneg ev : wsorted ev -> nonneg (get_spectrum ev).
Proof.
  intros H y Hy. assert (G : InQ y (pair_diffs ev ++ [0])) by (apply InQ_nubQ, In_InQ; exact Hy).
  destruct G as (z & Hz & E). rewrite E. apply in_app_or in Hz as [Hz|[<-|[]]]; [apply (pair_diffs_nonneg ev H); exact Hz | apply Qle_refl].
Qed.
Lemma In_pair_diffs ev x : In x (pair_diffs ev) -> exists e e', In e ev /\ In e' ev /\ x = e' - e.
Proof.
  induction ev as [|y r IH]; [intros []|]. cbn [pair_diffs]. intros H. apply in_app_or in H as [H|H].
  - apply in_map_iff in H as (z & <- & Hz). exists y, z. cbn [In]. auto.
  - destruct (IH H) as (e & e' & He & He' & ->). exists e, e'. cbn [In]. auto.
Qed.
Lemma pair_diffs_complete ev : forall e e', In e ev -> In e' ev -> InQ (e' - e) (pair_diffs ev ++ [0]) \/ InQ (e - e') (pair_diffs ev ++ [0]).
Proof.
  induction ev as [|y r IH]; [intros ? ? []|]. intros e e' [<-|He] [<-|He'].
  - left. apply InQ_app. right. exists 0. split; [left; reflexivity | ring].
  - left. apply InQ_app. left. apply In_InQ. cbn [pair_diffs]. apply in_or_app. left. apply in_map_iff. exists e'. auto.
  - right. apply InQ_app. left. apply In_InQ. cbn [pair_diffs]. apply in_or_app. left. apply in_map_iff. exists e. auto.
  - destruct (IH e e' He He') as [H|H]; [left|right]; apply InQ_app in H as [H|H]; apply InQ_app; auto; left;
      destruct H as (z & Hz & E); exists z; (split; [cbn [pair_diffs]; apply in_or_app; right; exact Hz | exact E]).
Qed.
(* the half spectrum of a gate, mirrored = all differences of two eigenvalues *)
Lemma get_spectrum_spec ev x : ev <> [] -> wsorted ev ->
  (InQ x (mirror (get_spectrum ev)) <-> exists e e', In e ev /\ In e' ev /\ x == e' - e).
Proof.
  intros Hne Hw.
  assert (Hex : exists e, In e ev) by (destruct ev as [|e ?]; [congruence | exists e; left; reflexivity]).
  destruct Hex as (e0 & He0).
  rewrite (InQ_mirror x _ (get_spectrum_nonneg ev Hw) (get_spectrum_zero ev)). unfold get_spectrum. rewrite !InQ_nubQ. split.
  - intros [H|H]; apply InQ_app in H as [(z & Hz & E)|(z & [<-|[]] & E)].
    + apply In_pair_diffs in Hz as (e & e' & He & He' & ->). exists e, e'. auto.
    + exists e0, e0. repeat split; auto. rewrite E. ring.
    + apply In_pair_diffs in Hz as (e & e' & He & He' & ->). exists e', e. repeat split; auto. lra.
    + exists e0, e0. repeat split; auto. lra.
  - intros (e & e' & He & He' & E). destruct (pair_diffs_complete ev e e' He He') as [H|H]; [left|right].
    + apply (InQ_compat (e' - e)); [symmetry; exact E | exact H].
    + apply (InQ_compat (e - e')); [rewrite E; ring | exact H].
Qed.

Lemma freqs_fmul f p q : In f (freqs (fmul p q)) -> exists u v, In u (freqs p) /\ In v (freqs q) /\ f = u + v.
Proof.
  unfold freqs, fmul. intros H. apply in_map_iff in H as (t & <- & Ht). apply in_flat_map in Ht as (s & Hs & Ht).
  apply in_map_iff in Ht as (t0 & <- & Ht0). exists (fst s), (fst t0). repeat split; try (apply in_map; assumption).
Qed.
Lemma freqs_fmul_sumset f p q : In f (freqs (fmul p q)) -> InQ f (sumset (freqs p) (freqs q)).
Proof. intros H. apply freqs_fmul in H as (u & v & Hu & Hv & ->). apply sumset_spec_In. exists u, v. split; [exact Hu|]. split; [exact Hv | reflexivity]. Qed.

Lemma feval_app chi p q : feval chi (p ++ q) == feval chi p + feval chi q.
Proof. induction p as [|t p IH]; cbn [feval app]; [ring | rewrite IH; ring]. Qed.
Lemma feval_fmul chi : (forall a b, chi (a + b) == chi a * chi b) ->
  forall p q, feval chi (fmul p q) == feval chi p * feval chi q.
Proof.
  intros Hchi p q. induction p as [|s p IH]; [cbn; ring|]. unfold fmul in *. cbn [flat_map feval]. rewrite feval_app, IH.
  assert (G : feval chi (map (fun t => (fst s + fst t, snd s * snd t)) q) == snd s * chi (fst s) * feval chi q).
  { clear IH. induction q as [|t q IHq]; cbn [map feval fst snd]; [ring|]. rewrite IHq, Hchi. ring. }
  rewrite G. ring.
Qed.
Lemma freqs_fscale a p : freqs (fscale_arg a p) = map (Qmult a) (freqs p).
Proof. unfold freqs, fscale_arg. rewrite !map_map. reflexivity. Qed.
Lemma feval_fscale chi a p : feval chi (fscale_arg a p) = feval (fun w => chi (a * w)) p.
Proof. induction p as [|t p IH]; cbn [fscale_arg map feval fst snd]; [reflexivity|]. unfold fscale_arg in IH. rewrite IH. reflexivity. Qed.

Section DFT.
Variable R : Type.
Variables (rO rI : R) (radd rmul rsub : R -> R -> R) (ropp : R -> R).
Hypothesis Rth : ring_theory rO rI radd rmul rsub ropp (@eq R).
Add Ring Rring : Rth.
Local Infix "+r" := radd (at level 50, left associativity).
Local Infix "*r" := rmul (at level 40, left associativity).
Local Infix "-r" := rsub (at level 50, left associativity).

Fixpoint rpow (w : R) (n : nat) : R := match n with O => rI | S k => w *r rpow w k end.
Fixpoint rsum (n : nat) (g : nat -> R) : R := match n with O => rO | S k => rsum k g +r g k end.
Fixpoint rnat (n : nat) : R := match n with O => rO | S k => rnat k +r rI end.
Definition regular (y : R) : Prop := forall z, y *r z = rO -> z = rO.

(* samples of the band-limited function with coefficients cs (by residue) and the DFT of the samples *)
Definition idft (N : nat) (w : R) (cs : nat -> R) (j : nat) : R := rsum N (fun r => cs r *r rpow w (j * r)).
Definition dft (N : nat) (w : R) (f : nat -> R) (q : nat) : R := rsum N (fun j => f j *r rpow w (j * (N - q))).

Lemma rpow_add w a b : rpow w (a + b) = rpow w a *r rpow w b.
Proof. induction a as [|a IH]; cbn [rpow Nat.add]; [ring | rewrite IH; ring]. Qed.
Lemma rpow_mul w a b : rpow w (a * b) = rpow (rpow w a) b.
Proof.
  induction b as [|b IH]; [rewrite Nat.mul_0_r; reflexivity|]. rewrite Nat.mul_succ_r, Nat.add_comm, rpow_add, IH. reflexivity.
Qed.
Lemma rpow_one n : rpow rI n = rI.
Proof. induction n as [|n IH]; cbn [rpow]; [reflexivity | rewrite IH; ring]. Qed.
Lemma rsum_ext n g h : (forall i, (i < n)%nat -> g i = h i) -> rsum n g = rsum n h.
Proof. induction n as [|n IH]; intros H; cbn [rsum]; [reflexivity|]. rewrite IH, H by (intros; try apply H; lia). reflexivity. Qed.
Lemma rsum_zero n : rsum n (fun _ => rO) = rO.
Proof. induction n as [|n IH]; cbn [rsum]; [reflexivity | rewrite IH; ring]. Qed.
Lemma rsum_add n g h : rsum n (fun i => g i +r h i) = rsum n g +r rsum n h.
Proof. induction n as [|n IH]; cbn [rsum]; [ring | rewrite IH; ring]. Qed.
Lemma rsum_scale n c g : rsum n (fun i => c *r g i) = c *r rsum n g.
Proof. induction n as [|n IH]; cbn [rsum]; [ring | rewrite IH; ring]. Qed.
Lemma rsum_scale_r n c g : rsum n (fun i => g i *r c) = rsum n g *r c.
Proof. induction n as [|n IH]; cbn [rsum]; [ring | rewrite IH; ring]. Qed.
Lemma rsum_swap n m (g : nat -> nat -> R) : rsum n (fun i => rsum m (fun j => g i j)) = rsum m (fun j => rsum n (fun i => g i j)).
Proof.
  induction n as [|n IH]; cbn [rsum]; [rewrite rsum_zero; reflexivity|]. rewrite IH, <- rsum_add. reflexivity.
Qed.
Lemma rsum_delta n q (a : R) : (q < n)%nat -> rsum n (fun r => if Nat.eqb r q then a else rO) = a.
Proof.
  induction n as [|n IH]; intros H; [lia|]. cbn [rsum]. destruct (Nat.eqb n q) eqn:E.
  - apply Nat.eqb_eq in E. subst q. rewrite (rsum_ext n _ (fun _ => rO)), rsum_zero; [ring|].
    intros i Hi. destruct (Nat.eqb i n) eqn:E'; [apply Nat.eqb_eq in E'; lia | reflexivity].
  - apply Nat.eqb_neq in E. rewrite IH by lia. ring.
Qed.
Lemma geom_telescope x n : (x -r rI) *r rsum n (fun j => rpow x j) = rpow x n -r rI.
Proof. induction n as [|n IH]; cbn [rsum rpow]; [ring|]. transitivity ((x -r rI) *r rsum n (fun j => rpow x j) +r (x -r rI) *r rpow x n); [ring | rewrite IH; ring]. Qed.
Lemma geom_zero x n : rpow x n = rI -> regular (x -r rI) -> rsum n (fun j => rpow x j) = rO.
Proof. intros Hx Hr. apply Hr. rewrite geom_telescope, Hx. ring. Qed.
Lemma geom_one n : rsum n (fun j => rpow rI j) = rnat n.
Proof. induction n as [|n IH]; cbn [rsum rnat]; [reflexivity | rewrite IH, rpow_one; reflexivity]. Qed.

(* orthogonality of the characters of Z_N *)
Lemma orthogonality N w : rpow w N = rI -> (forall m, (0 < m < N)%nat -> regular (rpow w m -r rI)) ->
  forall r q, (r < N)%nat -> (q < N)%nat ->
  rsum N (fun j => rpow w (j * r) *r rpow w (j * (N - q))) = if Nat.eqb r q then rnat N else rO.
Proof.
  intros HN Hreg r q Hr Hq.
  rewrite (rsum_ext N _ (fun j => rpow (rpow w (r + (N - q))) j)).
  2:{ intros j _. rewrite <- rpow_add, <- Nat.mul_add_distr_l, Nat.mul_comm. apply rpow_mul. }
  destruct (Nat.eqb r q) eqn:E.
  - apply Nat.eqb_eq in E. subst q. replace (r + (N - r))%nat with N by lia. rewrite HN. apply geom_one.
  - apply Nat.eqb_neq in E. apply geom_zero.
    + rewrite <- rpow_mul, Nat.mul_comm, rpow_mul, HN. apply rpow_one.
    + destruct (Nat.lt_ge_cases r q) as [L|L].
      * apply Hreg. lia.
      * replace (r + (N - q))%nat with (N + (r - q))%nat by lia. rewrite rpow_add, HN.
        replace (rI *r rpow w (r - q)) with (rpow w (r - q)) by ring. apply Hreg. lia.
Qed.

(* the N-point DFT of the samples of sum_r c_r w^(j r) returns N c_q : exact for band-limited functions, all N *)
Theorem dft_idft N w cs : rpow w N = rI -> (forall m, (0 < m < N)%nat -> regular (rpow w m -r rI)) ->
  forall q, (q < N)%nat -> dft N w (idft N w cs) q = rnat N *r cs q.
Proof.
  intros HN Hreg q Hq. unfold dft, idft.
  rewrite (rsum_ext N _ (fun j => rsum N (fun r => cs r *r (rpow w (j * r) *r rpow w (j * (N - q)))))).
  2:{ intros j _. rewrite <- rsum_scale_r. apply rsum_ext. intros r _. ring. }
  rewrite rsum_swap.
  rewrite (rsum_ext N _ (fun r => if Nat.eqb r q then rnat N *r cs q else rO)).
  2:{ intros r Hr. rewrite rsum_scale, (orthogonality N w HN Hreg r q Hr Hq). destruct (Nat.eqb r q) eqn:E; [apply Nat.eqb_eq in E; subst r|]; ring. }
  apply rsum_delta. exact Hq.
Qed.
End DFT.

(* non-vacuity of the hypotheses: the integers with w = -1, N = 2 *)
Lemma dft_instance_Z : rpow Z 1%Z Z.mul (-1)%Z 2 = 1%Z /\
  (forall m, (0 < m < 2)%nat -> regular Z 0%Z Z.mul (Z.sub (rpow Z 1%Z Z.mul (-1)%Z m) 1%Z)).
Proof.
  split; [reflexivity|]. intros m Hm. assert (m = 1%nat) by lia. subst m. intros z Hz. cbn [rpow] in Hz. lia.
Qed.

Definition odd17 : list Z := [1; 3; 5; 7; 9; 11; 13; 15; 17]%Z.

(* gvec with the residues n m mod N computed once instead of once per counted residue r (the let-bound list
   is shared when the table below is evaluated) *)
Definition gvec_shared (N d m : Z) : list Z :=
  let res := map (fun n => (n * m) mod N) (zrange (- d) (Z.to_nat N)) in
  map (fun r => Z.of_nat (length (filter (fun x => x =? r) res))) (rev (zrange 0 (Z.to_nat N))).
Definition gtab_shared (N d : Z) : list (option Z) :=
  map (fun m => match phi N with None => None | Some ph => const_of (prem (Z.to_nat N) ph (gvec_shared N d m)) end)
      (zrange 0 (Z.to_nat N)).

Lemma length_filter_map {A B} (p : B -> bool) (f : A -> B) l :
  length (filter p (map f l)) = length (filter (fun x => p (f x)) l).
Proof. induction l as [|x l IH]; cbn [map filter]; [reflexivity|]. destruct (p (f x)); cbn [length]; rewrite IH; reflexivity. Qed.
Lemma gtab_shared_eq N d : gtab N d = gtab_shared N d.
Proof.
  unfold gtab, gtab_shared, geom_const, gvec, gvec_shared. apply map_ext. intros m.
  destruct (phi N); [|reflexivity]. do 2 f_equal. apply map_ext. intros r. rewrite length_filter_map. reflexivity.
Qed.

(* the tabulated DFT kernel of the model is the delta function: N at residue 0, 0 elsewhere *)
Lemma gtab_delta N : In N odd17 -> gtab N ((N - 1) / 2) = Some N :: repeat (Some 0%Z) (Z.to_nat (N - 1)).
Proof.
  intros HN. rewrite gtab_shared_eq. cbn [odd17 In] in HN.
  repeat (destruct HN as [<-|HN]; [vm_compute; reflexivity|]). destruct HN.
Qed.

(* the table is enough: geom_const N d m depends on m mod N only *)
Lemma gvec_mod N d m : (0 < N)%Z -> gvec N d (m mod N) = gvec N d m.
Proof.
  intros HN. unfold gvec. apply map_ext. intros r. do 2 f_equal. apply filter_ext. intros n.
  rewrite Z.mul_mod_idemp_r by lia. reflexivity.
Qed.
Lemma geom_const_mod N d m : (0 < N)%Z -> geom_const N d (m mod N) = geom_const N d m.
Proof. intros HN. unfold geom_const. rewrite gvec_mod by exact HN. reflexivity. Qed.
Lemma gtab_nth N d r : (0 <= r < N)%Z -> nth (Z.to_nat r) (gtab N d) None = geom_const N d r.
Proof.
  intros Hr. unfold gtab, zrange. rewrite map_map.
  rewrite (nth_indep _ None (geom_const N d (0 + Z.of_nat 0))) by (rewrite map_length, seq_length; lia).
  rewrite (map_nth (fun i => geom_const N d (0 + Z.of_nat i))), seq_nth by lia. f_equal. lia.
Qed.

Lemma cyclo_orthogonality N m : In N odd17 ->
  geom_const N ((N - 1) / 2) m = Some (if Z.eqb (m mod N) 0 then N else 0)%Z.
Proof.
  intros HN. assert (HN0 : (0 < N)%Z) by (cbn in HN; lia).
  pose proof (Z.mod_pos_bound m N HN0) as Hr.
  rewrite <- geom_const_mod, <- gtab_nth, (gtab_delta N HN) by lia.
  destruct (Z.eqb_spec (m mod N) 0) as [->|Hne]; [reflexivity|].
  replace (Z.to_nat (m mod N)) with (S (Z.to_nat (m mod N - 1))) by lia. cbn [nth].
  rewrite (nth_indep _ None (Some 0%Z)) by (rewrite repeat_length; lia). apply nth_repeat.
Qed.

(* low-pass bookkeeping: position i of the filtered array is copied from the position of the unfiltered
   array that holds the same frequency *)
Lemma filter_src_freq t d i : (0 <= d <= t)%Z -> (0 <= i < 2 * d + 1)%Z ->
  freq_of_pos t (filter_src t d i) = freq_of_pos d i.
Proof.
  intros Hd Hi. unfold filter_src, fftshift_src, ifftshift_src, freq_of_pos. cbv zeta.
  replace ((2 * d + 1) / 2)%Z with d by (apply Z.div_unique with 1%Z; lia).
  replace ((2 * t + 1) / 2)%Z with t by (apply Z.div_unique with 1%Z; lia).
  destruct (Z.leb_spec i d) as [L|L].
  - rewrite (Z.mod_small (i + d)) by lia. replace (i + d + (t - d) - t)%Z with i by lia.
    rewrite Z.mod_small by lia. destruct (Z.leb_spec i t); lia.
  - replace ((i + d) mod (2 * d + 1))%Z with (i - d - 1)%Z by (apply Z.mod_unique with 1%Z; lia).
    replace (i - d - 1 + (t - d) - t)%Z with (i - (2 * d + 1))%Z by lia.
    replace ((i - (2 * d + 1)) mod (2 * t + 1))%Z with (i - (2 * d + 1) + (2 * t + 1))%Z by (apply Z.mod_unique with (-1)%Z; lia).
    destruct (Z.leb_spec (i - (2 * d + 1) + (2 * t + 1)) t); lia.
Qed.
