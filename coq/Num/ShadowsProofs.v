(* C60  Lemmas about the classical-shadow model (ShadowsModel.v).
   Operators are compared entry by entry (op_ext; the tactic omod closes linear identities that way), and traces
   of products through the bilinear form `pairing`.  Unbiasedness of the snapshot: for one qubit it is the
   finite identity coef_sum over the six (recipe, outcome) pairs, decided by computation; for n qubits the first
   qubit is peeled off (prob_S, avge_S: contracting it against proj1 x leaves an operator on the rest) and the
   induction hypothesis applies to the four blocks.  The Pauli estimator is the pairing of the snapshot with the
   Pauli word (est_is_trace), so its unbiasedness follows from that of the snapshot. *)
From Coq Require Import List ZArith QArith Qcanon Bool Ring Lia.
From PLV Require Import Num.ShadowsModel.
Import ListNotations.

Lemma C_ring : ring_theory cz c1 cadd cmul csub copp (@eq C).
Proof.
  constructor; intros;
    repeat match goal with x : C |- _ => destruct x end;
    unfold cadd, cmul, csub, copp, cz, c1; cbn [fst snd]; f_equal; ring.
Qed.
Add Ring Cring : C_ring.
Lemma ci_sq : cmul ci ci = copp c1.
Proof. unfold cmul, copp, ci, c1; cbn [fst snd]; f_equal; ring. Qed.
Lemma cmul_assoc : forall x y z, cmul (cmul x y) z = cmul x (cmul y z).
Proof. intros; ring. Qed.

Lemma cq_mul : forall a b, cq (a * b)%Qc = cmul (cq a) (cq b).
Proof. intros; unfold cq, cmul; cbn [fst snd]; f_equal; ring. Qed.
Lemma cq_add : forall a b, cq (a + b)%Qc = cadd (cq a) (cq b).
Proof. intros; unfold cq, cadd; cbn [fst snd]; f_equal; ring. Qed.
Lemma cq_0 : cq 0%Qc = cz. Proof. reflexivity. Qed.
Lemma cq_1 : cq 1%Qc = c1. Proof. reflexivity. Qed.

Lemma qeqb_eq : forall x y, qeqb x y = true -> x = y.
Proof. intros x y H; apply Qc_is_canon; apply Qeq_bool_eq; exact H. Qed.
Lemma ceqb_eq : forall x y, ceqb x y = true -> x = y.
Proof.
  intros [a b] [c d] H; unfold ceqb in H; cbn [fst snd] in H.
  apply andb_true_iff in H; destruct H as [H1 H2].
  f_equal; apply qeqb_eq; assumption.
Qed.
Lemma oeqb_eq : forall n (A B : Op n), oeqb n A B = true -> A = B.
Proof.
  induction n as [|m IH]; intros A B H.
  - apply ceqb_eq; exact H.
  - destruct A as [a0 a1 a2 a3], B as [b0 b1 b2 b3]; cbn [oeqb q00 q01 q10 q11] in H.
    repeat (apply andb_true_iff in H; destruct H as [H ?]).
    f_equal; apply IH; assumption.
Qed.

(* Operators are compared entry by entry; entry n _ p is additive and homogeneous. *)
Definition Path : Type := list (bool * bool).
Definition blk {A} (ij : bool * bool) (x : Quad A) : A :=
  match ij with
  | (false, false) => q00 x | (false, true) => q01 x
  | (true, false) => q10 x | (true, true) => q11 x
  end.
Fixpoint entry (n : nat) : Op n -> Path -> C :=
  match n return Op n -> Path -> C with
  | O => fun x _ => x
  | S m => fun x p => match p with
                      | [] => entry m (blk (false, false) x) []
                      | ij :: p' => entry m (blk ij x) p'
                      end
  end.

Lemma op_ext : forall n (A B : Op n), (forall p, entry n A p = entry n B p) -> A = B.
Proof.
  induction n as [|m IH]; intros A B H.
  - exact (H []).
  - destruct A as [a0 a1 a2 a3], B as [b0 b1 b2 b3]; f_equal; apply IH; intro p.
    + exact (H ((false, false) :: p)).
    + exact (H ((false, true) :: p)).
    + exact (H ((true, false) :: p)).
    + exact (H ((true, true) :: p)).
Qed.
Lemma entry_oadd : forall n A B p, entry n (oadd n A B) p = cadd (entry n A p) (entry n B p).
Proof.
  induction n as [|m IH]; intros A B p; [reflexivity|].
  destruct p as [|[[|] [|]] p']; cbn [entry oadd blk q00 q01 q10 q11]; apply IH.
Qed.
Lemma entry_oscale : forall n c A p, entry n (oscale n c A) p = cmul c (entry n A p).
Proof.
  induction n as [|m IH]; intros c A p; [reflexivity|].
  destruct p as [|[[|] [|]] p']; cbn [entry oscale blk q00 q01 q10 q11]; apply IH.
Qed.
Lemma entry_ozero : forall n p, entry n (ozero n) p = cz.
Proof.
  induction n as [|m IH]; intros p; [reflexivity|].
  destruct p as [|[[|] [|]] p']; cbn [entry ozero blk q00 q01 q10 q11]; apply IH.
Qed.
Lemma entry_osum : forall n l p, entry n (osum n l) p = csum (map (fun x => entry n x p) l).
Proof.
  induction l as [|x l IH]; intros p; cbn [osum fold_right map csum].
  - apply entry_ozero.
  - rewrite entry_oadd. f_equal. apply IH.
Qed.
(* an operator identity that holds entrywise by ring *)
Ltac omod := apply op_ext; intro; repeat rewrite ?entry_oadd, ?entry_oscale, ?entry_ozero; ring.

Lemma oscale_1 : forall n A, oscale n c1 A = A.            Proof. intros; omod. Qed.
Lemma oscale_0 : forall n A, oscale n cz A = ozero n.       Proof. intros; omod. Qed.
Lemma oadd_0_r : forall n A, oadd n A (ozero n) = A.        Proof. intros; omod. Qed.
Lemma oadd_0_l : forall n A, oadd n (ozero n) A = A.        Proof. intros; omod. Qed.
Lemma kron2_0 : forall A : M2, kron2 0 A c1 = A.
Proof. intros [a b c d]; unfold kron2; cbn [oscale q00 q01 q10 q11]; f_equal; ring. Qed.
Lemma blk_kron2 : forall m ij A X, blk ij (kron2 m A X) = oscale m (blk ij A) X.
Proof. intros m [[|] [|]] A X; reflexivity. Qed.
Lemma entry_kron2 : forall m A X ij p,
  entry (S m) (kron2 m A X) (ij :: p) = cmul (blk ij A) (entry m X p).
Proof. intros; cbn [entry]; rewrite blk_kron2; apply entry_oscale. Qed.
Lemma entry_S_nil : forall m (x : Op (S m)), entry (S m) x [] = entry (S m) x [(false, false)].
Proof. reflexivity. Qed.

Lemma otr_oadd : forall n A B, otr n (oadd n A B) = cadd (otr n A) (otr n B).
Proof.
  induction n as [|m IH]; intros A B; [reflexivity|].
  cbn [otr oadd q00 q11]; rewrite !IH; ring.
Qed.
Lemma otr_omul : forall n A B, otr n (omul n A B) = pairing n A B.
Proof.
  induction n as [|m IH]; intros A B; [reflexivity|].
  cbn [otr omul pairing q00 q01 q10 q11]; rewrite !otr_oadd, !IH; ring.
Qed.
Lemma pairing_sym : forall n A B, pairing n A B = pairing n B A.
Proof.
  induction n as [|m IH]; intros A B; cbn [pairing].
  - ring.
  - rewrite (IH (q00 A)), (IH (q01 A)), (IH (q10 A)), (IH (q11 A)); ring.
Qed.
Lemma pairing_scale_l : forall n c A X, pairing n (oscale n c A) X = cmul c (pairing n A X).
Proof.
  induction n as [|m IH]; intros c A X.
  - cbn [pairing oscale]; ring.
  - cbn [pairing oscale q00 q01 q10 q11]; rewrite !IH; ring.
Qed.
Lemma pairing_add_l : forall n A B X, pairing n (oadd n A B) X = cadd (pairing n A X) (pairing n B X).
Proof.
  induction n as [|m IH]; intros A B X.
  - cbn [pairing oadd]; ring.
  - cbn [pairing oadd q00 q01 q10 q11]; rewrite !IH; ring.
Qed.
Lemma pairing_zero_l : forall n X, pairing n (ozero n) X = cz.
Proof. intros; rewrite <- (oscale_0 n X), pairing_scale_l; ring. Qed.
Lemma pairing_scale_r : forall n c A X, pairing n A (oscale n c X) = cmul c (pairing n A X).
Proof. intros; rewrite (pairing_sym n A), pairing_scale_l, (pairing_sym n X); reflexivity. Qed.
Lemma pairing_add_r : forall n A X Y, pairing n A (oadd n X Y) = cadd (pairing n A X) (pairing n A Y).
Proof. intros; rewrite (pairing_sym n A), pairing_add_l, (pairing_sym n X), (pairing_sym n Y); reflexivity. Qed.
Lemma pairing_zero_r : forall n A, pairing n A (ozero n) = cz.
Proof. intros; rewrite pairing_sym; apply pairing_zero_l. Qed.
Lemma pairing_oid_r : forall n A, pairing n A (oid n) = otr n A.
Proof.
  induction n as [|m IH]; intros A.
  - cbn [pairing oid otr]; ring.
  - cbn [pairing oid otr q00 q01 q10 q11]; rewrite !IH, !pairing_zero_r; ring.
Qed.
(* tr_1[(A (x) 1) M]: the first qubit of M contracted against A *)
Definition ptr (m : nat) (A : M2) (M : Op (S m)) : Op m :=
  oadd m (oadd m (oscale m (q00 A) (q00 M)) (oscale m (q01 A) (q10 M)))
         (oadd m (oscale m (q10 A) (q01 M)) (oscale m (q11 A) (q11 M))).
Lemma pairing_kron_l : forall m A X M, pairing (S m) (kron2 m A X) M = pairing m X (ptr m A M).
Proof.
  intros; unfold kron2, ptr; cbn [pairing q00 q01 q10 q11].
  rewrite !pairing_add_r, !pairing_scale_l, !pairing_scale_r; reflexivity.
Qed.
Lemma pairing_kron_r : forall m A X R, pairing (S m) R (kron2 m A X) = pairing m (ptr m A R) X.
Proof. intros; rewrite pairing_sym, pairing_kron_l; apply pairing_sym. Qed.
Lemma pairing_kron_kron : forall m A B X Y,
  pairing (S m) (kron2 m A X) (kron2 m B Y) = cmul (pairing 1 A B) (pairing m X Y).
Proof.
  intros; unfold kron2; cbn [pairing q00 q01 q10 q11].
  rewrite !pairing_scale_l, !pairing_scale_r; ring.
Qed.
Lemma pairing_osum_l : forall n {T} (c : T -> C) (h : T -> Op n) P l,
  pairing n (osum n (map (fun x => oscale n (c x) (h x)) l)) P
  = csum (map (fun x => cmul (c x) (pairing n (h x) P)) l).
Proof.
  induction l as [|x l IH]; cbn [map osum fold_right csum].
  - apply pairing_zero_l.
  - rewrite pairing_add_l, pairing_scale_l. f_equal. exact IH.
Qed.

Lemma prob_fast_eq : forall n rho rb, prob_fast n rho rb = prob n rho rb.
Proof. intros; unfold prob, prob_fast; rewrite otr_omul; reflexivity. Qed.
Lemma exact_ham_fast_eq : forall n rho h, exact_ham_fast n rho h = exact_ham n rho h.
Proof.
  intros; unfold exact_ham, exact_ham_fast; f_equal; apply map_ext; intro t.
  rewrite otr_omul; reflexivity.
Qed.

Lemma csum_app : forall l1 l2 : list C, csum (l1 ++ l2) = cadd (csum l1) (csum l2).
Proof.
  induction l1 as [|y l1 IH1]; intro l2.
  - cbn [app]. unfold csum at 2. cbn [fold_right]. ring.
  - cbn [app]. unfold csum in *. cbn [fold_right]. rewrite IH1. ring.
Qed.
Lemma csum_flat_map : forall {T} (F : list T -> C) (L : list (list T)) (Sx : list T),
  csum (map F (flat_map (fun x => map (cons x) L) Sx))
  = csum (map (fun x => csum (map (fun r => F (x :: r)) L)) Sx).
Proof.
  intros T F L Sx; induction Sx as [|x Sx IH]; [reflexivity|].
  cbn [flat_map]; rewrite map_app, csum_app, IH, map_map. reflexivity.
Qed.
Lemma csum_add : forall {T} (l : list T) (f g : T -> C),
  csum (map (fun x => cadd (f x) (g x)) l) = cadd (csum (map f l)) (csum (map g l)).
Proof.
  intros; induction l as [|x l IH]; cbn [map csum fold_right].
  - ring.
  - unfold csum in IH; rewrite IH; ring.
Qed.
Lemma csum_scale : forall {T} (l : list T) c (f : T -> C),
  csum (map (fun x => cmul c (f x)) l) = cmul c (csum (map f l)).
Proof.
  intros; induction l as [|x l IH]; cbn [map csum fold_right].
  - ring.
  - unfold csum in IH; rewrite IH; ring.
Qed.
Lemma csum_zero : forall {T} (l : list T), csum (map (fun _ => cz) l) = cz.
Proof.
  intros; induction l as [|x l IH]; cbn [map csum fold_right].
  - reflexivity.
  - unfold csum in IH; rewrite IH; ring.
Qed.

(* coefficient of rho_ij in block (k,l) of the averaged snapshot of one qubit *)
Definition coef (i j k l : bool) (x : RB) : C :=
  cmul (cmul (cq qthird) (blk (j, i) (proj1 x))) (blk (k, l) (snap1 x)).
Lemma coef_sum : forall i j k l,
  csum (map (coef i j k l) six) = if Bool.eqb i k && Bool.eqb j l then c1 else cz.
Proof. intros [|] [|] [|] [|]; apply ceqb_eq; vm_compute; reflexivity. Qed.

Lemma rotated_basis_is_proj1 : forall x, rotated_basis x = proj1 x.
Proof. intros [[| |] [|]]; apply (oeqb_eq 1); vm_compute; reflexivity. Qed.
Lemma rot_unitary : forall r,
  omul 1 (oadj 1 (rot_num r)) (rot_num r) = oscale 1 (cq (rot_norm2 r)) pI.
Proof. intros [| |]; apply (oeqb_eq 1); vm_compute; reflexivity. Qed.
Lemma snap1_hermitian_trace1 : forall x, oadj 1 (snap1 x) = snap1 x /\ otr 1 (snap1 x) = c1.
Proof. intros [[| |] [|]]; split; (apply (oeqb_eq 1) || apply ceqb_eq); vm_compute; reflexivity. Qed.
Lemma pair_snap1_pI : forall x, pairing 1 (snap1 x) pI = c1.
Proof. intros [[| |] [|]]; apply ceqb_eq; vm_compute; reflexivity. Qed.
Lemma pair_snap1_pauli : forall rc b p,
  pairing 1 (snap1 (rc, b)) (pauli p) = if recipe_eqb rc p then cq (sgn b * q3)%Qc else cz.
Proof. intros [| |] [|] [| |]; apply ceqb_eq; vm_compute; reflexivity. Qed.

Lemma all_rb_length_in : forall n rb, In rb (all_rb n) -> length rb = n.
Proof.
  induction n as [|m IH]; intros rb H.
  - destruct H as [<-|[]]; reflexivity.
  - cbn [all_rb] in H. apply in_flat_map in H. destruct H as [x [_ H]].
    apply in_map_iff in H. destruct H as [r [<- H]]. cbn [length]. f_equal. apply IH; exact H.
Qed.
Lemma all_rb_complete : forall n rb, length rb = n -> In rb (all_rb n).
Proof.
  induction n as [|m IH]; intros rb H.
  - destruct rb; [left; reflexivity | discriminate].
  - destruct rb as [|x r]; [discriminate|]. cbn [all_rb]. apply in_flat_map. exists x. split.
    + destruct x as [[| |] [|]]; cbn; tauto.
    + apply in_map. apply IH. injection H; auto.
Qed.
Lemma all_rb_count : forall n, length (all_rb n) = (6 ^ n)%nat.
Proof.
  induction n as [|m IH]; [reflexivity|].
  cbn [all_rb six flat_map]. rewrite !app_length, !map_length, IH. cbn [length Nat.pow]. lia.
Qed.

Definition avge (n : nat) (rho : Op n) (p : Path) : C :=
  csum (map (fun rb => cmul (prob n rho rb) (entry n (snap n rb) p)) (all_rb n)).
Lemma entry_avg : forall n rho p, entry n (avg n rho) p = avge n rho p.
Proof.
  intros; unfold avg, avge. rewrite entry_osum, map_map. f_equal. apply map_ext; intro rb.
  apply entry_oscale.
Qed.

Lemma prob_S : forall m (rho : Op (S m)) x r,
  prob (S m) rho (x :: r) = prob m (oscale m (cq qthird) (ptr m (proj1 x) rho)) r.
Proof.
  intros; unfold prob. rewrite !otr_omul. cbn [proj w3].
  rewrite pairing_kron_r, pairing_scale_l, cq_mul. ring.
Qed.

Lemma avge_S : forall m (rho : Op (S m)) kl p,
  avge (S m) rho (kl :: p)
  = csum (map (fun x => cmul (blk kl (snap1 x)) (avge m (oscale m (cq qthird) (ptr m (proj1 x) rho)) p)) six).
Proof.
  intros. unfold avge. cbn [all_rb]. rewrite csum_flat_map. f_equal. apply map_ext; intro x.
  rewrite <- csum_scale. f_equal. apply map_ext; intro r.
  rewrite prob_S. cbn [snap]. rewrite entry_kron2. ring.
Qed.
Lemma avge_id : forall n rho p, avge n rho p = entry n rho p.
Proof.
  induction n as [|m IH]; intros rho p.
  - unfold avge, prob. cbn [all_rb map csum fold_right w3 snap proj entry omul otr]. rewrite cq_1. ring.
  - assert (Hc : forall kl p', avge (S m) rho (kl :: p') = entry (S m) rho (kl :: p')).
    { intros [k l] p'. rewrite avge_S.
      transitivity (csum (map (fun x =>
          cadd (cadd (cmul (entry m (q00 rho) p') (coef false false k l x))
                     (cmul (entry m (q01 rho) p') (coef false true k l x)))
               (cadd (cmul (entry m (q10 rho) p') (coef true false k l x))
                     (cmul (entry m (q11 rho) p') (coef true true k l x)))) six)).
      - f_equal. apply map_ext; intro x. rewrite IH. unfold ptr, coef.
        rewrite entry_oscale, !entry_oadd, !entry_oscale. cbn [blk]. ring.
      - rewrite !csum_add, !csum_scale, !coef_sum. destruct k, l; cbn [Bool.eqb andb entry blk]; ring. }
    destruct p as [|kl p']; [rewrite entry_S_nil; unfold avge; cbn [entry]; apply (Hc (false, false) []) | apply Hc].
Qed.

Theorem avg_id : forall n (rho : Op n), avg n rho = rho.
Proof. intros; apply op_ext; intro p; rewrite entry_avg; apply avge_id. Qed.

(* one qubit, written out over the six (recipe, outcome) pairs with formal entries *)
Lemma avg_1q_explicit : forall a b c d : C,
  osum 1 (map (fun x => oscale 1 (cmul (cq qthird) (otr 1 (omul 1 (mkQ a b c d) (proj1 x)))) (snap1 x)) six)
  = mkQ a b c d.
Proof.
  intros. transitivity (avg 1 (mkQ a b c d)); [|apply (avg_id 1)].
  unfold avg, prob. cbn [all_rb six flat_map map app w3 snap proj].
  rewrite !kron2_0. replace (cq (qthird * 1)%Qc) with (cq qthird) by (f_equal; ring). reflexivity.
Qed.

Lemma sgn_xorb : forall a b, sgn (xorb a b) = (sgn a * sgn b)%Qc.
Proof. intros [|] [|]; unfold sgn; cbn [xorb]; ring. Qed.
Lemma est_cons_none : forall x r w, est (x :: r) (None :: w) = est r w.
Proof. intros [rc b] r w; reflexivity. Qed.
Lemma est_cons_some : forall rc b r p w,
  est ((rc, b) :: r) (Some p :: w) = if recipe_eqb rc p then (sgn b * q3 * est r w)%Qc else 0%Qc.
Proof.
  intros; unfold est; cbn [matches parity pow3].
  destruct (recipe_eqb rc p); cbn [andb]; [|reflexivity].
  destruct (matches r w); [rewrite sgn_xorb; ring | ring].
Qed.
Lemma est_is_trace : forall n rb w, length rb = n -> length w = n ->
  cq (est rb w) = pairing n (snap n rb) (pword n w).
Proof.
  induction n as [|m IH]; intros rb w Hr Hw.
  - destruct rb, w; try discriminate. reflexivity.
  - destruct rb as [|[rc b] r]; [discriminate|]. destruct w as [|o w]; [discriminate|].
    injection Hr as Hr. injection Hw as Hw. cbn [snap pword].
    destruct o as [p|].
    + rewrite pairing_kron_kron, pair_snap1_pauli, est_cons_some, <- (IH r w Hr Hw).
      destruct (recipe_eqb rc p).
      * rewrite cq_mul; reflexivity.
      * rewrite cq_0; ring.
    + rewrite pairing_kron_kron, pair_snap1_pI, est_cons_none, <- (IH r w Hr Hw). ring.
Qed.

Theorem pauli_unbiased : forall n (rho : Op n) (w : word), length w = n ->
  csum (map (fun rb => cmul (prob n rho rb) (cq (est rb w))) (all_rb n)) = otr n (omul n rho (pword n w)).
Proof.
  intros n rho w Hw. rewrite otr_omul.
  transitivity (pairing n (avg n rho) (pword n w)); [|rewrite avg_id; reflexivity]. unfold avg.
  rewrite pairing_osum_l. f_equal. apply map_ext_in; intros rb Hin.
  rewrite (est_is_trace n rb w (all_rb_length_in n rb Hin) Hw). reflexivity.
Qed.

Lemma est_ham_cons : forall rb c w h, est_ham rb ((c, w) :: h) = (c * est rb w + est_ham rb h)%Qc.
Proof. reflexivity. Qed.
Lemma exact_ham_cons : forall n rho c w h,
  exact_ham n rho ((c, w) :: h) = cadd (cmul (cq c) (otr n (omul n rho (pword n w)))) (exact_ham n rho h).
Proof. reflexivity. Qed.
Theorem ham_unbiased : forall n (rho : Op n) (h : Ham), Forall (fun t => length (snd t) = n) h ->
  csum (map (fun rb => cmul (prob n rho rb) (cq (est_ham rb h))) (all_rb n)) = exact_ham n rho h.
Proof.
  intros n rho h Hh; induction Hh as [|[c w] h Hw Hh IH].
  - rewrite (map_ext _ (fun _ => cz)); [apply csum_zero|].
    intro rb. unfold est_ham. cbn [map qsum fold_right]. rewrite cq_0. ring.
  - cbn [snd] in Hw.
    rewrite exact_ham_cons, <- IH, <- (pauli_unbiased n rho w Hw), <- csum_scale, <- csum_add.
    f_equal. apply map_ext; intro rb. rewrite est_ham_cons, cq_add, cq_mul. ring.
Qed.

(* the weights are a probability distribution when tr rho = 1 *)
Lemma pword_none : forall n, pword n (repeat None n) = oid n.
Proof.
  induction n as [|m IH]; [reflexivity|].
  cbn [repeat pword]. rewrite IH. unfold kron2, pI. cbn [q00 q01 q10 q11 oid].
  rewrite oscale_1, oscale_0. reflexivity.
Qed.
Lemma est_none : forall rb, est rb (repeat None (length rb)) = 1%Qc.
Proof.
  induction rb as [|x r IH]; [reflexivity|]. cbn [length repeat]. rewrite est_cons_none. exact IH.
Qed.
Theorem probs_sum : forall n (rho : Op n), csum (map (prob n rho) (all_rb n)) = otr n rho.
Proof.
  intros. transitivity (otr n (omul n rho (pword n (repeat None n)))).
  - rewrite <- (pauli_unbiased n rho (repeat None n) (repeat_length _ _)).
    f_equal. apply map_ext_in; intros rb Hin.
    assert (E : est rb (repeat None n) = 1%Qc)
      by (rewrite <- (all_rb_length_in n rb Hin); apply est_none).
    rewrite E, cq_1. ring.
  - rewrite otr_omul, pword_none. apply pairing_oid_r.
Qed.

Lemma table_ok_map : forall {T} (f : T -> Z) ok n (t : list (list T)),
  (forall x, ok (f x) = true) -> Forall (fun row => length row = n) t ->
  table_ok (Z.of_nat (length t)) n ok (map (map f) t) = true.
Proof.
  intros T f ok n t Hok Hrows. unfold table_ok. rewrite map_length, Z.eqb_refl. cbn [andb].
  apply forallb_forall. intros row Hin. apply in_map_iff in Hin. destruct Hin as [r [<- Hin]].
  rewrite Forall_forall in Hrows. rewrite map_length, (Hrows r Hin), Nat.eqb_refl. cbn [andb].
  apply forallb_forall. intros z Hz. apply in_map_iff in Hz. destruct Hz as [y [<- _]]. apply Hok.
Qed.
Theorem measure_rows_well_formed : forall n rec samples,
  length rec = length samples ->
  Forall (fun row => length row = n) rec -> Forall (fun row => length row = n) samples ->
  well_formed (Z.of_nat (length samples)) n (fst (measure_rows rec samples)) (snd (measure_rows rec samples)) = true.
Proof.
  intros n rec samples Hl Hr Hs. unfold well_formed, measure_rows. cbn [fst snd].
  rewrite (table_ok_map Z_of_bit in01 n samples); [|intros [|]; reflexivity|exact Hs].
  rewrite <- Hl. rewrite (table_ok_map recipe_idx in012 n rec); [reflexivity|intros [| |]; reflexivity|exact Hr].
Qed.
Theorem enumeration_well_formed : forall n,
  well_formed (Z.of_nat (length (all_rb n))) n
              (map (fun rb => snd (encode_rb rb)) (all_rb n)) (map (fun rb => fst (encode_rb rb)) (all_rb n)) = true.
Proof.
  intros n. assert (Hl : Forall (fun rb => length rb = n) (all_rb n)) by (apply Forall_forall, all_rb_length_in).
  unfold well_formed. apply andb_true_iff; split.
  - apply (table_ok_map (fun x : RB => Z_of_bit (snd x)) in01 n (all_rb n)); [intros [? [|]]; reflexivity | exact Hl].
  - apply (table_ok_map (fun x : RB => recipe_idx (fst x)) in012 n (all_rb n)); [intros [[| |] ?]; reflexivity | exact Hl].
Qed.
