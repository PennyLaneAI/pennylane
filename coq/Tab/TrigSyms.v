(* Symbols for writing documented gate formulas as exact Laurent polynomials (hz = 4: zeta = exp(i pi/4);
   D = 8: z_j = exp(i theta_j / 8), j = 0,1,2 the gate's parameters in order), and what they denote. *)
From Coq Require Import List ZArith QArith Reals Bool Lia Lra.
From Coquelicot Require Import Complex.
From PLV Require Import Alg.Poly Alg.PolyEval Alg.Angles.
Import ListNotations.

Definition HZ : Z := 4.
Definition DD : Z := 8.

(* z_j^e  (variable index j+1; index 0 is zeta) *)
Definition zmon (j : nat) (e : Z) : poly := [(1%Q, (0%Z :: repeat 0%Z j) ++ [e])].
(* zeta^k *)
Definition zetap (k : Z) : poly := [(1%Q, [k])].
Definition pI : poly := zetap 2.                                     (* i *)
Definition pr2 : poly := [((1 # 2)%Q, [1%Z]); (((-1) # 2)%Q, [3%Z])]. (* 1/sqrt 2 = (zeta - zeta^3)/2 *)
Definition psqrt2 : poly := [(1%Q, [1%Z]); ((-1)%Q, [3%Z])].           (* sqrt 2 *)
Definition pq (q : Q) : poly := pconst q.

Definition padd' := nadd HZ.
Definition pmul' := nmul HZ.
Definition pneg' (p : poly) := pnorm HZ (pneg p).
Infix "+p" := padd' (at level 50, left associativity).
Infix "*p" := pmul' (at level 40, left associativity).
Notation "-p x" := (pneg' x) (at level 35, right associativity).
Definition psub' (a b : poly) := a +p (-p b).
Infix "-pp" := psub' (at level 50, left associativity).

(* exp(i * (n/d) * theta_j)  requires d | 8n *)
Definition pexp (j : nat) (n d : Z) : poly := zmon j (DD * n / d).
(* cos(theta_j * n / d), sin(theta_j * n / d) *)
Definition pcos (j : nat) (n d : Z) : poly := pq (1 # 2) *p (pexp j n d +p pexp j (- n) d).
Definition psin (j : nat) (n d : Z) : poly := pq ((-1) # 2) *p pI *p (pexp j n d -pp pexp j (- n) d).
(* the usual half-angle symbols of the documentation *)
Definition c (j : nat) : poly := pcos j 1 2.
Definition s (j : nat) : poly := psin j 1 2.
Definition p0 : poly := pzero.
Definition p1 : poly := pone.

Local Close Scope Q_scope.
Local Open Scope R_scope.
Local Open Scope C_scope.

Lemma eeval_skip rho k n e : eeval rho k (repeat 0%Z n ++ [e]) = zpow (rho (k + n)%nat) e.
Proof.
  revert k. induction n as [|n IH]; intros k; cbn [repeat app eeval].
  - rewrite Nat.add_0_r. ring.
  - rewrite IH. replace (S k + n)%nat with (k + S n)%nat by lia. cbn. ring.
Qed.

Lemma peval_monomial rho e : peval rho [(1%Q, e)] = eeval rho 0 e.
Proof. unfold peval, teval. cbn [fold_right fst snd]. rewrite q2c_1. ring. Qed.

Lemma zmon_denotes th j e : peval (aenv HZ DD th) (zmon j e) = cis (IZR e * (nth j th 0%R / IZR DD)).
Proof.
  unfold zmon. rewrite peval_monomial. cbn [app eeval]. rewrite zpow_0, (eeval_skip _ 1 j e). cbn [Nat.add].
  rewrite aenv_var. ring.
Qed.

Lemma cis_plus_conj x : (cis x + cis (- x)) = RtoC (2 * cos x).
Proof. unfold cis. rewrite cos_neg, sin_neg. apply injective_projections; cbn; ring. Qed.
Lemma cis_minus_conj x : (cis x - cis (- x)) = (0, 2 * sin x)%R.
Proof. unfold cis. rewrite cos_neg, sin_neg. apply injective_projections; cbn; ring. Qed.

Lemma G8 th : good_env HZ (aenv HZ DD th).
Proof. apply aenv_good. unfold HZ. lia. Qed.

Lemma q2c_half : q2c (1 # 2) = RtoC (/ 2).
Proof. unfold q2c, Q2R. cbn. f_equal. field. Qed.
Lemma q2c_mhalf : q2c ((-1) # 2) = RtoC (- / 2).
Proof. unfold q2c, Q2R. cbn. f_equal. field. Qed.

Lemma pI_denotes th : peval (aenv HZ DD th) pI = Ci.
Proof.
  unfold pI, zetap. rewrite peval_monomial. cbn [eeval aenv]. rewrite zpow_cis, Cmult_1_r.
  apply (cis_half HZ); reflexivity.
Qed.

Theorem pexp_denotes th j n d : (d <> 0)%Z -> (Z.divide d (DD * n)) ->
  peval (aenv HZ DD th) (pexp j n d) = cis (IZR n / IZR d * nth j th 0%R).
Proof.
  intros Hd [k Hk]. unfold pexp. rewrite zmon_denotes. f_equal. rewrite Hk, Z.div_mul by exact Hd.
  assert (Hd' : IZR d <> 0%R) by (apply not_0_IZR, Hd).
  replace (IZR n) with (IZR k * IZR d / IZR DD)%R; [unfold DD; field; exact Hd'|].
  rewrite <- mult_IZR, <- Hk, mult_IZR. unfold DD. field.
Qed.
Lemma pexp_opp_denotes th j n d : (d <> 0)%Z -> (Z.divide d (DD * n)) ->
  peval (aenv HZ DD th) (pexp j (- n) d) = cis (- (IZR n / IZR d * nth j th 0%R)).
Proof.
  intros Hd Hn. rewrite pexp_denotes; [|exact Hd | rewrite Z.mul_opp_r; apply Z.divide_opp_r, Hn].
  f_equal. rewrite opp_IZR. field. apply not_0_IZR, Hd.
Qed.

Theorem pcos_denotes th j n d : (d <> 0)%Z -> (Z.divide d (DD * n)) ->
  peval (aenv HZ DD th) (pcos j n d) = RtoC (cos (IZR n / IZR d * nth j th 0%R)).
Proof.
  intros Hd Hn. unfold pcos, pmul', padd', pq.
  rewrite (peval_nmul _ _ (G8 th)), (peval_nadd _ _ (G8 th)), peval_pconst, pexp_denotes, pexp_opp_denotes by assumption.
  rewrite cis_plus_conj, q2c_half, <- RtoC_mult. f_equal. field.
Qed.
Theorem psin_denotes th j n d : (d <> 0)%Z -> (Z.divide d (DD * n)) ->
  peval (aenv HZ DD th) (psin j n d) = RtoC (sin (IZR n / IZR d * nth j th 0%R)).
Proof.
  intros Hd Hn. unfold psin, pmul', psub', padd', pneg', pq.
  rewrite !(peval_nmul _ _ (G8 th)), (peval_nadd _ _ (G8 th)), (peval_pnorm _ _ (G8 th)), (peval_pneg (aenv HZ DD th)),
    peval_pconst, pI_denotes, pexp_denotes, pexp_opp_denotes by assumption.
  fold (Cminus (cis (IZR n / IZR d * nth j th 0)) (cis (- (IZR n / IZR d * nth j th 0)))).
  rewrite cis_minus_conj, q2c_mhalf. unfold Ci. apply injective_projections; cbn; field.
Qed.

Theorem c_denotes th j : peval (aenv HZ DD th) (c j) = RtoC (cos (nth j th 0%R / 2)).
Proof. unfold c. rewrite pcos_denotes; [|discriminate | exists 4%Z; reflexivity]. do 2 f_equal. simpl. field. Qed.

Theorem s_denotes th j : peval (aenv HZ DD th) (s j) = RtoC (sin (nth j th 0%R / 2)).
Proof. unfold s. rewrite psin_denotes; [|discriminate | exists 4%Z; reflexivity]. do 2 f_equal. simpl. field. Qed.
