From Coq Require Import List Arith ZArith QArith Reals Bool.
From Coquelicot Require Import Complex.
From PLV Require Import Alg.Poly Alg.PolyEval Alg.Angles Lin.Vec Lin.VecHom Lin.PVec.
Import ListNotations.
Local Close Scope Q_scope.
Local Open Scope R_scope.
Local Open Scope C_scope.

Definition cvec := list C.
Definition cmat := list (list C).
Definition c_basis := @basis C (RtoC 0) (RtoC 1).
Definition c_apply_gate := @apply_gate C (RtoC 0) Cplus Cmult.
Definition c_capply := @capply C (RtoC 0) Cplus Cmult.
Definition c_mmul := @mmul C (RtoC 0) Cplus Cmult.
Definition c_mident := @mident C (RtoC 0) (RtoC 1).
Definition c_madj (M : cmat) : cmat := map (map Cconj) (mtranspose (RtoC 0) M).
Definition c_madd := @madd C Cplus.

Definition c_norm2 (v : cvec) : C := fold_right (fun x acc => Cplus (Cmult (Cconj x) x) acc) (RtoC 0) v.
Definition c_norms_total (vs : list cvec) : C := fold_right (fun v acc => Cplus (c_norm2 v) acc) (RtoC 0) vs.

Definition c_zero_mat (d : nat) : cmat := map (fun _ => map (fun _ => RtoC 0) (seq 0 d)) (seq 0 d).
Definition c_kraus_sum (d : nat) (Ks : list cmat) : cmat :=
  fold_right (fun K acc => c_madd (c_mmul (c_madj K) K) acc) (c_zero_mat d) Ks.

Section Sound.
  Variable hz : Z.
  Variable rho : env.
  Hypothesis G : good_env hz rho.
  Notation ev := (peval rho).
  Notation evv := (map (peval rho)).
  Notation evm := (map (map (peval rho))).
  Definition evg (g : pgate) : gate C := gmap poly C ev g.

  Lemma ev_zero : ev pzero = 0. Proof. reflexivity. Qed.
  Lemma ev_one : ev pone = 1. Proof. apply (peval_pone rho). Qed.
  Lemma ev_add a b : ev (nadd hz a b) = ev a + ev b. Proof. apply (peval_nadd hz rho G). Qed.
  Lemma ev_mul a b : ev (nmul hz a b) = ev a * ev b. Proof. apply (peval_nmul hz rho G). Qed.
  Local Hint Resolve ev_zero ev_one ev_add ev_mul : core.

  Lemma ev_basis n c : evv (p_basis n c) = c_basis n c.
  Proof. apply (basis_hom poly C pzero pone); auto. Qed.
  Lemma ev_apply_gate n ws M v : evv (p_apply_gate hz n ws M v) = c_apply_gate n ws (evm M) (evv v).
  Proof. apply (apply_gate_hom poly C pzero (nadd hz) (nmul hz)); auto. Qed.
  Lemma ev_capply n c v : evv (p_capply hz n c v) = c_capply n (map evg c) (evv v).
  Proof. apply (capply_hom poly C pzero (nadd hz) (nmul hz)); auto. Qed.
  Lemma ev_dot a b : ev (dot pzero (nadd hz) (nmul hz) a b) = dot (RtoC 0) Cplus Cmult (evv a) (evv b).
  Proof. apply (dot_hom poly C pzero (nadd hz) (nmul hz)); auto. Qed.
  Lemma ev_mmul X Y : evm (p_mmul hz X Y) = c_mmul (evm X) (evm Y).
  Proof. apply (mmul_hom poly C pzero (nadd hz) (nmul hz)); auto. Qed.
  Lemma ev_mident d : evm (p_mident d) = c_mident d.
  Proof. apply (mident_hom poly C pzero pone); auto. Qed.
  Lemma ev_madd X Y : evm (p_madd hz X Y) = c_madd (evm X) (evm Y).
  Proof. apply (madd_hom poly C (nadd hz)); auto. Qed.
  Lemma ev_madj M : evm (p_madj M) = c_madj (evm M).
  Proof.
    unfold p_madj, c_madj. rewrite <- (mtranspose_hom poly C pzero (RtoC 0) ev ev_zero).
    rewrite !map_map. apply map_ext. intros r. rewrite !map_map. apply map_ext. intros a.
    apply (peval_pconj hz rho G).
  Qed.

  Lemma ev_run n circ c : evv (p_capply hz n circ (p_basis n c)) = c_capply n (map evg circ) (c_basis n c).
  Proof. rewrite ev_capply, ev_basis. reflexivity. Qed.

  (* a sum of scalars built with nadd evaluates to the sum of the summands' values *)
  Lemma ev_sum {T U} (f : T -> poly) (g : U -> C) (h : T -> U) : (forall x, ev (f x) = g (h x)) -> forall l,
    ev (fold_right (fun x acc => nadd hz (f x) acc) pzero l) = fold_right (fun y acc => g y + acc) 0 (map h l).
  Proof. intros H. induction l as [|x l IH]; cbn [fold_right map]; [reflexivity|]. now rewrite ev_add, H, IH. Qed.

  Lemma veqb_sound u : forall v, veqb hz u v = true -> evv u = evv v.
  Proof.
    induction u as [|a u IH]; intros [|b v] H; try discriminate; [reflexivity|].
    cbn in H. apply andb_prop in H as [H1 H2]. cbn [map]. f_equal; [apply (peqb_sound hz rho G _ _ H1) | apply IH, H2].
  Qed.
  Lemma meqb_sound X : forall Y, meqb hz X Y = true -> evm X = evm Y.
  Proof.
    induction X as [|r X IH]; intros [|s Y] H; try discriminate; [reflexivity|].
    cbn in H. apply andb_prop in H as [H1 H2]. cbn [map]. f_equal; [apply veqb_sound, H1 | apply IH, H2].
  Qed.
  (* the checkers that compare two vectors for every member of a list *)
  Lemma forallb_veqb_sound {T} (f g : T -> pvec) l : forallb (fun c => veqb hz (f c) (g c)) l = true ->
    forall c, In c l -> evv (f c) = evv (g c).
  Proof. rewrite forallb_forall. intros H c Hc. apply veqb_sound, H, Hc. Qed.

  Theorem cols_ok_sound n circ ows M cols : cols_ok hz n circ ows M cols = true ->
    forall c, In c cols -> c_capply n (map evg circ) (c_basis n c) = c_apply_gate n ows (evm M) (c_basis n c).
  Proof. intros H c Hc. rewrite <- ev_run, <- ev_basis, <- ev_apply_gate. exact (forallb_veqb_sound _ _ _ H c Hc). Qed.

  Theorem circ_cols_eq_sound n c1 c2 cols : circ_cols_eq hz n c1 c2 cols = true ->
    forall c, In c cols -> c_capply n (map evg c1) (c_basis n c) = c_capply n (map evg c2) (c_basis n c).
  Proof. intros H c Hc. rewrite <- !ev_run. exact (forallb_veqb_sound _ _ _ H c Hc). Qed.

  Theorem is_unitary_sound M : is_unitary hz M = true -> c_mmul (c_madj (evm M)) (evm M) = c_mident (length M).
  Proof. unfold is_unitary. intros H. apply meqb_sound in H. rewrite ev_mmul, ev_madj, ev_mident in H. exact H. Qed.

  Theorem commute_sound X Y : commute hz X Y = true -> c_mmul (evm X) (evm Y) = c_mmul (evm Y) (evm X).
  Proof. unfold commute. intros H. apply meqb_sound in H. rewrite !ev_mmul in H. exact H. Qed.

  Theorem mmul_eq_sound X Y Z : meqb hz (p_mmul hz X Y) Z = true -> c_mmul (evm X) (evm Y) = evm Z.
  Proof. intros H. apply meqb_sound in H. rewrite ev_mmul in H. exact H. Qed.

  Lemma norm2_sound v : ev (norm2 hz v) = c_norm2 (evv v).
  Proof. apply ev_sum. intros x. now rewrite ev_mul, (peval_pconj hz rho G). Qed.
  Lemma norms_total_sound vs : ev (norms_total hz vs) = c_norms_total (map evv vs).
  Proof. apply ev_sum, norm2_sound. Qed.
  Theorem probs_total_one_sound vs : probs_total_one hz vs = true -> c_norms_total (map evv vs) = RtoC 1.
  Proof. intros H. apply (peqb_sound hz rho G) in H. rewrite <- norms_total_sound, H. apply ev_one. Qed.

  Lemma kraus_sum_sound d Ks : evm (kraus_sum hz d Ks) = c_kraus_sum d (map evm Ks).
  Proof.
    induction Ks as [|K Ks IH]; cbn [kraus_sum c_kraus_sum fold_right map].
    - unfold c_zero_mat. rewrite map_map. apply map_ext. intros r. rewrite map_map. reflexivity.
    - fold (kraus_sum hz d Ks). rewrite ev_madd, ev_mmul, ev_madj, IH. reflexivity.
  Qed.
  Theorem kraus_complete_sound d Ks : kraus_complete hz d Ks = true -> c_kraus_sum d (map evm Ks) = c_mident d.
  Proof. unfold kraus_complete. intros H. apply meqb_sound in H. rewrite kraus_sum_sound, ev_mident in H. exact H. Qed.
End Sound.

(* the "for every real parameter value" forms *)
Theorem cols_ok_forall hz D n circ ows M cols : (0 < hz)%Z -> cols_ok hz n circ ows M cols = true ->
  forall (thetas : list R) c, In c cols ->
    c_capply n (map (evg (aenv hz D thetas)) circ) (c_basis n c)
    = c_apply_gate n ows (map (map (peval (aenv hz D thetas))) M) (c_basis n c).
Proof. intros H E thetas. apply (cols_ok_sound hz _ (aenv_good hz D thetas H)). exact E. Qed.

Theorem is_unitary_forall hz D M : (0 < hz)%Z -> is_unitary hz M = true ->
  forall thetas : list R, let Mc := map (map (peval (aenv hz D thetas))) M in
    c_mmul (c_madj Mc) Mc = c_mident (length M).
Proof. intros H E thetas. apply (is_unitary_sound hz _ (aenv_good hz D thetas H)). exact E. Qed.

Theorem meqb_forall hz D X Y : (0 < hz)%Z -> meqb hz X Y = true ->
  forall thetas : list R, map (map (peval (aenv hz D thetas))) X = map (map (peval (aenv hz D thetas))) Y.
Proof. intros H E thetas. apply (meqb_sound hz _ (aenv_good hz D thetas H)). exact E. Qed.
