From Coq Require Import List Arith ZArith QArith Reals Bool.
From Coquelicot Require Import Complex.
From PLV Require Import Alg.Poly Alg.PolyEval Alg.Angles Lin.Vec Lin.VecHom Lin.PVec Lin.PVecSound Lin.OpExp.
Import ListNotations.
Local Close Scope Q_scope.
Local Open Scope R_scope.
Local Open Scope C_scope.

Definition c_denote := denote C (RtoC 0) (RtoC 1) Cplus Cmult Cconj.

Fixpoint emap (f : poly -> C) (e : oexp poly) : oexp C :=
  match e with
  | OLeaf ws M => OLeaf ws (map (map f) M)
  | OAdj e => OAdj (emap f e)
  | OPow k e => OPow k (emap f e)
  | OCtrl cw cv e => OCtrl cw cv (emap f e)
  | OProd a b => OProd (emap f a) (emap f b)
  | OSum a b => OSum (emap f a) (emap f b)
  | OSProd c e => OSProd (f c) (emap f e)
  end.

Section S.
  Variable hz : Z.
  Variable rho : env.
  Hypothesis G : good_env hz rho.
  Notation ev := (peval rho).
  Notation evm := (map (map (peval rho))).

  Lemma ev_full_of_gate n ws M :
    evm (full_of_gate poly pzero pone (nadd hz) (nmul hz) n ws M) = full_of_gate C (RtoC 0) (RtoC 1) Cplus Cmult n ws (evm M).
  Proof.
    unfold full_of_gate. rewrite (mtranspose_hom poly C pzero (RtoC 0) ev (ev_zero rho)). f_equal.
    rewrite map_map. apply map_ext. intros c. rewrite <- (ev_basis rho). exact (ev_apply_gate hz rho G n ws M (p_basis n c)).
  Qed.

  Lemma ev_mpow d k M : evm (mpowg poly pzero pone (nadd hz) (nmul hz) d k M) = mpowg C (RtoC 0) (RtoC 1) Cplus Cmult d k (evm M).
  Proof.
    induction k as [|k IH]; cbn [mpowg]; [apply (ev_mident rho)|]. rewrite <- IH. apply (ev_mmul hz rho G).
  Qed.

  Lemma ev_proj n cw cv keep : evm (projg poly pzero pone n cw cv keep) = projg C (RtoC 0) (RtoC 1) n cw cv keep.
  Proof.
    unfold projg. rewrite map_map. apply map_ext. intros r. rewrite map_map. apply map_ext. intros c.
    destruct (Nat.eqb r c); [|reflexivity]. destruct (Bool.eqb _ keep); [apply (ev_one rho) | reflexivity].
  Qed.

  Theorem denote_sound n e : evm (p_denote hz n e) = c_denote n (emap ev e).
  Proof.
    unfold p_denote, c_denote. induction e as [ws M|e IH|k e IH|cw cv e IH|a IHa b IHb|a IHa b IHb|c e IH]; cbn [denote emap];
      rewrite <- ?IH, <- ?IHa, <- ?IHb.
    - apply ev_full_of_gate.
    - apply (ev_madj hz rho G).
    - apply ev_mpow.
    - rewrite <- !ev_proj, <- (ev_mmul hz rho G). apply (ev_madd hz rho G).
    - apply (ev_mmul hz rho G).
    - apply (ev_madd hz rho G).
    - unfold mscaleg. rewrite !map_map. apply map_ext. intros r. rewrite !map_map. apply map_ext. intros x.
      apply (peval_nmul hz rho G).
  Qed.

  Theorem exp_ok_sound n e M : exp_ok hz n e M = true -> c_denote n (emap ev e) = evm M.
  Proof. unfold exp_ok. intros H. apply (meqb_sound hz rho G) in H. rewrite denote_sound in H. exact H. Qed.
End S.

Theorem exp_ok_forall hz D n e M : (0 < hz)%Z -> exp_ok hz n e M = true ->
  forall th : list R, c_denote n (emap (peval (aenv hz D th)) e) = map (map (peval (aenv hz D th))) M.
Proof. intros H E th. exact (exp_ok_sound hz _ (aenv_good hz D th H) n e M E). Qed.
