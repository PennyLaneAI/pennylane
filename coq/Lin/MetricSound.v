From Coq Require Import List Arith ZArith QArith Reals Bool Lia.
From Coquelicot Require Import Coquelicot.
From PLV Require Import Alg.Poly Alg.PolyEval Alg.Angles Alg.DerivDef Alg.Deriv Lin.Vec Lin.VecHom Lin.PVec Lin.PVecSound Lin.Grad Lin.GradSound Lin.Metric.
Import ListNotations.
Local Close Scope Q_scope.
Local Open Scope R_scope.
Local Open Scope C_scope.

(* the Fubini-Study metric entry from a state vector s and two tangent vectors di, dj *)
Definition c_repart (z : C) : C := Cmult (RtoC (/ 2)) (Cplus z (Cconj z)).
Definition c_metric (s di dj : cvec) : C :=
  c_repart (Cplus (c_inner di dj) (Copp (Cmult (c_inner di s) (c_inner s dj)))).
Definition c_quad (quad : list (C * (nat * nat))) (lin : list (C * nat)) (c0 : C) (vals : list C) : C :=
  let v a := nth a vals (RtoC 0) in
  Cplus (fold_right (fun q acc => Cplus (Cmult (fst q) (Cmult (v (fst (snd q))) (v (snd (snd q))))) acc) (RtoC 0) quad)
        (Cplus (fold_right (fun l acc => Cplus (Cmult (fst l) (v (snd l))) acc) (RtoC 0) lin) c0).

Lemma c_repart_conj z : c_repart (Cconj z) = c_repart z.
Proof. unfold c_repart. rewrite Cconj_invol, Cplus_comm. reflexivity. Qed.
Lemma c_metric_sym s a b : c_metric s a b = c_metric s b a.
Proof.
  unfold c_metric. rewrite <- (c_repart_conj (Cplus (c_inner b a) _)). f_equal.
  rewrite Cconj_plus, Cconj_opp, Cconj_mult, !c_inner_conj. now rewrite (Cmult_comm (c_inner s b)).
Qed.

Lemma eeval_ext rho rho' e : (forall k, rho k = rho' k) -> forall k, eeval rho k e = eeval rho' k e.
Proof. intros H. induction e as [|x e IH]; intros k; cbn [eeval]; [reflexivity|]. rewrite H, IH. reflexivity. Qed.
Lemma peval_ext rho rho' p : (forall k, rho k = rho' k) -> peval rho p = peval rho' p.
Proof. intros H. induction p as [|t p IH]; [reflexivity|]. rewrite !peval_cons, IH. unfold teval. rewrite (eeval_ext rho rho' _ H). reflexivity. Qed.
Lemma aenv_upd_same hz D th i k : aenv hz D (upd th i (nth i th 0%R)) k = aenv hz D th k.
Proof.
  destruct k as [|k]; [reflexivity|]. cbn [aenv].
  destruct (Nat.eq_dec k i) as [->|N]; [rewrite nth_upd_same | rewrite nth_upd_other by exact N]; reflexivity.
Qed.

(* the derivative with respect to theta_k taken at the vector's own k-th entry *)
Lemma pderiv_sound_at hz D : (0 < hz)%Z -> Z.even hz = true -> D <> 0%Z -> forall th k p,
  Cderive (fun y => peval (aenv hz D (upd th k y)) p) (nth k th 0%R) (peval (aenv hz D th) (pderiv hz D k p)).
Proof.
  intros H He HD th k p. rewrite <- (peval_ext _ _ _ (aenv_upd_same hz D th k)). apply pderiv_sound; assumption.
Qed.

Section Sound.
  Variable hz : Z.
  Variable rho : env.
  Hypothesis G : good_env hz rho.
  Notation ev := (peval rho).

  Lemma ev_repart p : ev (p_repart hz p) = c_repart (ev p).
  Proof.
    unfold p_repart, c_repart. rewrite (peval_pscale rho), (peval_nadd hz rho G), (peval_pconj hz rho G). f_equal.
    unfold q2c. f_equal. unfold Q2R. cbn. field.
  Qed.
  Lemma ev_metric D n circ i j :
    ev (p_metric hz D n circ i j)
    = c_metric (map ev (p_state hz n circ)) (map ev (p_dstate hz D n circ i)) (map ev (p_dstate hz D n circ j)).
  Proof.
    unfold p_metric, c_metric. rewrite ev_repart, (peval_nadd hz rho G), (peval_pneg rho), (peval_nmul hz rho G),
      !(ev_inner hz rho G). reflexivity.
  Qed.
  Lemma ev_nth vals a : ev (nth a vals pzero) = nth a (map ev vals) (RtoC 0).
  Proof. change (RtoC 0) with (ev pzero). symmetry. apply map_nth. Qed.
  Lemma ev_pquad quad lin c0 vals :
    ev (pquad hz quad lin c0 vals)
    = c_quad (map (fun q => (ev (fst q), snd q)) quad) (map (fun l => (ev (fst l), snd l)) lin) (ev c0) (map ev vals).
  Proof.
    unfold pquad, c_quad. rewrite !(ev_add hz rho G).
    f_equal; [|f_equal]; apply (ev_sum hz rho G); intros x; cbn [fst snd]; now rewrite !(ev_mul hz rho G), !ev_nth.
  Qed.
End Sound.

(* every component of the circuit's output state is differentiable in theta_k, with the component of p_dstate as derivative *)
Lemma Cderive_state hz D n circ : (0 < hz)%Z -> Z.even hz = true -> D <> 0%Z -> forall th k m,
  Cderive (fun y => nth m (c_state n (map (evg (aenv hz D (upd th k y))) circ)) (RtoC 0)) (nth k th 0%R)
          (nth m (map (peval (aenv hz D th)) (p_dstate hz D n circ k)) (RtoC 0)).
Proof.
  intros H He HD th k m. unfold p_dstate. rewrite <- ev_nth, (map_nth (pderiv hz D k) _ pzero).
  eapply Cderive_ext; [|apply pderiv_sound_at; assumption].
  intros y. rewrite <- (ev_state hz _ (aenv_good hz D (upd th k y) H)). apply ev_nth.
Qed.

(* what the polynomial p_metric means: at every real parameter vector th, the state components have partial derivatives
   (the entries of dI, dJ) and the evaluation of p_metric is the Fubini-Study expression built from them *)
Theorem metric_is_forall hz D n circ i j Gp : (0 < hz)%Z -> metric_is hz D n circ i j Gp = true ->
  forall th : list R,
    let rho := aenv hz D th in
    let s := c_state n (map (evg rho) circ) in
    exists dI dJ : cvec,
      (forall m, Cderive (fun y => nth m (c_state n (map (evg (aenv hz D (upd th i y))) circ)) (RtoC 0)) (nth i th 0%R) (nth m dI (RtoC 0))) /\
      (forall m, Cderive (fun y => nth m (c_state n (map (evg (aenv hz D (upd th j y))) circ)) (RtoC 0)) (nth j th 0%R) (nth m dJ (RtoC 0))) /\
      peval rho Gp = c_metric s dI dJ.
Proof.
  intros H X th rho s. destruct (guarded_peqb _ _ _ _ X) as (He & HD & Q).
  pose proof (aenv_good hz D th H) as Gr.
  exists (map (peval rho) (p_dstate hz D n circ i)), (map (peval rho) (p_dstate hz D n circ j)).
  split; [|split]; [intros m; apply Cderive_state; assumption..|].
  unfold s, rho. rewrite <- (peqb_sound hz _ Gr _ _ Q), (ev_metric hz _ Gr), <- (ev_state hz _ Gr). reflexivity.
Qed.

(* a discharged `postproc_is` obligation: the transform's (degree <= 2) post-processing applied to the exact expectation
   values of its tapes evaluates to the polynomial G at every parameter vector *)
Theorem postproc_is_forall hz D n quad lin c0 ts Gp : (0 < hz)%Z -> postproc_is hz n quad lin c0 ts Gp = true ->
  forall th : list R,
    let rho := aenv hz D th in
    c_quad (map (fun q => (peval rho (fst q), snd q)) quad) (map (fun l => (peval rho (fst l), snd l)) lin) (peval rho c0)
           (map (fun t => c_expval n (evtape rho t)) ts) = peval rho Gp.
Proof.
  intros H X th rho. unfold postproc_is in X. pose proof (aenv_good hz D th H) as Gr.
  unfold rho. rewrite <- (peqb_sound hz _ Gr _ _ X), (ev_pquad hz _ Gr), (ev_tapes hz _ Gr). reflexivity.
Qed.
