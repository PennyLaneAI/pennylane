(* Index plans for gate application.
   Lin.Vec.apply_entry recomputes, for every amplitude of every state a gate on wires ws is applied to, which matrix
   row and which source amplitudes it reads, and fetches each of them with nth; on the unary numbers of Lin.Vec that
   bookkeeping is most of what evaluating cols_ok and circ_cols_eq costs.  It depends on (n, ws) only.  Here it is
   computed once per distinct wire list of an obligation (gate_plan, tabled by plans_of) with the source amplitudes kept as bit paths, and
   applying a gate through its plan to a state held as a binary tree is proved equal to apply_gate for all arguments,
   ragged matrices and states included.  Lin/PlanSparse.v restates the two checkers on top of it. *)
From Coq Require Import List Arith Bool Lia.
From PLV Require Import Alg.ListFacts Lin.Vec.
Import ListNotations.

(* one entry per output amplitude: the matrix row, and for each matrix column in turn the path of the source amplitude *)
Definition plan := list (nat * list (list bool)).

Definition gate_plan (n : nat) (ws : list nat) : plan :=
  let k := length ws in
  map (fun i => let bs := bits n i in
                (idx (sub_bits ws bs), map (fun x => replace_bits ws (bits k x) bs) (seq 0 (2 ^ k))))
      (seq 0 (2 ^ n)).

Fixpoint wires_eqb (a b : list nat) : bool :=
  match a, b with
  | [], [] => true
  | x :: a', y :: b' => Nat.eqb x y && wires_eqb a' b'
  | _, _ => false
  end.

Lemma wires_eqb_eq a : forall b, wires_eqb a b = true -> a = b.
Proof.
  induction a as [|x a IH]; intros [|y b] H; try discriminate; [reflexivity|].
  cbn in H. apply andb_true_iff in H as [H1 H2]. apply Nat.eqb_eq in H1. f_equal; auto.
Qed.

Definition plans := list (list nat * plan).

Fixpoint find_plan (ws : list nat) (t : plans) : option plan :=
  match t with
  | [] => None
  | e :: r => if wires_eqb ws (fst e) then Some (snd e) else find_plan ws r
  end.

(* the plans of the distinct wire lists among wss *)
Fixpoint plans_of (n : nat) (wss : list (list nat)) : plans :=
  match wss with
  | [] => []
  | ws :: r => let t := plans_of n r in
               match find_plan ws t with Some _ => t | None => (ws, gate_plan n ws) :: t end
  end.

(* falls back on computing the plan, so that no lemma needs a premise about the table *)
Definition plan_for (t : plans) (n : nat) (ws : list nat) : plan :=
  match find_plan ws t with Some p => p | None => gate_plan n ws end.

Lemma plan_for_plans_of n wss ws : plan_for (plans_of n wss) n ws = gate_plan n ws.
Proof.
  unfold plan_for. induction wss as [|w wss IH]; cbn [plans_of find_plan]; [reflexivity|].
  destruct (find_plan w (plans_of n wss)); [exact IH|]. cbn [find_plan fst snd].
  destruct (wires_eqb ws w) eqn:E; [|exact IH]. apply wires_eqb_eq in E. subst w. reflexivity.
Qed.

Lemma bits_length n : forall i, length (bits n i) = n.
Proof. induction n as [|n IH]; intros i; cbn [bits]; [reflexivity|]. rewrite app_length, IH. cbn. lia. Qed.

Lemma set_nth_length {A} (x : A) l : forall i, length (set_nth i x l) = length l.
Proof. induction l as [|y l IH]; intros [|i]; cbn; congruence. Qed.

Lemma replace_bits_length ws : forall xs bs, length (replace_bits ws xs bs) = length bs.
Proof.
  induction ws as [|w ws IH]; intros [|x xs] bs; cbn [replace_bits]; try reflexivity.
  rewrite IH. apply set_nth_length.
Qed.

Lemma idx_from p : forall a, fold_left (fun a (b : bool) => 2 * a + (if b then 1 else 0)) p a = 2 ^ length p * a + idx p.
Proof.
  unfold idx. induction p as [|c p IH]; intros a; cbn [fold_left length]; [cbn; lia|].
  rewrite (IH (2 * a + _)), (IH (2 * 0 + _)), Nat.pow_succ_r'. destruct c; lia.
Qed.

Lemma idx_cons b p : idx (b :: p) = (if b then 2 ^ length p else 0) + idx p.
Proof. unfold idx at 1. cbn [fold_left]. rewrite idx_from. destruct b; lia. Qed.

Lemma idx_lt p : idx p < 2 ^ length p.
Proof. induction p as [|b p IH]; [cbn; lia|]. rewrite idx_cons. cbn [length]. rewrite Nat.pow_succ_r'. destruct b; lia. Qed.

Section Generic.
  Variable A : Type.
  Variables (zero : A) (add mul : A -> A -> A).

  Inductive tree := Leaf (a : A) | Node (l r : tree).

  (* the first 2^n entries of v (zero where v is short), first half to the left *)
  Fixpoint tree_of (n : nat) (v : list A) : tree :=
    match n with
    | O => Leaf (hd zero v)
    | S m => Node (tree_of m (firstn (2 ^ m) v)) (tree_of m (skipn (2 ^ m) v))
    end.

  Fixpoint lookup (t : tree) (p : list bool) : A :=
    match t, p with
    | Leaf a, _ => a
    | Node l r, b :: p' => lookup (if b then r else l) p'
    | Node l _, [] => lookup l []
    end.

  Lemma lookup_tree_of p : forall v, lookup (tree_of (length p) v) p = nth (idx p) v zero.
  Proof.
    induction p as [|b p IH]; intros v; [destruct v; reflexivity|].
    cbn [length tree_of lookup]. rewrite idx_cons. destruct b; rewrite IH.
    - apply nth_skipn.
    - apply nth_firstn, idx_lt.
  Qed.

  Fixpoint row_dot (row : list A) (js : list (list bool)) (vt : tree) : A :=
    match js with
    | [] => zero
    | j :: js' => add (mul (hd zero row) (lookup vt j)) (row_dot (tl row) js' vt)
    end.

  Lemma row_dot_spec vt (g : nat -> list bool) (f : nat -> A) row : (forall x, lookup vt (g x) = f x) -> forall k s,
    row_dot (skipn s row) (map g (seq s k)) vt = fold_right (fun x acc => add (mul (nth x row zero) (f x)) acc) zero (seq s k).
  Proof.
    intros H. induction k as [|k IH]; intros s; [reflexivity|].
    cbn [seq map row_dot fold_right]. rewrite hd_skipn, tl_skipn, IH, H. reflexivity.
  Qed.

  Definition apply_plan (n : nat) (p : plan) (M : mat A) (v : vec A) : vec A :=
    let vt := tree_of n v in
    map (fun e => row_dot (nth (fst e) M []) (snd e) vt) p.

  Lemma apply_plan_gate n ws M v : apply_plan n (gate_plan n ws) M v = apply_gate zero add mul n ws M v.
  Proof.
    unfold apply_plan, gate_plan, apply_gate. rewrite map_map. apply map_ext. intros i.
    apply (row_dot_spec _ _ _ (nth _ M [])) with (s := 0). intros x.
    unfold vnth. rewrite <- lookup_tree_of, replace_bits_length, bits_length. reflexivity.
  Qed.
End Generic.

Arguments Leaf {A} a.
Arguments Node {A} l r.
Arguments lookup {A} t p.
Arguments tree_of {A} zero n v.
Arguments row_dot {A} zero add mul row js vt.
Arguments apply_plan {A} zero add mul n p M v.
