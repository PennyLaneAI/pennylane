(* Ring homomorphisms commute with every generic vector/matrix operation of Lin/Vec.v. *)
From Coq Require Import List Arith Bool.
From PLV Require Import Lin.Vec.
Import ListNotations.

Lemma combine_map {A B A' B'} (f : A -> A') (g : B -> B') a : forall b,
  combine (map f a) (map g b) = map (fun p => (f (fst p), g (snd p))) (combine a b).
Proof. induction a as [|x a IH]; intros [|y b]; cbn [map combine fst snd]; [reflexivity..|]. now rewrite IH. Qed.

Section Hom.
  Variables A B : Type.
  Variables (zA oA : A) (addA mulA : A -> A -> A).
  Variables (zB oB : B) (addB mulB : B -> B -> B).
  Variable phi : A -> B.
  Hypothesis phi_zero : phi zA = zB.
  Hypothesis phi_one : phi oA = oB.
  Hypothesis phi_add : forall a b, phi (addA a b) = addB (phi a) (phi b).
  Hypothesis phi_mul : forall a b, phi (mulA a b) = mulB (phi a) (phi b).

  Notation vmap := (map phi).
  Notation mmap := (map (map phi)).
  Definition gmap (g : gate A) : gate B := (fst g, map (map phi) (snd g)).

  Lemma vnth_hom v i : phi (vnth zA v i) = vnth zB (vmap v) i.
  Proof. unfold vnth. rewrite <- phi_zero. symmetry. apply map_nth. Qed.

  Lemma mnth_hom M r c : phi (mnth zA M r c) = mnth zB (mmap M) r c.
  Proof.
    unfold mnth. change (@nil B) with (map phi []). rewrite map_nth.
    rewrite <- phi_zero. symmetry. apply map_nth.
  Qed.

  Lemma basis_hom n c : vmap (basis zA oA n c) = basis zB oB n c.
  Proof.
    unfold basis. rewrite map_map. apply map_ext. intros i. destruct (Nat.eqb i c); assumption.
  Qed.

  Lemma apply_entry_hom n ws M v i :
    phi (apply_entry zA addA mulA n ws M v i) = apply_entry zB addB mulB n ws (mmap M) (vmap v) i.
  Proof.
    unfold apply_entry. induction (seq 0 (2 ^ length ws)) as [|x l IH]; cbn [fold_right]; [exact phi_zero|].
    rewrite phi_add, phi_mul, IH, mnth_hom, vnth_hom. reflexivity.
  Qed.

  Lemma apply_gate_hom n ws M v :
    vmap (apply_gate zA addA mulA n ws M v) = apply_gate zB addB mulB n ws (mmap M) (vmap v).
  Proof. unfold apply_gate. rewrite map_map. apply map_ext. intros i. apply apply_entry_hom. Qed.

  Lemma capply_hom n c : forall v,
    vmap (capply zA addA mulA n c v) = capply zB addB mulB n (map gmap c) (vmap v).
  Proof.
    unfold capply. induction c as [|g c IH]; intros v; [reflexivity|]. cbn [fold_left map].
    rewrite IH, apply_gate_hom. reflexivity.
  Qed.

  Lemma dot_hom a b : phi (dot zA addA mulA a b) = dot zB addB mulB (vmap a) (vmap b).
  Proof.
    unfold dot. rewrite combine_map, map_map. cbn [fst snd].
    induction (combine a b) as [|p l IH]; cbn [map fold_right]; [exact phi_zero|].
    rewrite phi_add, phi_mul, IH. reflexivity.
  Qed.

  Lemma mcol_hom M c : vmap (mcol zA M c) = mcol zB (mmap M) c.
  Proof.
    unfold mcol. rewrite !map_map. apply map_ext. intros r.
    rewrite <- phi_zero. symmetry. apply map_nth.
  Qed.

  Lemma hd_len_hom (Y : list (list A)) : length (hd [] (mmap Y)) = length (hd [] Y).
  Proof. destruct Y as [|r Y]; [reflexivity|]. cbn. apply map_length. Qed.

  Lemma mmul_hom X Y : mmap (mmul zA addA mulA X Y) = mmul zB addB mulB (mmap X) (mmap Y).
  Proof.
    unfold mmul. rewrite !map_map. apply map_ext. intros r.
    rewrite map_map, hd_len_hom. apply map_ext. intros c.
    rewrite dot_hom, mcol_hom. reflexivity.
  Qed.

  Lemma mident_hom d : mmap (mident zA oA d) = mident zB oB d.
  Proof.
    unfold mident. rewrite map_map. apply map_ext. intros r. rewrite map_map. apply map_ext.
    intros c. destruct (Nat.eqb r c); assumption.
  Qed.

  Lemma mtranspose_hom M : mmap (mtranspose zA M) = mtranspose zB (mmap M).
  Proof.
    unfold mtranspose. rewrite map_map, hd_len_hom. apply map_ext. intros c. apply mcol_hom.
  Qed.

  Lemma madd_hom X Y : mmap (madd addA X Y) = madd addB (mmap X) (mmap Y).
  Proof.
    unfold madd. rewrite combine_map, !map_map. apply map_ext. intros rs. cbn [fst snd].
    rewrite combine_map, !map_map. apply map_ext. intros ab. apply phi_add.
  Qed.
End Hom.
