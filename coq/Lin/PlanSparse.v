(* Sparse evaluation of cols_ok and circ_cols_eq.
   The states of an obligation are sparse (a basis column pushed through permutation-like gates) and so are the gate
   matrices, while nadd and nmul renormalise at every term, also at a zero one.  Here each gate is turned once, for all
   columns, into a tree holding for every output amplitude its non-zero matrix entries with the paths of their sources;
   a state is a tree whose all-zero subtrees are cut back to one empty leaf; products are collected with ++ and
   normalised once per amplitude.  The result agrees with the model's up to peq, which is all that veqb looks at. *)
From Coq Require Import List Arith ZArith Bool Lia.
From PLV Require Import Alg.Poly Alg.PolyEquiv Lin.Vec Lin.PVec Lin.Plan.
Import ListNotations.

Fixpoint tmap {A B} (f : A -> B) (t : tree A) : tree B :=
  match t with
  | Leaf a => Leaf (f a)
  | Node l r => Node (tmap f l) (tmap f r)
  end.

Lemma lookup_tmap {A B} (f : A -> B) t : forall p, lookup (tmap f t) p = f (lookup t p).
Proof. induction t as [a|l IHl r IHr]; intros [|[] p]; cbn; auto. Qed.

Lemma tree_of_map {A B} (f : A -> B) z n : forall v, tree_of (f z) n (map f v) = tmap f (tree_of z n v).
Proof.
  induction n as [|n IH]; intros v; cbn [tree_of tmap]; [destruct v; reflexivity|].
  rewrite firstn_map, skipn_map, !IH. reflexivity.
Qed.

Definition tleft {A} (t : tree A) : tree A := match t with Leaf _ => t | Node l _ => l end.
Definition tright {A} (t : tree A) : tree A := match t with Leaf _ => t | Node _ r => r end.

Lemma lookup_tleft {A} (t : tree A) p : lookup (tleft t) p = lookup t (false :: p).
Proof. destruct t; reflexivity. Qed.

Lemma lookup_tright {A} (t : tree A) p : lookup (tright t) p = lookup t (true :: p).
Proof. destruct t; reflexivity. Qed.

(* the non-zero entries of a matrix row, each with the path of the amplitude it multiplies *)
Definition sentry := list (poly * list bool).

Fixpoint sparse_zip (row : list poly) (js : list (list bool)) : sentry :=
  match js with
  | [] => []
  | j :: js' => match hd pzero row with
                | [] => sparse_zip (tl row) js'
                | m => (m, j) :: sparse_zip (tl row) js'
                end
  end.

Fixpoint sdot (vt : tree poly) (s : sentry) : poly :=
  match s with
  | [] => []
  | mj :: s' => match lookup vt (snd mj) with
                | [] => sdot vt s'
                | a => pmul (fst mj) a ++ sdot vt s'
                end
  end.

Lemma pmul_nil_r p : pmul p [] = [].
Proof. induction p as [|s p IH]; [reflexivity|exact IH]. Qed.

Lemma sdot_cons vt mj s : sdot vt (mj :: s) = pmul (fst mj) (lookup vt (snd mj)) ++ sdot vt s.
Proof. cbn [sdot]. destruct (lookup vt (snd mj)); [rewrite pmul_nil_r|]; reflexivity. Qed.

Definition pnode (l r : tree poly) : tree poly :=
  match l, r with
  | Leaf [], Leaf [] => Leaf []
  | _, _ => Node l r
  end.

Lemma lookup_pnode l r p : lookup (pnode l r) p = lookup (Node l r) p.
Proof. destruct l as [[|]|], r as [[|]|]; try reflexivity. destruct p as [|[] p]; reflexivity. Qed.

Fixpoint tapply (hz : Z) (g : tree sentry) (vt : tree poly) : tree poly :=
  match g with
  | Leaf s => Leaf (pnorm hz (sdot vt s))
  | Node l r => pnode (tapply hz l vt) (tapply hz r vt)
  end.

Lemma lookup_tapply hz g vt : forall p, lookup (tapply hz g vt) p = pnorm hz (sdot vt (lookup g p)).
Proof.
  induction g as [s|l IHl r IHr]; intros p; cbn [tapply]; [reflexivity|].
  rewrite lookup_pnode. destruct p as [|[] p]; cbn [lookup]; auto.
Qed.

Definition inst (n : nat) (p : plan) (M : pmat) : tree sentry :=
  tmap (fun e => sparse_zip (nth (fst e) M []) (snd e)) (tree_of (0, []) n p).

Definition inst_gate (t : plans) (n : nat) (g : pgate) : tree sentry := inst n (plan_for t n (fst g)) (snd g).

Definition trun (hz : Z) (gs : list (tree sentry)) (s : tree poly) : tree poly := fold_left (fun s g => tapply hz g s) gs s.

(* equal leaves down to depth n; two cut-back subtrees need no descent *)
Fixpoint teqb (hz : Z) (n : nat) (s t : tree poly) : bool :=
  match s, t with
  | Leaf [], Leaf [] => true
  | _, _ => match n with
            | O => peqb hz (lookup s []) (lookup t [])
            | S m => teqb hz m (tleft s) (tleft t) && teqb hz m (tright s) (tright t)
            end
  end.

Lemma teqb_cases hz n s t : teqb hz n s t = true ->
  (s = Leaf [] /\ t = Leaf []) \/
  match n with
  | O => peqb hz (lookup s []) (lookup t [])
  | S m => teqb hz m (tleft s) (tleft t) && teqb hz m (tright s) (tright t)
  end = true.
Proof. destruct n, s as [[|]|], t as [[|]|]; cbn [teqb]; auto. Qed.

Fixpoint leaves {A} (n : nat) (t : tree A) : list A :=
  match n with
  | O => [lookup t []]
  | S m => leaves m (tleft t) ++ leaves m (tright t)
  end.

Lemma leaves_tree_of {A} (z : A) n : forall v, length v = 2 ^ n -> leaves n (tree_of z n v) = v.
Proof.
  induction n as [|n IH]; intros v L; cbn [tree_of leaves tleft tright].
  - destruct v as [|a [|]]; try discriminate. reflexivity.
  - rewrite Nat.pow_succ_r' in L. rewrite !IH; [apply firstn_skipn|rewrite skipn_length; lia|rewrite firstn_length; lia].
Qed.

Lemma veqb_app hz a : forall c b d, veqb hz a c = true -> veqb hz b d = true -> veqb hz (a ++ b) (c ++ d) = true.
Proof.
  induction a as [|x a IH]; intros [|y c] b d H1 H2; try discriminate; [exact H2|].
  cbn [app veqb] in *. apply andb_true_iff in H1 as [-> H1]. exact (IH c b d H1 H2).
Qed.

Lemma basis_length {A} (z o : A) n c : length (basis z o n c) = 2 ^ n.
Proof. unfold basis. rewrite map_length. apply seq_length. Qed.

Lemma capply_length {A} (z : A) add mul n c : forall v, length v = 2 ^ n -> length (capply z add mul n c v) = 2 ^ n.
Proof.
  induction c as [|g c IH]; intros v L; [exact L|]. apply IH. unfold apply_gate. rewrite map_length. apply seq_length.
Qed.

Section Sim.
  Variable hz : Z.
  Hypothesis hz_pos : (0 < hz)%Z.

  Definition tsim (s t : tree poly) : Prop := forall p, peq hz (lookup s p) (lookup t p).

  Lemma tsim_refl t : tsim t t.
  Proof. intros p. apply peq_refl, hz_pos. Qed.

  Lemma sdot_row_dot s vt : tsim s vt -> forall js row,
    peq hz (sdot s (sparse_zip row js)) (row_dot pzero (nadd hz) (nmul hz) row js vt).
  Proof.
    intros H. induction js as [|j js IH]; intros row; cbn [sparse_zip row_dot]; [apply peq_refl, hz_pos|].
    (* the model sums the same products, normalising each product and each partial sum *)
    specialize (IH (tl row)). apply peq_pnorm_r; [exact hz_pos|].
    destruct (hd pzero row) as [|t m]; [exact IH|].
    rewrite sdot_cons. apply peq_app; [exact hz_pos| |exact IH].
    apply peq_pnorm_r, peq_pmul_r, H; exact hz_pos.
  Qed.

  Lemma tapply_sim n p M s v : tsim s (tree_of pzero n v) ->
    tsim (tapply hz (inst n p M) s) (tree_of pzero n (apply_plan pzero (nadd hz) (nmul hz) n p M v)).
  Proof.
    intros H path. unfold inst, apply_plan. cbv zeta.
    set (f := fun e : nat * list (list bool) => row_dot pzero (nadd hz) (nmul hz) (nth (fst e) M []) (snd e) (tree_of pzero n v)).
    replace (tree_of pzero n (map f p)) with (tmap f (tree_of (0, []) n p)) by (symmetry; exact (tree_of_map f (0, []) n p)).
    rewrite lookup_tapply, !lookup_tmap.
    apply (peq_trans hz hz_pos _ _ _ (peq_pnorm hz hz_pos _)), sdot_row_dot, H.
  Qed.

  Lemma trun_sim n wss circ : forall s v, tsim s (tree_of pzero n v) ->
    tsim (trun hz (map (inst_gate (plans_of n wss) n) circ) s) (tree_of pzero n (p_capply hz n circ v)).
  Proof.
    induction circ as [|g circ IH]; intros s v H; [exact H|]. cbn [map]. apply IH.
    unfold inst_gate. rewrite plan_for_plans_of, <- apply_plan_gate. apply tapply_sim, H.
  Qed.

  Lemma teqb_lookup n : forall s t, teqb hz n s t = true -> forall p, length p = n -> peq hz (lookup s p) (lookup t p).
  Proof.
    induction n as [|n IH]; intros s t H p L; apply teqb_cases in H as [[-> ->]|H]; try (apply peq_refl, hz_pos).
    - destruct p; [exact H|discriminate].
    - destruct p as [|b p]; [discriminate|]. injection L as L. apply andb_true_iff in H as [Hl Hr].
      destruct b; [rewrite <- !lookup_tright|rewrite <- !lookup_tleft]; apply IH; assumption.
  Qed.

  Lemma veqb_leaves n : forall s t, (forall p, length p = n -> peq hz (lookup s p) (lookup t p)) ->
    veqb hz (leaves n s) (leaves n t) = true.
  Proof.
    induction n as [|n IH]; intros s t H; cbn [leaves].
    - cbn [veqb]. rewrite (H [] eq_refl). reflexivity.
    - apply veqb_app; apply IH; intros p L; rewrite ?lookup_tleft, ?lookup_tright; apply H; cbn [length]; congruence.
  Qed.

  (* Each tree run follows the model's run of the same circuit leaf by leaf (trun_sim), teqb compares the two tree runs,
     and the leaves of tree_of n of a list of length 2^n are that list. *)
  Lemma teqb_trun n wss c1 c2 v : length v = 2 ^ n ->
    let t := plans_of n wss in
    teqb hz n (trun hz (map (inst_gate t n) c1) (tree_of pzero n v)) (trun hz (map (inst_gate t n) c2) (tree_of pzero n v)) = true ->
    veqb hz (p_capply hz n c1 v) (p_capply hz n c2 v) = true.
  Proof.
    intros L t H.
    rewrite <- (leaves_tree_of pzero n (p_capply hz n c1 v)), <- (leaves_tree_of pzero n (p_capply hz n c2 v))
      by (apply capply_length, L).
    apply veqb_leaves. intros p Lp.
    pose proof (trun_sim n wss c1 _ v (tsim_refl _) p) as S1. pose proof (trun_sim n wss c2 _ v (tsim_refl _) p) as S2.
    exact (peq_trans hz hz_pos _ _ _ (peq_sym hz hz_pos _ _ S1) (peq_trans hz hz_pos _ _ _ (teqb_lookup n _ _ H p Lp) S2)).
  Qed.
End Sim.

Definition cols_ok_fast (hz : Z) (n : nat) (circ : list pgate) (ows : list nat) (M : pmat) (cols : list nat) : bool :=
  let t := plans_of n (ows :: map fst circ) in
  let gs := map (inst_gate t n) circ in
  let ref := inst_gate t n (ows, M) in
  (0 <? hz)%Z &&
  forallb (fun c => let b := tree_of pzero n (p_basis n c) in teqb hz n (trun hz gs b) (tapply hz ref b)) cols.

Definition circ_cols_eq_fast (hz : Z) (n : nat) (c1 c2 : list pgate) (cols : list nat) : bool :=
  let t := plans_of n (map fst c1 ++ map fst c2) in
  let gs1 := map (inst_gate t n) c1 in
  let gs2 := map (inst_gate t n) c2 in
  (0 <? hz)%Z &&
  forallb (fun c => let b := tree_of pzero n (p_basis n c) in teqb hz n (trun hz gs1 b) (trun hz gs2 b)) cols.

(* The generated obligations evaluate the sparse form: `apply PlanSparse.cols_ok_by_fast; vm_compute; reflexivity`.
   Applying one gate is running the circuit that consists of it, so cols_ok is the instance c2 = [(ows, M)] of circ_cols_eq. *)
Theorem cols_ok_by_fast hz n circ ows M cols : cols_ok_fast hz n circ ows M cols = true -> cols_ok hz n circ ows M cols = true.
Proof.
  unfold cols_ok_fast, cols_ok. cbv zeta. intros H. apply andb_true_iff in H as [P H]. apply Z.ltb_lt in P.
  rewrite forallb_forall in *. intros c Hc.
  exact (teqb_trun hz P n _ circ [(ows, M)] _ (basis_length _ _ n c) (H c Hc)).
Qed.

Theorem circ_cols_eq_by_fast hz n c1 c2 cols : circ_cols_eq_fast hz n c1 c2 cols = true -> circ_cols_eq hz n c1 c2 cols = true.
Proof.
  unfold circ_cols_eq_fast, circ_cols_eq. cbv zeta. intros H. apply andb_true_iff in H as [P H]. apply Z.ltb_lt in P.
  rewrite forallb_forall in *. intros c Hc.
  exact (teqb_trun hz P n _ c1 c2 _ (basis_length _ _ n c) (H c Hc)).
Qed.
