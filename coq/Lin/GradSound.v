From Coq Require Import List Arith ZArith QArith Reals Bool.
From Coquelicot Require Import Coquelicot.
From PLV Require Import Alg.Poly Alg.PolyEval Alg.Angles Alg.DerivDef Alg.Deriv Lin.Vec Lin.VecHom Lin.PVec Lin.PVecSound Lin.Grad.
Import ListNotations.
Local Close Scope Q_scope.
Local Open Scope R_scope.
Local Open Scope C_scope.

Definition c_inner (u v : cvec) : C := dot (RtoC 0) Cplus Cmult (map Cconj u) v.
Definition cobs := list (C * list (gate C)).
Definition ctape := (list (gate C) * cobs)%type.
Definition c_state (n : nat) (circ : list (gate C)) : cvec := c_capply n circ (c_basis n 0).
Definition c_expect (n : nat) (s : cvec) (O : cobs) : C :=
  fold_right (fun cg acc => Cplus (Cmult (fst cg) (c_inner s (c_capply n (snd cg) s))) acc) (RtoC 0) O.
(* <0| U^dagger (sum_k c_k O_k) U |0> *)
Definition c_expval (n : nat) (t : ctape) : C := c_expect n (c_state n (fst t)) (snd t).
Definition c_lincomb (cs vs : list C) : C :=
  fold_right (fun cv acc => Cplus (Cmult (fst cv) (snd cv)) acc) (RtoC 0) (combine cs vs).

Lemma c_inner_conj u : forall v, Cconj (c_inner u v) = c_inner v u.
Proof.
  unfold c_inner, dot. induction u as [|x u IH]; intros [|y v]; cbn [map combine fold_right fst snd]; try apply Cconj_RtoC.
  rewrite Cconj_plus, Cconj_mult, Cconj_invol, IH. f_equal. apply Cmult_comm.
Qed.

Section Sound.
  Variable hz : Z.
  Variable rho : env.
  Hypothesis G : good_env hz rho.
  Notation ev := (peval rho).
  Definition evobs (O : pobs) : cobs := map (fun cg => (ev (fst cg), map (evg rho) (snd cg))) O.
  Definition evtape (t : ptape) : ctape := (map (evg rho) (fst t), evobs (snd t)).

  Lemma ev_inner u v : ev (p_inner hz u v) = c_inner (map ev u) (map ev v).
  Proof.
    unfold p_inner, c_inner. rewrite (ev_dot hz rho G). f_equal.
    rewrite !map_map. apply map_ext. intros a. apply (peval_pconj hz rho G).
  Qed.
  Lemma ev_state n circ : map ev (p_state hz n circ) = c_state n (map (evg rho) circ).
  Proof. apply (ev_run hz rho G). Qed.
  Lemma ev_expect n s O : ev (p_expect hz n s O) = c_expect n (map ev s) (evobs O).
  Proof. apply (ev_sum hz rho G). intros cg. now rewrite (ev_mul hz rho G), ev_inner, (ev_capply hz rho G). Qed.
  Lemma ev_expval n t : ev (p_expval hz n t) = c_expval n (evtape t).
  Proof. unfold p_expval, c_expval, evtape. cbn [fst snd]. rewrite ev_expect, ev_state. reflexivity. Qed.
  Lemma ev_plincomb cs ps : ev (plincomb hz cs ps) = c_lincomb (map ev cs) (map ev ps).
  Proof. unfold plincomb, c_lincomb. rewrite combine_map. apply (ev_sum hz rho G). intros cp. apply (ev_mul hz rho G). Qed.
  Lemma ev_tapes n ts : map ev (p_tapes hz n ts) = map (fun t => c_expval n (evtape t)) ts.
  Proof. unfold p_tapes. rewrite map_map. apply map_ext. intros t. apply ev_expval. Qed.
End Sound.

(* the translator's polynomial E really is the tape's expectation value, for all real parameters *)
Theorem expval_is_forall hz D n t E : (0 < hz)%Z -> expval_is hz n t E = true ->
  forall th : list R, c_expval n (evtape (aenv hz D th) t) = peval (aenv hz D th) E.
Proof.
  intros H X th. rewrite <- (ev_expval hz _ (aenv_good hz D th H)). exact (peqb_sound hz _ (aenv_good hz D th H) _ _ X).
Qed.

(* the checkers about derivatives guard a polynomial identity by the side conditions of pderiv_sound *)
Lemma guarded_peqb hz D a b : Z.even hz && negb (D =? 0)%Z && peqb hz a b = true ->
  Z.even hz = true /\ D <> 0%Z /\ peqb hz a b = true.
Proof.
  intros H. apply andb_prop in H as [H E]. apply andb_prop in H as [He HD].
  apply negb_true_iff, Z.eqb_neq in HD. auto.
Qed.

Lemma Cderive_expval hz D n t : (0 < hz)%Z -> Z.even hz = true -> D <> 0%Z -> forall th k x,
  Cderive (fun y => c_expval n (evtape (aenv hz D (upd th k y)) t)) x
          (peval (aenv hz D (upd th k x)) (pderiv hz D k (p_expval hz n t))).
Proof.
  intros H He HD th k x. eapply Cderive_ext; [|apply pderiv_sound; assumption].
  intros y. apply (ev_expval hz _ (aenv_good hz D (upd th k y) H)).
Qed.

Theorem deriv_is_forall hz D j E dE : (0 < hz)%Z -> deriv_is hz D j E dE = true ->
  forall th x, Cderive (fun y => peval (aenv hz D (upd th j y)) E) x (peval (aenv hz D (upd th j x)) dE).
Proof.
  intros H X th x. destruct (guarded_peqb _ _ _ _ X) as (He & HD & Q).
  rewrite <- (peqb_sound hz _ (aenv_good hz D (upd th j x) H) _ _ Q). apply pderiv_sound; assumption.
Qed.

(* A discharged shift-rule obligation means: for ALL real parameter vectors, the linear combination of the
   shifted tapes' expectation values IS the partial derivative of the original tape's expectation value. *)
Theorem shift_rule_ok_forall hz D n j cs ts t : (0 < hz)%Z -> shift_rule_ok hz D n j cs ts t = true ->
  forall th x,
    Cderive (fun y => c_expval n (evtape (aenv hz D (upd th j y)) t)) x
            (c_lincomb (map (peval (aenv hz D (upd th j x))) cs)
                       (map (fun t' => c_expval n (evtape (aenv hz D (upd th j x)) t')) ts)).
Proof.
  intros H X th x. destruct (guarded_peqb _ _ _ _ X) as (He & HD & Q).
  pose proof (aenv_good hz D (upd th j x) H) as Gx.
  rewrite <- (ev_tapes hz _ Gx), <- (ev_plincomb hz _ Gx), (peqb_sound hz _ Gx _ _ Q). apply Cderive_expval; assumption.
Qed.

(* second order: the linear combination is d/dtheta_j of the function whose value is the (certified) first derivative *)
Theorem hess_rule_ok_forall hz D n j k cs ts t : (0 < hz)%Z -> hess_rule_ok hz D n j k cs ts t = true ->
  forall th,
    (forall x, Cderive (fun y => c_expval n (evtape (aenv hz D (upd th k y)) t)) x
                       (peval (aenv hz D (upd th k x)) (pderiv hz D k (p_expval hz n t)))) /\
    (forall x, Cderive (fun y => peval (aenv hz D (upd th j y)) (pderiv hz D k (p_expval hz n t))) x
            (c_lincomb (map (peval (aenv hz D (upd th j x))) cs)
                       (map (fun t' => c_expval n (evtape (aenv hz D (upd th j x)) t')) ts))).
Proof.
  intros H X th. destruct (guarded_peqb _ _ _ _ X) as (He & HD & Q). split; intros x.
  - apply Cderive_expval; assumption.
  - pose proof (aenv_good hz D (upd th j x) H) as Gx.
    rewrite <- (ev_tapes hz _ Gx), <- (ev_plincomb hz _ Gx), (peqb_sound hz _ Gx _ _ Q). apply pderiv_sound; assumption.
Qed.
