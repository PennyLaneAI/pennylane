(* Equality of QSym scalars as decided by peqb, characterised by a coefficient function.
   coef hz p m is the signed sum of the coefficients of the terms of p whose reduced monomial is m; two polynomials
   are identified by peqb exactly when they have the same coefficients (peq_coef).  Hence peq is an equivalence, pnorm
   stays in the class of its argument, and ++ and pmul, the latter in its second argument, respect it.  That lets a
   checker be evaluated with arithmetic that normalises less often than nadd and nmul do. *)
From Coq Require Import List ZArith QArith Bool Lia.
From PLV Require Import Alg.Poly.
Import ListNotations.

(* exponent lists as functions nat -> Z *)
Definition enth (e : list Z) (i : nat) : Z := nth i e 0%Z.

Lemma enth_nil i : enth [] i = 0%Z.
Proof. destruct i; reflexivity. Qed.

Lemma enth_eadd a : forall b i, enth (eadd a b) i = (enth a i + enth b i)%Z.
Proof.
  induction a as [|x a IH]; intros b i; [rewrite enth_nil; reflexivity|].
  destruct b as [|y b]; [rewrite enth_nil; cbn; lia|]. destruct i; [reflexivity|]. exact (IH b i).
Qed.

Lemma enth_opp e i : enth (map Z.opp e) i = (- enth e i)%Z.
Proof. exact (map_nth Z.opp e 0%Z i). Qed.

Lemma estrip_nil e : (forall i, enth e i = 0%Z) -> estrip e = [].
Proof.
  induction e as [|x e IH]; intros H; [reflexivity|]. cbn [estrip].
  rewrite IH by (intros i; exact (H (S i))). rewrite (H 0%nat : x = 0%Z). reflexivity.
Qed.

Lemma enth_estrip e : forall i, enth (estrip e) i = enth e i.
Proof.
  induction e as [|x e IH]; intros i; [reflexivity|]. cbn [estrip].
  destruct (estrip e) as [|y r].
  - assert (Z : forall j, enth e j = 0%Z) by (intros j; rewrite <- IH; apply enth_nil).
    destruct (Z.eqb_spec x 0) as [->|_]; destruct i as [|i]; try reflexivity;
      change (enth (_ :: e) (S i)) with (enth e i); rewrite Z; destruct i; reflexivity.
  - destruct i as [|i]; [reflexivity|]. exact (IH i).
Qed.

Lemma estrip_ext a : forall b, (forall i, enth a i = enth b i) -> estrip a = estrip b.
Proof.
  induction a as [|x a IH]; intros b H.
  - symmetry. apply estrip_nil. intros i. rewrite <- H. apply enth_nil.
  - destruct b as [|y b].
    + apply estrip_nil. intros i. rewrite H. apply enth_nil.
    + cbn [estrip]. rewrite (IH b) by (intros i; exact (H (S i))). rewrite (H 0%nat : x = y). reflexivity.
Qed.

Lemma estrip_idem e : estrip (estrip e) = estrip e.
Proof. apply estrip_ext, enth_estrip. Qed.

Lemma eeqb_refl a : eeqb a a = true.
Proof. induction a as [|x a IH]; [reflexivity|]. cbn. rewrite Z.eqb_refl. exact IH. Qed.

Lemma eeqb_eq a : forall b, eeqb a b = true -> a = b.
Proof.
  induction a as [|x a IH]; intros [|y b] H; try discriminate; [reflexivity|].
  cbn in H. apply andb_true_iff in H as [H1 H2]. apply Z.eqb_eq in H1. f_equal; auto.
Qed.

(* the monomial and the sign that pnorm gives a term with exponents e *)
Definition ered (hz : Z) (e : list Z) : list Z := match e with [] => [] | x :: r => (x mod hz)%Z :: r end.
Definition ekey (hz : Z) (e : list Z) : list Z := estrip (ered hz e).
Definition eodd (hz : Z) (e : list Z) : bool := Z.odd (enth e 0 / hz).
Definition sg (b : bool) (c : Q) : Q := if b then - c else c.

Lemma zreduce_eq hz t : zreduce hz t = (sg (eodd hz (snd t)) (fst t), ered hz (snd t)).
Proof.
  destruct t as [c [|x r]]; unfold zreduce, eodd, sg; cbn [fst snd ered enth nth]; [reflexivity|].
  rewrite <- Z.negb_even. destruct (Z.even (x / hz)); reflexivity.
Qed.

Section Coef.
  Variable hz : Z.
  Hypothesis hz_pos : (0 < hz)%Z.

  Lemma enth_ekey_0 e : enth (ekey hz e) 0 = (enth e 0 mod hz)%Z.
  Proof. unfold ekey. rewrite enth_estrip. destruct e; [symmetry; apply Zmod_0_l|reflexivity]. Qed.

  Lemma enth_ekey_S e i : enth (ekey hz e) (S i) = enth e (S i).
  Proof. unfold ekey. rewrite enth_estrip. destruct e; reflexivity. Qed.

  Lemma ekey_ext a b :
    (enth a 0 mod hz = enth b 0 mod hz)%Z -> (forall i, enth a (S i) = enth b (S i)) -> ekey hz a = ekey hz b.
  Proof.
    intros H0 HS. unfold ekey. rewrite <- (estrip_idem (ered hz a)), <- (estrip_idem (ered hz b)).
    apply estrip_ext. fold (ekey hz a) (ekey hz b).
    intros [|i]; [rewrite !enth_ekey_0|rewrite !enth_ekey_S]; auto.
  Qed.

  Lemma ekey_idem e : ekey hz (ekey hz e) = ekey hz e.
  Proof. apply ekey_ext; [rewrite enth_ekey_0; apply Zmod_mod|intros i; apply enth_ekey_S]. Qed.

  Lemma eodd_ekey e : eodd hz (ekey hz e) = false.
  Proof. unfold eodd. rewrite enth_ekey_0, Z.div_small; [reflexivity|]. apply Z.mod_pos_bound, hz_pos. Qed.

  (* the monomial of a product depends on a factor through that factor's monomial only, and so does the change of sign *)
  Lemma ekey_eadd_ekey a e : ekey hz (eadd a (ekey hz e)) = ekey hz (eadd a e).
  Proof.
    apply ekey_ext; [|intros i]; rewrite !enth_eadd; [rewrite enth_ekey_0; apply Zplus_mod_idemp_r|].
    rewrite enth_ekey_S. reflexivity.
  Qed.

  Lemma ekey_eadd_opp a e : ekey hz (eadd (map Z.opp a) (eadd a e)) = ekey hz e.
  Proof. apply ekey_ext; [f_equal|intros i]; rewrite !enth_eadd, enth_opp; lia. Qed.

  Lemma eodd_eadd a e : eodd hz (eadd a e) = xorb (eodd hz e) (eodd hz (eadd a (ekey hz e))).
  Proof.
    unfold eodd. rewrite !enth_eadd, enth_ekey_0. set (x := enth a 0). set (y := enth e 0).
    replace (x + y)%Z with (x + y mod hz + y / hz * hz)%Z by (pose proof (Z.div_mod y hz); lia).
    rewrite Z.div_add by lia. rewrite Z.odd_add. apply xorb_comm.
  Qed.

  Definition tcoef (t : term) (m : list Z) : Q :=
    if eeqb (ekey hz (snd t)) m then sg (eodd hz (snd t)) (fst t) else 0.

  Fixpoint coef (p : poly) (m : list Z) : Q :=
    match p with
    | [] => 0
    | t :: r => tcoef t m + coef r m
    end.

  Lemma coef_app p q m : coef (p ++ q) m == coef p m + coef q m.
  Proof. induction p as [|t p IH]; cbn [app coef]; [|rewrite IH]; ring. Qed.

  Lemma coef_pneg p m : coef (pneg p) m == - coef p m.
  Proof.
    induction p as [|t p IH]; cbn [pneg map coef]; [ring|]. fold (pneg p). rewrite IH.
    unfold tcoef. cbn [fst snd]. destruct (eeqb _ m), (eodd hz (snd t)); cbn [sg]; ring.
  Qed.

  Lemma tcoef_merge c d e m : tcoef (Qred (c + d), e) m == tcoef (c, e) m + tcoef (d, e) m.
  Proof. unfold tcoef. cbn [fst snd]. destruct (eeqb _ m), (eodd hz e); cbn [sg]; rewrite ?Qred_correct; ring. Qed.

  Lemma coef_tinsert t acc m : coef (tinsert t acc) m == tcoef t m + coef acc m.
  Proof.
    induction acc as [|u acc IH]; cbn [tinsert coef]; [ring|].
    destruct (eeqb (snd t) (snd u)) eqn:E; cbn [coef]; [|rewrite IH; ring].
    apply eeqb_eq in E. rewrite tcoef_merge. destruct t, u. cbn [fst snd] in *. subst. ring.
  Qed.

  Lemma coef_filter p m : coef (filter nonzero p) m == coef p m.
  Proof.
    induction p as [|t p IH]; cbn [filter coef]; [ring|].
    unfold nonzero at 1. destruct (Qeq_bool (fst t) 0) eqn:E; cbn [negb coef]; rewrite IH; [|ring].
    apply Qeq_bool_eq in E. unfold tcoef. destruct (eeqb _ m), (eodd hz (snd t)); cbn [sg]; rewrite ?E; ring.
  Qed.

  (* what pnorm turns a term into before it is inserted *)
  Definition tcanon (t : term) : term := (sg (eodd hz (snd t)) (fst t), ekey hz (snd t)).

  Lemma tcoef_tcanon t m : tcoef (tcanon t) m = tcoef t m.
  Proof. unfold tcoef, tcanon. cbn [fst snd]. rewrite ekey_idem, eodd_ekey. reflexivity. Qed.

  Lemma pnorm_eq p : pnorm hz p = filter nonzero (fold_right (fun t acc => tinsert (tcanon t) acc) [] p).
  Proof.
    unfold pnorm. f_equal. induction p as [|t p IH]; [reflexivity|]. cbn [fold_right]. rewrite IH.
    cbv zeta. rewrite zreduce_eq. reflexivity.
  Qed.

  Lemma coef_pnorm p m : coef (pnorm hz p) m == coef p m.
  Proof.
    rewrite pnorm_eq, coef_filter. induction p as [|t p IH]; cbn [fold_right coef]; [ring|].
    rewrite coef_tinsert, tcoef_tcanon, IH. ring.
  Qed.

  (* The accumulator of pnorm holds reduced monomials, each once, so its terms can be read off coef.
     A monomial that ekey fixes has its first exponent in [0, hz), so a term over it keeps its sign. *)
  Definition reduced (u : term) : Prop := ekey hz (snd u) = snd u.
  Definition canon (acc : poly) : Prop := NoDup (map snd acc) /\ Forall reduced acc.

  Lemma tcoef_reduced u m : reduced u -> tcoef u m = if eeqb (snd u) m then fst u else 0.
  Proof. unfold reduced, tcoef. intros K. rewrite <- K at 2. rewrite eodd_ekey, K. reflexivity. Qed.

  Lemma tinsert_snd t acc x : In x (map snd (tinsert t acc)) -> x = snd t \/ In x (map snd acc).
  Proof.
    induction acc as [|u acc IH]; cbn [tinsert]; [cbn; intuition auto|].
    destruct (eeqb (snd t) (snd u)); cbn [map In fst snd]; intuition auto.
  Qed.

  Lemma canon_tinsert t acc : canon acc -> canon (tinsert (tcanon t) acc).
  Proof.
    induction acc as [|u acc IH]; intros [N K]; cbn [tinsert].
    - split; repeat constructor; [intros []|apply ekey_idem].
    - cbn [map] in N. apply NoDup_cons_iff in N as [N1 N2]. inversion_clear K as [|? ? Ku K'].
      destruct (IH (conj N2 K')) as [N' K''].
      destruct (eeqb (snd (tcanon t)) (snd u)) eqn:E; split; cbn [map snd]; constructor; try assumption.
      intros H. apply tinsert_snd in H as [H|H]; [|exact (N1 H)].
      rewrite H, eeqb_refl in E. discriminate.
  Qed.

  Lemma canon_fold p : canon (fold_right (fun t acc => tinsert (tcanon t) acc) [] p).
  Proof. induction p as [|t p IH]; [split; constructor|]. apply canon_tinsert, IH. Qed.

  Lemma coef_absent acc m : Forall reduced acc -> ~ In m (map snd acc) -> coef acc m == 0.
  Proof.
    induction 1 as [|u acc Ku K IH]; intros H; cbn [coef]; [reflexivity|].
    rewrite IH by (intros H'; apply H; right; exact H'). rewrite tcoef_reduced by exact Ku.
    destruct (eeqb (snd u) m) eqn:E; [|ring]. apply eeqb_eq in E. destruct H. left. exact E.
  Qed.

  Lemma coef_canon acc u : canon acc -> In u acc -> coef acc (snd u) == fst u.
  Proof.
    induction acc as [|v acc IH]; intros [N K] H; [destruct H|].
    cbn [map] in N. apply NoDup_cons_iff in N as [N1 N2]. inversion_clear K as [|? ? Kv K'].
    cbn [coef]. rewrite tcoef_reduced by exact Kv. destruct H as [->|H].
    - rewrite coef_absent, eeqb_refl by assumption. ring.
    - rewrite (IH (conj N2 K') H). destruct (eeqb (snd v) (snd u)) eqn:E; [|ring].
      apply eeqb_eq in E. destruct N1. rewrite E. apply in_map, H.
  Qed.

  Theorem pis_zero_coef p : pis_zero hz p = true <-> forall m, coef p m == 0.
  Proof.
    unfold pis_zero. split.
    - intros H m. rewrite <- coef_pnorm. destruct (pnorm hz p); [reflexivity|discriminate].
    - intros H. destruct (pnorm hz p) as [|u r] eqn:E; [reflexivity|]. exfalso.
      assert (Hu : In u (pnorm hz p)) by (rewrite E; left; reflexivity).
      rewrite pnorm_eq in Hu. apply filter_In in Hu as [Hu Hn].
      pose proof (canon_fold p) as C.
      apply negb_true_iff, Qeq_bool_neq in Hn. apply Hn.
      rewrite <- (coef_canon _ u C Hu), <- coef_filter, <- pnorm_eq, coef_pnorm. apply H.
  Qed.

  Definition peq (p q : poly) : Prop := peqb hz p q = true.

  Theorem peq_coef p q : peq p q <-> forall m, coef p m == coef q m.
  Proof.
    unfold peq, peqb, padd. rewrite pis_zero_coef. split; intros H m; specialize (H m).
    - rewrite coef_app, coef_pneg in H. rewrite <- (Qplus_0_r (coef q m)), <- H. ring.
    - rewrite coef_app, coef_pneg, H. ring.
  Qed.

  Lemma peq_refl p : peq p p.
  Proof. apply peq_coef. reflexivity. Qed.

  Lemma peq_sym p q : peq p q -> peq q p.
  Proof. rewrite !peq_coef. intros H m. symmetry. apply H. Qed.

  Lemma peq_trans p q r : peq p q -> peq q r -> peq p r.
  Proof. rewrite !peq_coef. intros H1 H2 m. rewrite H1. apply H2. Qed.

  Lemma peq_pnorm p : peq (pnorm hz p) p.
  Proof. apply peq_coef. intros m. apply coef_pnorm. Qed.

  Lemma peq_pnorm_r p q : peq p q -> peq p (pnorm hz q).
  Proof. intros H. apply (peq_trans _ _ _ H), peq_sym, peq_pnorm. Qed.

  Lemma peq_app p p' q q' : peq p p' -> peq q q' -> peq (p ++ q) (p' ++ q').
  Proof. rewrite !peq_coef. intros H1 H2 m. rewrite !coef_app, H1, H2. reflexivity. Qed.

  (* Multiplying by a term s moves the coefficient at ekey (m - snd s) to m, up to the factor fst s and a sign:
     only terms with that monomial land on m, and they all land there with the same sign. *)
  Lemma coef_map_tmul s q m :
    let m' := ekey hz (eadd (map Z.opp (snd s)) m) in
    coef (map (tmul s) q) m == tcoef (fst s, eadd (snd s) m') m * coef q m'.
  Proof.
    intros m'. induction q as [|t q IH]; cbn [map coef]; [ring|]. rewrite IH. clear IH.
    rewrite Qmult_plus_distr_r. apply Qplus_inj_r. unfold tcoef, tmul. cbn [fst snd].
    destruct (eeqb (ekey hz (snd t)) m') eqn:E.
    - apply eeqb_eq in E. rewrite eodd_eadd, <- (ekey_eadd_ekey _ (snd t)), E.
      destruct (eeqb _ m), (eodd hz (snd t)), (eodd hz (eadd (snd s) m')); cbn [sg xorb]; rewrite ?Qred_correct; ring.
    - destruct (eeqb (ekey hz (eadd (snd s) (snd t))) m) eqn:E'; [|ring]. apply eeqb_eq in E'.
      rewrite <- (ekey_eadd_opp (snd s) (snd t)), <- ekey_eadd_ekey, E' in E. fold m' in E.
      rewrite eeqb_refl in E. discriminate.
  Qed.

  Lemma peq_pmul_r p q q' : peq q q' -> peq (pmul p q) (pmul p q').
  Proof.
    rewrite !peq_coef. intros H m. induction p as [|s p IH]; [reflexivity|]. unfold pmul. cbn [flat_map].
    rewrite !coef_app. fold (pmul p q) (pmul p q'). rewrite IH, !coef_map_tmul. cbv zeta. rewrite H. reflexivity.
  Qed.
End Coef.
