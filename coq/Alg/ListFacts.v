(* Facts about standard-library list functions that the library of Coq 8.16 lacks, each used by several of the
   property developments or by Lin/Plan.v. *)
From Coq Require Import List Arith ZArith Lia.
Import ListNotations.

Lemma NoDup_app_iff {A} (a b : list A) :
  NoDup (a ++ b) <-> NoDup a /\ NoDup b /\ (forall x, In x a -> ~ In x b).
Proof.
  induction a as [|y a IH]; cbn [app].
  - split; [intros H; repeat split; [constructor | exact H | intros x []] | intros (_ & H & _); exact H].
  - rewrite !NoDup_cons_iff, IH, in_app_iff. cbn [In]. intuition (subst; eauto).
Qed.

Lemma NoDup_app_intro {A} (a b : list A) :
  NoDup a -> NoDup b -> (forall x, In x a -> ~ In x b) -> NoDup (a ++ b).
Proof. intros Ha Hb Hd. apply NoDup_app_iff. auto. Qed.

Lemma NoDup_map_inj {A B} (f : A -> B) l :
  (forall x y, In x l -> In y l -> f x = f y -> x = y) -> NoDup l -> NoDup (map f l).
Proof.
  intros Hinj Hnd. induction Hnd as [|x l Hx Hnd IH]; cbn [map]; constructor.
  - rewrite in_map_iff. intros [y [Hy Hin]]. apply Hx.
    rewrite (Hinj x y); [exact Hin | left; reflexivity | right; exact Hin | symmetry; exact Hy].
  - apply IH. intros y z Hy Hz. apply Hinj; right; assumption.
Qed.

Lemma nth_map_lt {A B} (f : A -> B) l i d e : i < length l -> nth i (map f l) e = f (nth i l d).
Proof. intros H. rewrite (nth_indep _ e (f d)) by (rewrite map_length; exact H). apply map_nth. Qed.

Lemma nth_map_seq {A} (f : nat -> A) a n i d : i < n -> nth i (map f (seq a n)) d = f (a + i).
Proof. intros H. rewrite (nth_map_lt f _ i 0), seq_nth by (rewrite ?seq_length; exact H). reflexivity. Qed.

Lemma nth_map_seq0 {A} (f : nat -> A) n i d : i < n -> nth i (map f (seq 0 n)) d = f i.
Proof. apply nth_map_seq. Qed.

Lemma map_nth_seq {A} (d : A) l : map (fun i => nth i l d) (seq 0 (length l)) = l.
Proof. induction l as [|a l IH]; cbn; [reflexivity|]. f_equal. rewrite <- seq_shift, map_map. exact IH. Qed.

Lemma forallb_ext {A} (f g : A -> bool) l : (forall x, f x = g x) -> forallb f l = forallb g l.
Proof. intros H. induction l as [|x l IH]; cbn; [|rewrite H, IH]; reflexivity. Qed.

Lemma firstn_app_exact {A} (a b : list A) : firstn (length a) (a ++ b) = a.
Proof. induction a as [|x a IH]; cbn; [|rewrite IH]; reflexivity. Qed.

Lemma skipn_app_exact {A} (a b : list A) : skipn (length a) (a ++ b) = b.
Proof. induction a as [|x a IH]; cbn; [reflexivity | exact IH]. Qed.

Lemma skipn_add {A} x y (l : list A) : skipn (x + y) l = skipn y (skipn x l).
Proof. revert l. induction x as [|x IH]; intros [|a l]; cbn; auto using skipn_nil. Qed.

Lemma nth_skipn {A} m i (l : list A) d : nth i (skipn m l) d = nth (m + i) l d.
Proof. revert l. induction m as [|m IH]; intros [|a l]; cbn; auto. destruct i; reflexivity. Qed.

Lemma nth_firstn {A} i m (l : list A) d : i < m -> nth i (firstn m l) d = nth i l d.
Proof. revert i l. induction m as [|m IH]; intros i l H; [lia|]. destruct l, i; cbn; auto. apply IH. lia. Qed.

Lemma hd_skipn {A} m (l : list A) d : hd d (skipn m l) = nth m l d.
Proof. revert l. induction m as [|m IH]; intros [|a l]; cbn; auto. Qed.

Lemma tl_skipn {A} m (l : list A) : tl (skipn m l) = skipn (S m) l.
Proof. revert l. induction m as [|m IH]; intros [|a l]; try reflexivity. exact (IH l). Qed.

Lemma combine_map_r {A B} (g : A -> B) l : combine l (map g l) = map (fun x => (x, g x)) l.
Proof. induction l as [|x l IH]; cbn; [|rewrite IH]; reflexivity. Qed.

Lemma flat_map_singleton {A} (l : list A) : flat_map (fun x => [x]) l = l.
Proof. induction l as [|x l IH]; cbn; [|rewrite IH]; reflexivity. Qed.

Lemma Forall2_length {A B} (R : A -> B -> Prop) l l' : Forall2 R l l' -> length l = length l'.
Proof. induction 1; cbn; congruence. Qed.

Lemma Forall2_impl {A B} (P Q : A -> B -> Prop) l l' :
  (forall a b, P a b -> Q a b) -> Forall2 P l l' -> Forall2 Q l l'.
Proof. intros H. induction 1; constructor; auto. Qed.

Lemma pow2_pos n : (0 < 2 ^ Z.of_nat n)%Z.
Proof. apply Z.pow_pos_nonneg; lia. Qed.
