(* Soundness of the formal derivative: under every angle valuation the evaluation of  pderiv hz D j p  is the
   derivative (in the sense of Coquelicot's is_derive, componentwise on real and imaginary part) of the evaluation
   of p with respect to theta_j. *)
From Coq Require Import List ZArith QArith Qreals Reals Lia Bool Lra.
From Coquelicot Require Import Coquelicot.
From PLV Require Import Alg.Poly Alg.PolyEval Alg.Angles Alg.DerivDef.
Import ListNotations.
Local Close Scope Q_scope.
Local Open Scope R_scope.

(* derivative of a complex-valued function of a real variable *)
Definition Cderive (f : R -> C) (x : R) (l : C) : Prop :=
  is_derive (fun y => fst (f y)) x (fst l) /\ is_derive (fun y => snd (f y)) x (snd l).

(* theta with its j-th entry replaced (padding with zeros, the default value of a missing angle) *)
Fixpoint upd (th : list R) (j : nat) (x : R) : list R :=
  match j, th with
  | O, [] => [x]
  | O, _ :: r => x :: r
  | S j', [] => 0 :: upd [] j' x
  | S j', a :: r => a :: upd r j' x
  end.
Lemma nth_upd_same th j x : nth j (upd th j x) 0 = x.
Proof. revert th. induction j as [|j IH]; intros [|a th]; cbn [upd nth]; auto. Qed.
Lemma nth_upd_other th j i x : i <> j -> nth i (upd th j x) 0 = nth i th 0.
Proof.
  revert th i. induction j as [|j IH]; intros [|a th] [|i] N; cbn [upd nth]; try congruence; try (apply IH; congruence).
  - destruct i; reflexivity.
  - rewrite IH by congruence. destruct i; reflexivity.
Qed.
Lemma upd_id th j : nth j (upd th j (nth j th 0)) 0 = nth j th 0.
Proof. apply nth_upd_same. Qed.

(* Under an angle valuation every variable is cis of an angle (ang), so a monomial evaluates to cis of a linear form in
   these angles (elin, eeval_cis below); differentiating in theta_j then only has to look at that form. *)
Definition ang (hz D : Z) (th : list R) (k : nat) : R :=
  match k with O => PI / IZR hz | S j => nth j th 0 / IZR D end.
Fixpoint elin (a : nat -> R) (k : nat) (e : list Z) : R :=
  match e with [] => 0 | x :: r => IZR x * a k + elin a (S k) r end.

Lemma eeval_cis hz D th e : forall k, eeval (aenv hz D th) k e = cis (elin (ang hz D th) k e).
Proof.
  induction e as [|x e IH]; intros k; cbn [eeval elin]; [symmetry; apply cis_0|].
  rewrite IH, cis_add. f_equal. destruct k as [|j]; cbn [aenv ang]; apply zpow_cis.
Qed.

(* changing the value of one variable shifts a monomial's phase by that variable's exponent times the change *)
Lemma elin_shift a a' m e : (forall i, i <> m -> a i = a' i) -> forall k,
  elin a k e = elin a' k e + (if (k <=? m)%nat then IZR (nth (m - k) e 0%Z) * (a m - a' m) else 0).
Proof.
  intros H. induction e as [|x e IH]; intros k; cbn [elin].
  - destruct (k <=? m)%nat, (m - k)%nat; cbn [nth]; ring.
  - rewrite IH. destruct (Nat.leb_spec k m) as [L|L], (Nat.leb_spec (S k) m) as [L'|L']; try lia.
    + replace (m - k)%nat with (S (m - S k)) by lia. cbn [nth]. rewrite (H k) by lia. ring.
    + replace k with m by lia. rewrite Nat.sub_diag. cbn [nth]. ring.
    + rewrite (H k) by lia. ring.
Qed.

(* dependence of a monomial's phase on theta_j is affine *)
Lemma elin_upd hz D th j y e k :
  elin (ang hz D (upd th j y)) k e
  = elin (ang hz D (upd th j 0)) k e + (if (k <=? S j)%nat then IZR (nth (S j - k) e 0%Z) * (y / IZR D) else 0).
Proof.
  rewrite (elin_shift _ (ang hz D (upd th j 0)) (S j)).
  - cbn [ang]. rewrite !nth_upd_same. destruct (k <=? S j)%nat; unfold Rdiv; ring.
  - intros [|i] N; cbn [ang]; [reflexivity|]. rewrite !nth_upd_other by congruence. reflexivity.
Qed.

Lemma Cderive_plus f g x a b : Cderive f x a -> Cderive g x b -> Cderive (fun y => Cplus (f y) (g y)) x (Cplus a b).
Proof. intros [F1 F2] [G1 G2]. split; cbn [Cplus fst snd]; apply (is_derive_plus (V:=R_NormedModule)); assumption. Qed.
Lemma Cderive_const c x : Cderive (fun _ => c) x (RtoC 0).
Proof. split; cbn [fst snd RtoC]; apply (is_derive_const (V:=R_NormedModule)). Qed.
Lemma Cderive_ext f g x l : (forall y, f y = g y) -> Cderive f x l -> Cderive g x l.
Proof. intros E [A B]. split; [apply (is_derive_ext (fun y => fst (f y))) | apply (is_derive_ext (fun y => snd (f y)))]; try assumption; intros t; rewrite E; reflexivity. Qed.

(* c * exp(i (A + B y)) *)
Lemma Cderive_cis (c : R) A B x :
  Cderive (fun y => Cmult (RtoC c) (cis (A + B * y))) x (Cmult (RtoC (c * B)) (Cmult Ci (cis (A + B * x)))).
Proof.
  split; cbn [Cmult cis RtoC Ci fst snd].
  - auto_derive; [exact I | ring].
  - auto_derive; [exact I | ring].
Qed.

Section Sound.
  Variables hz D : Z.
  Hypothesis Hhz : (0 < hz)%Z.
  Hypothesis Heven : Z.even hz = true.
  Hypothesis HD : D <> 0%Z.

  Lemma elin_add0 a h e : elin a 0 (add0 h e) = IZR h * a 0%nat + elin a 0 e.
  Proof. destruct e as [|x e]; cbn [add0 elin]; [ring|]. rewrite plus_IZR. ring. Qed.

  Lemma teval_dterm th j t :
    teval (aenv hz D th) (dterm hz D j t)
    = Cmult (RtoC (Q2R (fst t) * (IZR (nth (S j) (snd t) 0%Z) / IZR D))) (Cmult Ci (eeval (aenv hz D th) 0 (snd t))).
  Proof.
    unfold teval, dterm. cbn [fst snd]. rewrite !eeval_cis, elin_add0, cis_add. cbn [ang]. rewrite (cis_half hz Hhz Heven).
    f_equal. unfold q2c. f_equal. rewrite Qred_correct, Q2R_mult. f_equal. unfold Qdiv. rewrite Q2R_mult, Q2R_inv.
    - unfold Q2R. cbn [Qnum Qden inject_Z]. unfold Rdiv. rewrite !Rinv_1, !Rmult_1_r. reflexivity.
    - unfold Qeq. cbn. lia.
  Qed.

  Lemma eeval_upd th j y e :
    eeval (aenv hz D (upd th j y)) 0 e
    = cis (elin (ang hz D (upd th j 0)) 0 e + IZR (nth (S j) e 0%Z) / IZR D * y).
  Proof. rewrite eeval_cis, elin_upd. cbn [Nat.leb]. rewrite Nat.sub_0_r. f_equal. unfold Rdiv. ring. Qed.

  Lemma Cderive_teval th j t x :
    Cderive (fun y => teval (aenv hz D (upd th j y)) t) x (teval (aenv hz D (upd th j x)) (dterm hz D j t)).
  Proof.
    rewrite teval_dterm, eeval_upd.
    eapply Cderive_ext; [|apply Cderive_cis]. intros y. unfold teval, q2c. rewrite eeval_upd. reflexivity.
  Qed.

  Theorem pderiv_sound th j p x :
    Cderive (fun y => peval (aenv hz D (upd th j y)) p) x (peval (aenv hz D (upd th j x)) (pderiv hz D j p)).
  Proof.
    induction p as [|t p IH]; [exact (Cderive_const (RtoC 0) x)|].
    apply (Cderive_plus (fun y => teval _ t) (fun y => peval _ p)); [apply Cderive_teval | exact IH].
  Qed.
End Sound.
