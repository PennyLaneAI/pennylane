(* C09: which frequencies a formal parameter can contribute to any expectation value.
   z_j = exp(i theta_j / D): a monomial z_j^e has frequency e / D; an expectation value
   <psi| M^dagger O M |psi> is a sum of products conj(M entry) * (M entry) * constants, so its frequencies
   in theta_j are DIFFERENCES of exponents of z_j occurring in the entries of M. *)
From Coq Require Import List ZArith QArith Bool Lia.
From PLV Require Import Alg.Poly.
Import ListNotations.
Open Scope Z_scope.

Definition exp_of (j : nat) (t : term) : Z := nth j (snd t) 0.
Definition exps_of_poly (j : nat) (p : poly) : list Z := map (exp_of j) p.
Definition exps_of_mat (j : nat) (M : list (list poly)) : list Z := flat_map (fun r => flat_map (exps_of_poly j) r) M.

(* declared frequencies as rationals num/den (den > 0); an exponent difference d matches f iff |d| * den = num * D *)
Definition matches (D : Z) (d : Z) (f : Z * Z) : bool := Z.abs d * snd f =? fst f * D.
Definition diff_ok (D : Z) (declared : list (Z * Z)) (d : Z) : bool := (d =? 0) || existsb (matches D d) declared.
Definition freq_cover (D : Z) (j : nat) (M : list (list poly)) (declared : list (Z * Z)) : bool :=
  let es := exps_of_mat j M in
  forallb (fun e => forallb (fun e' => diff_ok D declared (e' - e)) es) es.

Lemma nth_nil (j : nat) : nth j (@nil Z) 0 = 0.
Proof. destruct j; reflexivity. Qed.
Lemma nth_eadd a : forall b j, nth j (eadd a b) 0 = nth j a 0 + nth j b 0.
Proof.
  induction a as [|x a IH]; intros b j; [cbn [eadd]; rewrite nth_nil; lia|].
  destruct b as [|y b]; [cbn [eadd]; rewrite nth_nil; lia|]. cbn [eadd].
  destruct j as [|j]; [reflexivity | cbn [nth]; apply IH].
Qed.
Lemma nth_map_opp a : forall j, nth j (map Z.opp a) 0 = - nth j a 0.
Proof. induction a as [|x a IH]; intros [|j]; cbn [map nth]; try reflexivity. apply IH. Qed.

Lemma exps_conj_mul j p q : forall x, In x (exps_of_poly j (pmul (pconj p) q)) ->
  exists e e', In e (exps_of_poly j p) /\ In e' (exps_of_poly j q) /\ x = e' - e.
Proof.
  unfold exps_of_poly, pmul, pconj. intros x H. rewrite in_map_iff in H. destruct H as (t & Hx & Ht).
  rewrite in_flat_map in Ht. destruct Ht as (s & Hs & Ht). rewrite in_map_iff in Hs, Ht.
  destruct Hs as (s0 & <- & Hs0). destruct Ht as (t0 & <- & Ht0).
  exists (exp_of j s0), (exp_of j t0). split; [apply in_map; exact Hs0|]. split; [apply in_map; exact Ht0|].
  subst x. unfold exp_of, tmul. cbn [snd]. rewrite nth_eadd, nth_map_opp. lia.
Qed.
Lemma exps_padd j p q x : In x (exps_of_poly j (padd p q)) <-> In x (exps_of_poly j p) \/ In x (exps_of_poly j q).
Proof. unfold exps_of_poly, padd. rewrite map_app. apply in_app_iff. Qed.
Lemma exps_pscale j c p : exps_of_poly j (pscale c p) = exps_of_poly j p.
Proof. unfold exps_of_poly, pscale. rewrite map_map. reflexivity. Qed.

Lemma in_exps_of_mat j M r c : forall x, In x (exps_of_poly j (nth c (nth r M []) [])) -> In x (exps_of_mat j M).
Proof.
  intros x H. unfold exps_of_mat. apply in_flat_map.
  destruct (nth_in_or_default r M []) as [Hr|E]; [|rewrite E in H; destruct c; destruct H].
  exists (nth r M []). split; [exact Hr|]. apply in_flat_map.
  destruct (nth_in_or_default c (nth r M []) []) as [Hc|E]; [|rewrite E in H; destruct H].
  exists (nth c (nth r M []) []). split; assumption.
Qed.

Theorem freq_cover_sound D j M declared : freq_cover D j M declared = true ->
  forall r c r' c' x, In x (exps_of_poly j (pmul (pconj (nth c (nth r M []) [])) (nth c' (nth r' M []) []))) ->
    x = 0 \/ exists f, In f declared /\ Z.abs x * snd f = fst f * D.
Proof.
  unfold freq_cover. intros H r c r' c' x Hx. apply exps_conj_mul in Hx as (e & e' & He & He' & ->).
  apply in_exps_of_mat in He, He'. rewrite forallb_forall in H. specialize (H e He). rewrite forallb_forall in H.
  specialize (H e' He'). unfold diff_ok in H. apply orb_prop in H as [H|H].
  - left. apply Z.eqb_eq in H. exact H.
  - right. apply existsb_exists in H as (f & Hf & Hm). exists f. split; [exact Hf|]. apply Z.eqb_eq in Hm. exact Hm.
Qed.
