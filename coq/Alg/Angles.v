(* The valuations that matter: zeta = exp(i pi / hz), z_j = exp(i theta_j / D) for real theta_j. *)
From Coq Require Import List ZArith QArith Qreals Reals Lia Bool Lra.
From Coquelicot Require Import Complex.
From PLV Require Import Alg.Poly Alg.PolyEval.
Import ListNotations.
Local Close Scope Q_scope.
Local Open Scope R_scope.
Local Open Scope C_scope.

Definition cis (x : R) : C := (cos x, sin x).

Lemma cis_0 : cis 0 = 1.
Proof. unfold cis. rewrite cos_0, sin_0. reflexivity. Qed.
Lemma cis_add a b : cis (a + b) = cis a * cis b.
Proof. unfold cis. apply injective_projections; cbn [fst snd Cmult]; [apply cos_plus | rewrite sin_plus; ring]. Qed.
Lemma cis_conj a : Cconj (cis a) = cis (- a).
Proof. unfold cis, Cconj. cbn [fst snd]. now rewrite cos_neg, sin_neg. Qed.
Lemma cis_unit a : cis a * cis (- a) = 1.
Proof. rewrite <- cis_add. replace (a + - a)%R with 0%R by ring. apply cis_0. Qed.

Lemma cpow_cis x n : cpow (cis x) n = cis (INR n * x).
Proof.
  induction n as [|n IH]; [cbn [cpow INR]; rewrite Rmult_0_l; symmetry; apply cis_0|].
  cbn [cpow]. rewrite IH, <- cis_add. f_equal. rewrite S_INR. ring.
Qed.

Lemma zpow_cis x e : zpow (cis x, cis (- x)) e = cis (IZR e * x).
Proof.
  unfold zpow. cbn [fst snd]. destruct (0 <=? e)%Z eqn:E.
  - apply Z.leb_le in E. rewrite cpow_cis. f_equal. rewrite INR_IZR_INZ, Z2Nat.id by lia. reflexivity.
  - apply Z.leb_gt in E. rewrite cpow_cis. f_equal. rewrite INR_IZR_INZ, Z2Nat.id by lia. rewrite opp_IZR. ring.
Qed.

(* i = zeta^(hz/2) for zeta = exp(i pi / hz) *)
Lemma cis_half hz : (0 < hz)%Z -> Z.even hz = true -> cis (IZR (hz / 2) * (PI / IZR hz)) = Ci.
Proof.
  intros Hhz Heven.
  assert (E : (hz = 2 * (hz / 2))%Z).
  { pose proof (Zeven_div2 hz) as H. rewrite <- Z.div2_div. apply H. apply Zeven_bool_iff. exact Heven. }
  replace (IZR (hz / 2) * (PI / IZR hz))%R with (PI / 2)%R.
  - unfold cis, Ci. rewrite cos_PI2, sin_PI2. reflexivity.
  - rewrite E at 2. rewrite mult_IZR. field. try split; apply not_0_IZR; lia.
Qed.

Definition aenv (hz D : Z) (thetas : list R) : env :=
  fun k => match k with
           | O => (cis (PI / IZR hz), cis (- (PI / IZR hz)))
           | S j => (cis (nth j thetas 0 / IZR D), cis (- (nth j thetas 0 / IZR D)))
           end.

Lemma aenv_good hz D thetas : (0 < hz)%Z -> good_env hz (aenv hz D thetas).
Proof.
  intros H. constructor.
  - intros [|k]; cbn [aenv fst snd]; apply cis_unit.
  - intros [|k]; cbn [aenv fst snd]; apply cis_conj.
  - exact H.
  - cbn [aenv]. rewrite zpow_cis. replace (IZR hz * (PI / IZR hz))%R with PI.
    + unfold cis. rewrite cos_PI, sin_PI. apply injective_projections; cbn; ring.
    + field. apply not_0_IZR. lia.
Qed.

Lemma aenv_var hz D thetas j k :
  zpow (aenv hz D thetas (S j)) k = cis (IZR k * (nth j thetas 0 / IZR D)).
Proof. cbn [aenv]. apply zpow_cis. Qed.

Theorem peqb_forall_angles hz D p q : (0 < hz)%Z -> peqb hz p q = true ->
  forall thetas : list R, peval (aenv hz D thetas) p = peval (aenv hz D thetas) q.
Proof. intros H E thetas. apply (peqb_sound hz _ (aenv_good hz D thetas H)). exact E. Qed.
