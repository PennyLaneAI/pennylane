(* Soundness of the exact-algebra engine: evaluation of Laurent polynomials into the complex numbers
   (Coquelicot's C over the stdlib reals) is a ring homomorphism that is invariant under the
   normalisation, hence  peqb hz p q = true  ->  forall good valuations rho, peval rho p = peval rho q. *)
From Coq Require Import List ZArith QArith Qreals Reals Lia Bool.
From Coquelicot Require Import Complex.
From PLV Require Import Alg.Poly.
Import ListNotations.
Local Close Scope Q_scope.
Local Open Scope R_scope.
Local Open Scope C_scope.

Fixpoint cpow (x : C) (n : nat) : C := match n with O => 1 | S k => x * cpow x k end.
Definition zpow (u : C * C) (e : Z) : C :=
  if (0 <=? e)%Z then cpow (fst u) (Z.to_nat e) else cpow (snd u) (Z.to_nat (- e)).
Definition env := nat -> (C * C)%type.
Fixpoint eeval (rho : env) (k : nat) (e : list Z) : C :=
  match e with [] => 1 | x :: r => zpow (rho k) x * eeval rho (S k) r end.
Definition q2c (q : Q) : C := RtoC (Q2R q).
Definition teval (rho : env) (t : term) : C := q2c (fst t) * eeval rho 0 (snd t).
Definition peval (rho : env) (p : poly) : C := fold_right (fun t a => teval rho t + a) 0 p.

Record good_env (hz : Z) (rho : env) : Prop := {
  ge_unit : forall k, fst (rho k) * snd (rho k) = 1;
  ge_conj : forall k, Cconj (fst (rho k)) = snd (rho k);
  ge_hz : (0 < hz)%Z;
  ge_zeta : zpow (rho 0%nat) hz = - (1) }.

Lemma Cconj_plus (x y : C) : Cconj (x + y) = Cconj x + Cconj y.
Proof. apply injective_projections; simpl; ring. Qed.
Lemma Cconj_mult (x y : C) : Cconj (x * y) = Cconj x * Cconj y.
Proof. apply injective_projections; simpl; ring. Qed.
Lemma Cconj_opp (x : C) : Cconj (- x) = - Cconj x.
Proof. apply injective_projections; simpl; ring. Qed.
Lemma Cconj_RtoC (r : R) : Cconj (RtoC r) = RtoC r.
Proof. apply injective_projections; simpl; ring. Qed.
Lemma Cconj_invol (x : C) : Cconj (Cconj x) = x.
Proof. apply injective_projections; simpl; ring. Qed.
Lemma Cconj_cpow x n : Cconj (cpow x n) = cpow (Cconj x) n.
Proof. induction n as [|n IH]; simpl; [apply Cconj_RtoC | now rewrite Cconj_mult, IH]. Qed.

Lemma cpow_add x a b : cpow x (a + b) = cpow x a * cpow x b.
Proof. induction a as [|a IH]; simpl; [ring | rewrite IH; ring]. Qed.
Lemma cpow_1 n : cpow 1 n = 1.
Proof. induction n as [|n IH]; simpl; [reflexivity | rewrite IH; ring]. Qed.
Lemma cpow_mul_distr x y n : cpow (x * y) n = cpow x n * cpow y n.
Proof. induction n as [|n IH]; simpl; [ring | rewrite IH; ring]. Qed.

Lemma Z_as_diff e : exists n m, e = (Z.of_nat n - Z.of_nat m)%Z.
Proof. exists (Z.to_nat e), (Z.to_nat (- e)). lia. Qed.

Section Unit.
  Variable u : C * C.
  Hypothesis Hu : fst u * snd u = 1.

  Lemma cpow_cancel n : cpow (fst u) n * cpow (snd u) n = 1.
  Proof. rewrite <- cpow_mul_distr, Hu. apply cpow_1. Qed.

  Lemma zpow_0 : zpow u 0 = 1.
  Proof. reflexivity. Qed.

  (* on a difference of naturals zpow is a product of two natural powers; the common part cancels *)
  Lemma zpow_diff n m : zpow u (Z.of_nat n - Z.of_nat m) = cpow (fst u) n * cpow (snd u) m.
  Proof.
    unfold zpow. destruct (Z.leb_spec 0 (Z.of_nat n - Z.of_nat m)) as [H|H].
    - remember (Z.to_nat (Z.of_nat n - Z.of_nat m)) as k. assert (n = (k + m)%nat) as -> by lia.
      rewrite cpow_add, <- Cmult_assoc, cpow_cancel. ring.
    - remember (Z.to_nat (- (Z.of_nat n - Z.of_nat m))) as k. assert (m = (n + k)%nat) as -> by lia.
      rewrite cpow_add, Cmult_assoc, cpow_cancel. ring.
  Qed.

  Lemma zpow_add a b : zpow u (a + b) = zpow u a * zpow u b.
  Proof.
    destruct (Z_as_diff a) as (n & m & ->), (Z_as_diff b) as (n' & m' & ->).
    replace (Z.of_nat n - Z.of_nat m + (Z.of_nat n' - Z.of_nat m'))%Z
      with (Z.of_nat (n + n') - Z.of_nat (m + m'))%Z by lia.
    rewrite !zpow_diff, !cpow_add. ring.
  Qed.
End Unit.

Lemma zpow_conj u e : Cconj (fst u) = snd u -> Cconj (zpow u e) = zpow u (- e).
Proof.
  intros H. assert (H' : Cconj (snd u) = fst u) by (rewrite <- H; apply Cconj_invol).
  destruct e as [|p|p]; unfold zpow; cbn [Z.leb Z.compare Z.opp]; rewrite Cconj_cpow, ?H, ?H'; reflexivity.
Qed.

Definition sgn (q : Z) : C := if Z.even q then 1 else - (1).

Lemma sgn_succ q : sgn (q + 1) = - (1) * sgn q.
Proof. unfold sgn. rewrite Z.even_add. destruct (Z.even q); cbn; ring. Qed.

Lemma zpow_hz_mul u hz : fst u * snd u = 1 -> zpow u hz = - (1) -> forall q, zpow u (hz * q) = sgn q.
Proof.
  intros Hu Hz.
  assert (S : forall q, zpow u (hz * (q + 1)) = - (1) * zpow u (hz * q)).
  { intros q. rewrite Z.mul_add_distr_l, Z.mul_1_r, (zpow_add u Hu), Hz. ring. }
  induction q as [|q IH|q IH] using Z.peano_ind.
  - rewrite Z.mul_0_r. reflexivity.
  - unfold Z.succ. rewrite S, IH, sgn_succ. reflexivity.
  - (* both sides change sign from q - 1 to q *)
    replace q with (Z.pred q + 1)%Z in IH by lia. rewrite S, sgn_succ in IH.
    transitivity (- (1) * (- (1) * zpow u (hz * Z.pred q))); [ring | rewrite IH; ring].
Qed.

Lemma q2c_plus a b : q2c (a + b)%Q = q2c a + q2c b.
Proof. unfold q2c. now rewrite Q2R_plus, RtoC_plus. Qed.
Lemma q2c_mult a b : q2c (a * b)%Q = q2c a * q2c b.
Proof. unfold q2c. now rewrite Q2R_mult, RtoC_mult. Qed.
Lemma q2c_opp a : q2c (- a)%Q = - q2c a.
Proof. unfold q2c. now rewrite Q2R_opp, RtoC_opp. Qed.
Lemma q2c_red a : q2c (Qred a) = q2c a.
Proof. unfold q2c. f_equal. apply Qeq_eqR, Qred_correct. Qed.
Lemma q2c_1 : q2c 1%Q = 1.
Proof. unfold q2c, Q2R; cbn. f_equal. field. Qed.
Lemma q2c_zero a : Qeq_bool a 0%Q = true -> q2c a = 0.
Proof. intros H. apply Qeq_bool_eq in H. unfold q2c. rewrite (Qeq_eqR _ _ H). unfold Q2R; cbn. f_equal. field. Qed.

Section Eval.
  Variable hz : Z.
  Variable rho : env.
  Hypothesis G : good_env hz rho.

  Lemma eeval_eadd a : forall b k, eeval rho k (eadd a b) = eeval rho k a * eeval rho k b.
  Proof.
    induction a as [|x a IH]; intros b k; [cbn; ring|].
    destruct b as [|y b]; [cbn; ring|]. cbn [eadd eeval].
    rewrite (zpow_add _ (ge_unit _ _ G k)), IH. ring.
  Qed.

  Lemma eeval_estrip e : forall k, eeval rho k (estrip e) = eeval rho k e.
  Proof.
    induction e as [|x e IH]; intros k; [reflexivity|]. cbn [estrip eeval]. specialize (IH (S k)).
    destruct (estrip e) as [|y r] eqn:E.
    - rewrite <- IH. destruct (x =? 0)%Z eqn:X; [apply Z.eqb_eq in X; subst; cbn; ring | reflexivity].
    - cbn [eeval] in *. rewrite IH. reflexivity.
  Qed.

  Lemma eeqb_eq a : forall b, eeqb a b = true -> a = b.
  Proof.
    induction a as [|x a IH]; intros [|y b] H; try discriminate; [reflexivity|].
    cbn in H. apply andb_prop in H as [H1 H2]. apply Z.eqb_eq in H1. f_equal; auto.
  Qed.

  Lemma eeval_opp e : forall k, Cconj (eeval rho k e) = eeval rho k (map Z.opp e).
  Proof.
    induction e as [|x e IH]; intros k; cbn [map eeval]; [apply Cconj_RtoC|].
    rewrite Cconj_mult, IH, (zpow_conj _ _ (ge_conj _ _ G k)). reflexivity.
  Qed.

  Lemma peval_nil : peval rho [] = 0.
  Proof. reflexivity. Qed.
  Lemma peval_cons t p : peval rho (t :: p) = teval rho t + peval rho p.
  Proof. reflexivity. Qed.

  Lemma peval_app p q : peval rho (p ++ q) = peval rho p + peval rho q.
  Proof.
    induction p as [|t p IH]; cbn [app]; rewrite ?peval_cons, ?peval_nil; [ring|].
    rewrite IH. ring.
  Qed.

  Lemma peval_padd p q : peval rho (padd p q) = peval rho p + peval rho q.
  Proof. apply peval_app. Qed.

  (* a termwise operation acts on the value through an additive map *)
  Lemma peval_map f (g : C -> C) : g 0 = 0 -> (forall a b, g (a + b) = g a + g b) ->
    (forall t, teval rho (f t) = g (teval rho t)) -> forall p, peval rho (map f p) = g (peval rho p).
  Proof.
    intros g0 gadd Hf. induction p as [|t p IH]; cbn [map]; rewrite ?peval_cons, ?peval_nil; [now rewrite g0|].
    now rewrite gadd, Hf, IH.
  Qed.

  Lemma teval_tmul s t : teval rho (tmul s t) = teval rho s * teval rho t.
  Proof. unfold teval, tmul. cbn [fst snd]. rewrite q2c_red, q2c_mult, eeval_eadd. ring. Qed.

  Lemma peval_pmul p q : peval rho (pmul p q) = peval rho p * peval rho q.
  Proof.
    unfold pmul. induction p as [|s p IH]; cbn [flat_map]; rewrite ?peval_cons, ?peval_nil; [ring|].
    rewrite peval_app, IH, (peval_map _ (Cmult (teval rho s))); [ring | ring | intros; ring | apply teval_tmul].
  Qed.

  Lemma peval_pneg p : peval rho (pneg p) = - peval rho p.
  Proof.
    apply peval_map; [ring | intros; ring|]. intros t. unfold teval; cbn [fst snd]. rewrite q2c_opp. ring.
  Qed.

  Lemma peval_pscale c p : peval rho (pscale c p) = q2c c * peval rho p.
  Proof.
    apply (peval_map _ (Cmult (q2c c))); [ring | intros; ring|].
    intros t. unfold teval; cbn [fst snd]. rewrite q2c_red, q2c_mult. ring.
  Qed.

  Lemma peval_pconj p : peval rho (pconj p) = Cconj (peval rho p).
  Proof.
    apply peval_map; [apply Cconj_RtoC | apply Cconj_plus|].
    intros t. unfold teval; cbn [fst snd]. rewrite Cconj_mult, eeval_opp. unfold q2c. now rewrite Cconj_RtoC.
  Qed.

  Lemma peval_pconst c : peval rho (pconst c) = q2c c.
  Proof. unfold pconst, peval, teval. cbn [fold_right fst snd eeval]. ring. Qed.
  Lemma peval_pone : peval rho pone = 1.
  Proof. rewrite <- q2c_1. apply peval_pconst. Qed.
  Lemma peval_pzero : peval rho pzero = 0.
  Proof. reflexivity. Qed.

  Lemma teval_zreduce t : teval rho (zreduce hz t) = teval rho t.
  Proof.
    unfold zreduce. destruct t as [c e]. cbn [snd fst]. destruct e as [|e0 r]; [reflexivity|].
    unfold teval. cbn [fst snd eeval].
    pose proof (ge_hz _ _ G) as Hpos.
    assert (E : e0 = (hz * (e0 / hz) + e0 mod hz)%Z) by (apply Z.div_mod; lia).
    rewrite E at 3. rewrite (zpow_add _ (ge_unit _ _ G 0%nat)).
    rewrite (zpow_hz_mul _ hz (ge_unit _ _ G 0%nat) (ge_zeta _ _ G)).
    unfold sgn. destruct (Z.even (e0 / hz)); [ring | rewrite q2c_opp; ring].
  Qed.

  Lemma peval_tinsert t acc : peval rho (tinsert t acc) = teval rho t + peval rho acc.
  Proof.
    induction acc as [|u r IH]; [reflexivity|]. cbn [tinsert].
    destruct (eeqb (snd t) (snd u)) eqn:E.
    - apply eeqb_eq in E. rewrite !peval_cons. unfold teval; cbn [fst snd]. rewrite q2c_red, q2c_plus, E. ring.
    - rewrite !peval_cons, IH. ring.
  Qed.

  Lemma peval_filter p : peval rho (filter nonzero p) = peval rho p.
  Proof.
    induction p as [|t p IH]; [reflexivity|]. cbn [filter]. unfold nonzero at 1.
    destruct (Qeq_bool (fst t) 0) eqn:E; cbn [negb].
    - rewrite IH, peval_cons. unfold teval. rewrite (q2c_zero _ E). ring.
    - now rewrite !peval_cons, IH.
  Qed.

  Lemma peval_pnorm p : peval rho (pnorm hz p) = peval rho p.
  Proof.
    unfold pnorm. rewrite peval_filter. induction p as [|t p IH]; [reflexivity|].
    cbn [fold_right]. rewrite peval_tinsert, IH, peval_cons. f_equal.
    rewrite <- (teval_zreduce t). unfold teval; cbn [fst snd]. now rewrite eeval_estrip.
  Qed.

  Lemma pis_zero_sound p : pis_zero hz p = true -> peval rho p = 0.
  Proof.
    unfold pis_zero. intros H. rewrite <- peval_pnorm. destruct (pnorm hz p); [reflexivity | discriminate].
  Qed.

  Theorem peqb_sound p q : peqb hz p q = true -> peval rho p = peval rho q.
  Proof.
    unfold peqb. intros H. apply pis_zero_sound in H. rewrite peval_padd, peval_pneg in H.
    transitivity (peval rho q + (peval rho p + - peval rho q)); [ring | rewrite H; ring].
  Qed.

  Lemma peval_nadd p q : peval rho (nadd hz p q) = peval rho p + peval rho q.
  Proof. unfold nadd. now rewrite peval_pnorm, peval_padd. Qed.
  Lemma peval_nmul p q : peval rho (nmul hz p q) = peval rho p * peval rho q.
  Proof. unfold nmul. now rewrite peval_pnorm, peval_pmul. Qed.
End Eval.
